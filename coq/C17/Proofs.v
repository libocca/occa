(* C17 — proofs.  The count tree the fixed code builds has the same TEXT as a tree a C parser produces
   ([count_norm]: left-associated, every operand in parentheses) and the index tree is such a tree
   itself, so reading their text back gives these trees (ExprProofs.parse_print); their values are the
   signed distance / ceiling quotient and init +- step * k; LoopProofs.seq_values_progression gives
   the same progression for the sequential loop. *)
From Coq Require Import List ZArith Bool Lia.
From OV.C17 Require Import Expr ExprProofs Loop LoopProofs Model Spec.
Import ListNotations.
Local Open Scope Z_scope.

Lemma safe_wrapped : forall e, safe e = true -> safe (wrap e) = true.
Proof. intros. rewrite safe_wrap. assumption. Qed.

(* the left-associated tree with the same text as count_tree fixed *)
Definition base_norm (h : header) : expr :=
  let positive := positive_update (h_upd h) in
  let smaller := if positive then wrap (h_init h) else wrap (h_bound h) in
  let larger := if positive then wrap (h_bound h) else wrap (h_init h) in
  if inclusive (h_cmp h) then Bin Sub (Bin Add (Num 1) larger) smaller else Bin Sub larger smaller.

Definition count_norm (h : header) : expr :=
  match update_value (h_upd h) with
  | None => base_norm h
  | Some s => Bin Div (Paren (Bin Sub (Bin Add (base_norm h) (wrap s)) (Num 1))) (wrap s)
  end.

(* which operand is the larger one plays no part in the text or in its safety *)
Lemma print_count_norm : forall h, print (count_tree fixed h) = print (count_norm h).
Proof.
  intros h. unfold count_tree, count_norm, base_norm. cbn [v_bound_parens fixed].
  generalize (if positive_update (h_upd h) then wrap (h_init h) else wrap (h_bound h)) as lo.
  generalize (if positive_update (h_upd h) then wrap (h_bound h) else wrap (h_init h)) as hi.
  intros hi lo. destruct (update_value (h_upd h)) as [s|], (inclusive (h_cmp h));
    cbn [print wrap app]; rewrite <- ?app_assoc; reflexivity.
Qed.

Lemma safe_count_norm : forall h, wf_header h = true -> safe (count_norm h) = true.
Proof.
  intros h H. destruct (wf_header_parts h H) as [Hi [Hb Hs]].
  apply wf_operand_safe in Hi. apply wf_operand_safe in Hb.
  assert (Sb : safe (base_norm h) = true /\ eprec (base_norm h) = 10%nat).
  { apply safe_wrapped in Hi, Hb. unfold base_norm.
    destruct (positive_update (h_upd h)), (inclusive (h_cmp h)); cbn [safe eprec bprec];
      rewrite !eprec_wrap, Hi, Hb; split; reflexivity. }
  destruct Sb as [Sb Pb].
  unfold count_norm. destruct (update_value (h_upd h)) as [s|] eqn:E; [|exact Sb].
  specialize (Hs s eq_refl). apply wf_operand_safe in Hs.
  cbn [safe eprec bprec]. rewrite eprec_wrap, safe_wrap, Sb, Pb, Hs. reflexivity.
Qed.

Lemma reread_count : forall h, wf_header h = true ->
  reread (count_tree fixed h) = Some (count_norm h).
Proof.
  intros h H. rewrite (reread_same_text _ (count_norm h)) by apply print_count_norm.
  apply reread_safe. apply safe_count_norm. exact H.
Qed.

Lemma eval_base_norm : forall rho h,
  eval rho (base_norm h) =
  distance (h_cmp h) (h_upd h) (eval rho (h_init h)) (eval rho (h_bound h)).
Proof.
  intros rho h. unfold base_norm, distance, dir.
  destruct (inclusive (h_cmp h)); destruct (positive_update (h_upd h));
    cbn [eval bin_sem]; rewrite ?eval_wrap; lia.
Qed.

Lemma eval_count_norm : forall rho h,
  eval rho (count_norm h) =
  cdiv_count (distance (h_cmp h) (h_upd h) (eval rho (h_init h)) (eval rho (h_bound h)))
             (step_val rho (h_upd h)).
Proof.
  intros rho h. unfold count_norm, step_val, cdiv_count.
  destruct (update_value (h_upd h)) as [s|].
  - cbn [eval bin_sem]. rewrite ?eval_wrap, eval_base_norm. reflexivity.
  - rewrite eval_base_norm, Z.quot_1_r, Z.add_simpl_r. reflexivity.
Qed.

Lemma safe_value_tree : forall h m, wf_header h = true -> safe (value_tree h (Var m)) = true.
Proof.
  intros h m H. destruct (wf_header_parts h H) as [Hi [_ Hs]]. apply wf_operand_safe in Hi.
  assert (Sb : forall o, bprec o = 10%nat -> forall e, safe e = true -> eprec e = 13%nat ->
               safe (Bin o (wrap (h_init h)) e) = true).
  { intros o Ho e Se Pe. cbn [safe]. rewrite Ho, safe_wrap, eprec_wrap, Hi, Se, Pe. reflexivity. }
  unfold value_tree. apply Sb; [destruct (positive_update (h_upd h)); reflexivity| |];
    destruct (update_value (h_upd h)) as [s|] eqn:E; try reflexivity.
  specialize (Hs s eq_refl). apply wf_operand_safe in Hs.
  cbn [safe eprec bprec wrap]. rewrite eprec_wrap, safe_wrap, Hs. reflexivity.
Qed.

Lemma eval_value_tree : forall rho h m k, wf_header h = true -> m < 0 ->
  eval (upd_env rho m k) (value_tree h (Var m)) =
  eval rho (h_init h) + k * (dir (h_upd h) * step_val rho (h_upd h)).
Proof.
  intros rho h m k H Hm. destruct (wf_header_parts h H) as [Hi [_ Hs]].
  assert (Em : upd_env rho m k m = k) by (unfold upd_env; rewrite Z.eqb_refl; reflexivity).
  unfold value_tree, step_val, dir.
  destruct (update_value (h_upd h)) as [s|] eqn:E; [specialize (Hs s eq_refl)|];
    destruct (positive_update (h_upd h)); cbn [eval bin_sem wrap];
    rewrite ?eval_wrap, Em, !eval_upd_wf by assumption; lia.
Qed.

Lemma launch_blocks_fixed : forall n, launch_blocks fixed n = Z.to_nat n.
Proof.
  intros n. unfold launch_blocks. cbn [v_noop_negative fixed negb]. rewrite andb_false_r.
  destruct (Z.leb_spec n 0); [|reflexivity]. lia.
Qed.

Lemma launch_blocks_negative : forall v n,
  v_noop_negative v = false -> n < 0 -> launch_blocks v n = Z.to_nat (two64 + n).
Proof.
  intros v n Hv Hn. unfold launch_blocks.
  rewrite Hv, (proj2 (Z.leb_le n 0) (Z.lt_le_incl _ _ Hn)), (proj2 (Z.ltb_lt n 0) Hn). reflexivity.
Qed.

(* such a launch has about 2^64 blocks: its list cannot be evaluated, only shown not to be empty *)
Lemma values_gpu_nonempty : forall v rho h m c d,
  reread (count_tree v h) = Some c -> reread (value_tree h (Var m)) = Some d ->
  v_noop_negative v = false -> - two64 < eval rho c < 0 ->
  values_gpu v rho h m <> Some [].
Proof.
  intros v rho h m c d Ec Ed Hv [Hlo Hn]. unfold values_gpu.
  rewrite Ec, Ed, (launch_blocks_negative v _ Hv Hn).
  destruct (Z.to_nat (two64 + eval rho c)) as [|n] eqn:E; [lia|]. discriminate.
Qed.

Lemma accepted_direction : forall h, accepted fixed h = true -> direction_ok h = true.
Proof. unfold accepted. cbn [v_reject_mismatch fixed]. intros h H. apply andb_prop in H. tauto. Qed.

(* the values one axis of a launch hands to a loop when the dimension written for it is n: what
   values_gpu does once the count is known, and what nest_gpu does per loop *)
Definition axis_values (v : variant) (rho : env) (h : header) (m n : Z) : option (list Z) :=
  match reread (value_tree h (Var m)) with
  | Some t => Some (map (fun k => eval (upd_env rho m (Z.of_nat k)) t) (seq 0 (launch_blocks v n)))
  | None => None
  end.

Lemma axis_values_seq : forall rho h m n,
  wf_header h = true -> direction_ok h = true -> step_positive rho h -> m < 0 ->
  n = eval rho (count_norm h) ->
  axis_values fixed rho h m n = seq_values rho h.
Proof.
  intros rho h m n Hwf Hdir Hstep Hm ->. unfold axis_values.
  rewrite reread_safe by (apply safe_value_tree; exact Hwf).
  rewrite launch_blocks_fixed, eval_count_norm, seq_values_progression by assumption.
  f_equal. apply map_ext. intros k. apply eval_value_tree; assumption.
Qed.

Lemma values_gpu_axis : forall v rho h m,
  values_gpu v rho h m =
  match reread (count_tree v h) with
  | Some c => axis_values v rho h m (eval rho c)
  | None => None
  end.
Proof. reflexivity. Qed.

Theorem gpu_visits_seq : forall rho h magic,
  wf_header h = true -> accepted fixed h = true -> step_positive rho h -> magic < 0 ->
  values_gpu fixed rho h magic = spec_values rho h.
Proof.
  intros rho h m Hwf Hacc Hstep Hm.
  rewrite values_gpu_axis, reread_count by exact Hwf.
  apply axis_values_seq; auto using accepted_direction.
Qed.

Lemma all_some_map_some : forall (A B : Type) (f : A -> option B) (g : A -> B) l,
  (forall x, In x l -> f x = Some (g x)) -> all_some (map f l) = Some (map g l).
Proof.
  intros A B f g l. induction l as [|a t IH]; intros H; cbn [map all_some]; [reflexivity|].
  rewrite (H a (or_introl eq_refl)). rewrite IH by (intros; apply H; right; assumption).
  reflexivity.
Qed.

Lemma all_some_map_sound : forall (A B : Type) (f : A -> option B) (g : A -> B) l r,
  (forall x y, f x = Some y -> g x = y) -> all_some (map f l) = Some r -> r = map g l.
Proof.
  intros A B f g l. induction l as [|a t IH]; intros r Hf H; cbn [map all_some] in *.
  - congruence.
  - destruct (f a) as [y|] eqn:Ea; [|discriminate].
    destruct (all_some (map f t)) as [r'|]; [|discriminate].
    injection H as <-. rewrite (Hf a y Ea), (IH r' Hf eq_refl). reflexivity.
Qed.

Lemma set_nth_app : forall p n x y q, length p = n -> set_nth n x (p ++ y :: q) = p ++ x :: q.
Proof.
  induction p as [|a p IH]; intros n x y q <-; cbn [length app set_nth]; [reflexivity|].
  rewrite IH; reflexivity.
Qed.

(* loop d writes axis D-1-d: the loops from d0 on fill the first D-d0 axes, innermost loop first *)
Lemma write_dims_rev : forall counts D d0 rest, (d0 + length counts = D)%nat ->
  write_dims D d0 counts (repeat 1 (length counts) ++ rest) = rev counts ++ rest.
Proof.
  induction counts as [|c t IH]; intros D d0 rest HD; cbn [write_dims length rev repeat] in *;
    [reflexivity|].
  assert (HD' : (S d0 + length t = D)%nat) by (rewrite Nat.add_succ_comm; exact HD).
  assert (Ha : axis_of D d0 = length t).
  { unfold axis_of. rewrite <- Nat.sub_add_distr. apply Nat.add_sub_eq_l, HD'. }
  rewrite Ha, repeat_cons, <- !app_assoc. cbn [app].
  rewrite (set_nth_app _ _ _ _ _ (repeat_length 1 (length t))). apply IH, HD'.
Qed.

Lemma launch_dims_rev : forall counts, launch_dims counts = rev counts.
Proof.
  intros counts. unfold launch_dims. rewrite <- (app_nil_r (repeat _ _)), write_dims_rev by reflexivity.
  apply app_nil_r.
Qed.

Theorem dim_read_back : forall counts d, (d < length counts)%nat ->
  nth (axis_of (length counts) d) (launch_dims counts) 1 = nth d counts 1.
Proof.
  intros counts d H. pose proof (@rev_nth Z (rev counts) 1 d) as E.
  rewrite rev_involutive, rev_length in E.
  unfold axis_of. rewrite launch_dims_rev, <- Nat.sub_add_distr. symmetry. exact (E H).
Qed.

Lemma spec_nest_cart : forall rho hs,
  spec_nest rho hs =
  match all_some (map (seq_values rho) hs) with Some ls => Some (cart ls) | None => None end.
Proof.
  intros rho hs. induction hs as [|h t IH]; cbn [map all_some spec_nest]; [reflexivity|].
  rewrite IH. destruct (seq_values rho h); [|reflexivity].
  destruct (all_some (map (seq_values rho) t)); reflexivity.
Qed.

Lemma map_combine_seq : forall (A B : Type) (F : nat * A -> B) (G : A -> B) l d0,
  (forall d x, nth_error l d = Some x -> F ((d0 + d)%nat, x) = G x) ->
  map F (combine (seq d0 (length l)) l) = map G l.
Proof.
  intros A B F G l. induction l as [|a t IH]; intros d0 H; cbn [length seq combine map]; [reflexivity|].
  rewrite <- (H 0%nat a eq_refl), Nat.add_0_r. f_equal.
  apply IH. intros d x Hd. rewrite <- (H (S d) x Hd). do 2 f_equal. lia.
Qed.

Theorem nest_gpu_visits_seq : forall rho hs,
  Forall (fun h => wf_header h = true /\ accepted fixed h = true /\ step_positive rho h) hs ->
  nest_gpu fixed rho hs = spec_nest rho hs.
Proof.
  intros rho hs HF. rewrite Forall_forall in HF.
  unfold nest_gpu. cbv zeta.
  rewrite (all_some_map_some _ _ (fun h => reread (count_tree fixed h)) count_norm)
    by (intros h Hin; apply reread_count; apply HF; exact Hin).
  rewrite (map_combine_seq _ _ _ (seq_values rho)), spec_nest_cart; [reflexivity|].
  intros d h Hn. cbn [fst snd plus].
  (* what nest_gpu does with loop d is axis_values, unfolded *)
  destruct (HF h (nth_error_In _ _ Hn)) as [Hwf [Hacc Hstep]].
  apply (axis_values_seq rho h); auto using accepted_direction; [unfold magic_of; lia|].
  (* the dimension read at this loop's axis is this loop's count *)
  rewrite <- (map_length count_norm hs), <- (map_length (eval rho) (map count_norm hs)).
  assert (Hd : nth_error (map (eval rho) (map count_norm hs)) d = Some (eval rho (count_norm h)))
    by (do 2 apply map_nth_error; exact Hn).
  rewrite dim_read_back by (apply nth_error_Some; congruence).
  apply nth_error_nth, Hd.
Qed.

(* loop trees: getOklLoopIndex = the dimension setKernelLaunch writes for the loop's depth *)
Lemma ltree_ind2 : forall P : ltree -> Prop,
  (forall k cs, Forall P cs -> P (LNode k cs)) -> forall t, P t.
Proof.
  intros P H. fix F 1. intros [k cs]. apply H.
  induction cs as [|c r IHr]; constructor; [apply F | exact IHr].
Qed.

Lemma same_below_unfold : forall k k' cs,
  same_below k (LNode k' cs) = ((if Bool.eqb k k' then 1 else 0) + max_below k cs)%nat.
Proof. reflexivity. Qed.

Lemma uniform_unfold : forall k n k' cs,
  uniform k n (LNode k' cs) <->
  match cs with
  | [] => n = if Bool.eqb k k' then 1%nat else O
  | _ => exists m, n = ((if Bool.eqb k k' then 1 else 0) + m)%nat /\ Forall (uniform k m) cs
  end.
Proof.
  intros k n k' cs. cbn [uniform]. destruct cs as [|c r]; [tauto|].
  assert (E : forall m l, (fix all (l : list ltree) : Prop :=
                             match l with [] => True | c :: r => uniform k m c /\ all r end) l
                          <-> Forall (uniform k m) l).
  { intros m l. induction l as [|a t IH]; [split; constructor|].
    rewrite Forall_cons_iff, <- IH. reflexivity. }
  split; intros [m [Hn Ha]]; exists m; (split; [exact Hn|]); apply (E m (c :: r)); exact Ha.
Qed.

Lemma max_below_const : forall k m cs, cs <> [] ->
  Forall (fun c => same_below k c = m) cs -> max_below k cs = m.
Proof.
  intros k m cs. induction cs as [|a t IH]; intros Hne HF; [contradiction|].
  apply Forall_cons_iff in HF as [Ha Ht]. cbn [max_below fold_right]. rewrite Ha.
  destruct t as [|b t']; [apply Nat.max_0_r|].
  fold (max_below k (b :: t')). rewrite IH by (assumption || discriminate). apply Nat.max_id.
Qed.

Lemma same_below_uniform : forall k t n, uniform k n t -> same_below k t = n.
Proof.
  intros k t. induction t as [k' cs IH] using ltree_ind2. intros n H.
  rewrite same_below_unfold. apply uniform_unfold in H.
  destruct cs as [|c r]; [cbn [max_below fold_right]; lia|].
  destruct H as [m [-> Hall]]. f_equal. apply max_below_const; [discriminate|].
  rewrite Forall_forall in *. intros x Hx. apply IH; [exact Hx|apply Hall, Hx].
Qed.
