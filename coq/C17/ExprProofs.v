(* Shared by C17, C18, C19 — facts about Expr.v: a tree that a C parser can produce ([safe]) is read
   back unchanged from its printed text (parse_print; the reader is first described by rules Pe, Pl,
   Pu, which the induction then applies), and the 32-bit evaluation, where defined, agrees with the
   value in Z (evalc_sound). *)
From Coq Require Import List ZArith Bool Lia Arith.
From OV.C17 Require Import Expr.
Import ListNotations.

(* [Pe k minp ts res]: p_expr returns res on ts as soon as it has fuel k; likewise Pl, Pu.
   Fuel is counted additively, so that "more fuel" is never an arithmetic question. *)
Definition Pe (k minp : nat) (ts : list tok) (res : expr * list tok) : Prop :=
  forall f, p_expr (k + f) minp ts = Some res.
Definition Pl (k minp : nat) (lhs : expr) (ts : list tok) (res : expr * list tok) : Prop :=
  forall f, p_loop (k + f) minp lhs ts = Some res.
Definition Pu (k : nat) (ts : list tok) (res : expr * list tok) : Prop :=
  forall f, p_unary (k + f) ts = Some res.

Lemma Pe_le : forall k minp ts res f, Pe k minp ts res -> k <= f -> p_expr f minp ts = Some res.
Proof. intros k minp ts res f H Hle. rewrite <- (Nat.sub_add k f Hle), Nat.add_comm. apply H. Qed.

Lemma Pl_det : forall k k' minp lhs ts res res',
  Pl k minp lhs ts res -> Pl k' minp lhs ts res' -> res = res'.
Proof.
  intros k k' minp lhs ts res res' H H'.
  specialize (H k'). specialize (H' k). rewrite Nat.add_comm in H'. congruence.
Qed.

Lemma Pe_intro : forall k1 k2 minp ts lhs r res,
  Pu k1 ts (lhs, r) -> Pl k2 minp lhs r res -> Pe (S (k1 + k2)) minp ts res.
Proof.
  intros k1 k2 minp ts lhs r res Hu Hl f. cbn [Nat.add p_expr].
  rewrite <- Nat.add_assoc, Hu, (Nat.add_comm k1), <- Nat.add_assoc. apply Hl.
Qed.

Lemma Pl_bin : forall k1 k2 minp lhs o r rhs r' res,
  minp <= bprec o -> Pe k1 (S (bprec o)) r (rhs, r') -> Pl k2 minp (Bin o lhs rhs) r' res ->
  Pl (S (k1 + k2)) minp lhs (KBin o :: r) res.
Proof.
  intros k1 k2 minp lhs o r rhs r' res Hm He Hl f. cbn [Nat.add p_loop].
  rewrite (proj2 (Nat.leb_le _ _) Hm), <- Nat.add_assoc, He, (Nat.add_comm k1), <- Nat.add_assoc.
  apply Hl.
Qed.

Lemma Pl_tern : forall k1 k2 minp lhs r a r' b r'',
  minp <= 1 -> Pe k1 1 r (a, KColon :: r') -> Pe k2 1 r' (b, r'') ->
  Pl (S (k1 + k2)) minp lhs (KQ :: r) (Tern lhs a b, r'').
Proof.
  intros k1 k2 minp lhs r a r' b r'' Hm Ha Hb f. cbn [Nat.add p_loop].
  rewrite (proj2 (Nat.leb_le _ _) Hm), <- Nat.add_assoc, Ha, (Nat.add_comm k1), <- Nat.add_assoc, Hb.
  reflexivity.
Qed.

Lemma Pl_stop : forall minp lhs rest, hp rest < minp -> Pl 1 minp lhs rest (lhs, rest).
Proof.
  intros minp lhs rest H f.
  destruct rest as [|[]]; try reflexivity; cbn [hp] in H; cbn [Nat.add p_loop].
  all: rewrite (proj2 (Nat.leb_gt _ _) H); reflexivity.
Qed.

Lemma Pu_paren : forall k r e r', Pe k 1 r (e, KRP :: r') -> Pu (S k) (KLP :: r) (Paren e, r').
Proof. intros k r e r' H f. cbn [Nat.add p_unary]. rewrite (H f). reflexivity. Qed.

Lemma Pu_un : forall k o r e r', Pu k r (e, r') -> Pu (S k) (untok o :: r) (Un o e, r').
Proof.
  intros k o r e r' H f. destruct o; cbn [Nat.add untok p_unary]; rewrite (H f); reflexivity.
Qed.

Lemma bprec_range : forall o, 2 <= bprec o <= 11.
Proof.
  assert (H : forall o, (2 <=? bprec o) && (bprec o <=? 11) = true) by (destruct o; reflexivity).
  intro o. destruct (andb_prop _ _ (H o)) as [H2 H11]. split; apply Nat.leb_le; assumption.
Qed.

Lemma eprec_pos : forall e, 1 <= eprec e.
Proof.
  destruct e; cbn [eprec]; try lia. pose proof (bprec_range o). lia.
Qed.

Definition unary_level (e : expr) : Prop :=
  match e with
  | Bin _ _ _ | Tern _ _ _ => False
  | _ => True
  end.

Lemma unary_level_prec : forall e, 12 <= eprec e -> unary_level e.
Proof.
  destruct e; cbn [eprec unary_level]; try exact (fun _ => I); intro H; [pose proof (bprec_range o)|]; lia.
Qed.

(* what may follow e without being swallowed by e's right spine *)
Definition rp (e : expr) : nat :=
  match e with
  | Tern _ _ _ => 0
  | _ => eprec e
  end.

Lemma rp_ge : forall e n, 2 <= n -> n <= eprec e -> n <= rp e.
Proof.
  intros e n H2 H. destruct e; cbn [rp eprec] in *; lia.
Qed.

(* e stands where operators of strength minp or more are taken and rest follows it: the reader
   has to take all of e and nothing of rest *)
Definition placed (e : expr) (minp : nat) (rest : list tok) : Prop :=
  1 <= minp /\ minp <= eprec e /\ hp rest <= rp e.

Lemma placed_bin_l : forall o l r minp rest ts,
  bprec o <= eprec l -> placed (Bin o l r) minp rest -> placed l minp (KBin o :: ts).
Proof.
  intros o l r minp rest ts Hl [H1 [Hm _]]. cbn [eprec] in Hm.
  pose proof (bprec_range o). pose proof (rp_ge l (bprec o)). unfold placed. cbn [hp]. lia.
Qed.

Lemma placed_bin_r : forall o l r minp rest,
  S (bprec o) <= eprec r -> placed (Bin o l r) minp rest -> placed r (S (bprec o)) rest.
Proof.
  intros o l r minp rest Hr [_ [_ Hh]]. cbn [rp eprec] in Hh.
  pose proof (bprec_range o). pose proof (rp_ge r (S (bprec o))). unfold placed. lia.
Qed.

Lemma placed_tern_c : forall c a b minp rest ts,
  2 <= eprec c -> placed (Tern c a b) minp rest -> placed c minp (KQ :: ts).
Proof.
  intros c a b minp rest ts Hc [H1 [Hm _]]. cbn [eprec] in Hm.
  pose proof (rp_ge c 2). unfold placed. cbn [hp]. lia.
Qed.

Lemma placed_tern : forall c a b minp rest, placed (Tern c a b) minp rest -> minp = 1 /\ hp rest = 0.
Proof.
  intros c a b minp rest [H1 [Hm Hh]]. cbn [eprec rp] in Hm, Hh. lia.
Qed.

(* the fuel the rules add up to on the text of e: [fe e k] for p_expr when the loop that takes
   over after e needs k, [fu e] for p_unary *)
Fixpoint fe (e : expr) (k : nat) : nat :=
  match e with
  | Bin _ l r => fe l (S (fe r 1 + k))
  | Tern c a b => fe c (S (fe a 1 + fe b 1))
  | Un _ a => S (fe a k)
  | Paren a => S (S (fe a 1) + k)
  | Num _ | Var _ => S (1 + k)
  end.

Fixpoint fu (e : expr) : nat :=
  match e with
  | Un _ a => S (fu a)
  | Paren a => S (fe a 1)
  | _ => 1
  end.

Lemma fe_unary : forall e k, safe e = true -> unary_level e -> fe e k = S (fu e + k).
Proof.
  induction e as [n|x|o l _ r _|o a IHa|c _ a _ b _|a _]; intros k Hs He; try reflexivity;
    try destruct He.
  cbn [safe] in Hs. apply andb_prop in Hs as [Hsa Ha]. apply Nat.leb_le, unary_level_prec in Ha.
  cbn [fe fu]. rewrite (IHa k Hsa Ha). reflexivity.
Qed.

Lemma fuel_le_length : forall e k, fe e k <= 4 * length (print e) + k.
Proof.
  induction e as [n|x|o l IHl r IHr|o a IHa|c IHc a IHa b IHb|a IHa]; intro k; cbn [fe print].
  - cbn [length]. lia.
  - cbn [length]. lia.
  - rewrite app_length. cbn [length].
    specialize (IHl (S (fe r 1 + k))). specialize (IHr 1). lia.
  - cbn [length]. specialize (IHa k). lia.
  - rewrite app_length. cbn [length]. rewrite app_length. cbn [length].
    specialize (IHc (S (fe a 1 + fe b 1))). specialize (IHa 1). specialize (IHb 1). lia.
  - cbn [length]. rewrite app_length. cbn [length]. specialize (IHa 1). lia.
Qed.

(* in front of any rest that [placed] allows, p_expr on the text of e hands e to its loop, whatever
   that loop then does with rest; at unary level p_unary returns e *)
Definition reads_back (e : expr) : Prop :=
  (forall minp rest res k,
      placed e minp rest -> Pl k minp e rest res -> Pe (fe e k) minp (print e ++ rest) res)
  /\ (unary_level e -> forall rest, Pu (fu e) (print e ++ rest) (e, rest)).

Lemma reads_back_unary : forall e, safe e = true -> unary_level e ->
  (forall rest, Pu (fu e) (print e ++ rest) (e, rest)) -> reads_back e.
Proof.
  intros e Hs He U. split; [|intros _; exact U].
  intros minp rest res k _ HL. rewrite (fe_unary e k Hs He).
  exact (Pe_intro _ _ _ _ _ _ _ (U rest) HL).
Qed.

Lemma reads_closed : forall e ts, reads_back e -> hp ts = 0 ->
  Pe (fe e 1) 1 (print e ++ ts) (e, ts).
Proof.
  intros e ts [E _] H. apply E; [unfold placed | apply Pl_stop]; rewrite H.
  - split; [apply le_n | split; [apply eprec_pos | apply Nat.le_0_l]].
  - apply Nat.lt_0_1.
Qed.

Lemma safe_reads_back : forall e, safe e = true -> reads_back e.
Proof.
  induction e as [n|x|o l IHl r IHr|o a IHa|c IHc a IHa b IHb|a IHa]; intro Hs.
  - apply reads_back_unary; [exact Hs|exact I|]. intros rest f. reflexivity.
  - apply reads_back_unary; [exact Hs|exact I|]. intros rest f. reflexivity.
  - cbn [safe] in Hs. apply andb_prop in Hs as [Hs Hr]. apply andb_prop in Hs as [Hs Hl].
    apply andb_prop in Hs as [Hsl Hsr]. apply Nat.leb_le in Hl, Hr.
    destruct (IHl Hsl) as [El _], (IHr Hsr) as [Er _].
    split; [|intros []].
    intros minp rest res k Hp HL.
    pose proof Hp as [_ [Hm Hh]]. cbn [eprec rp] in Hm, Hh.
    cbn [print fe]. rewrite <- app_assoc, <- app_comm_cons.
    apply El; [exact (placed_bin_l _ _ _ _ _ _ Hl Hp)|].
    apply (Pl_bin _ _ _ _ _ _ r rest); [exact Hm| |exact HL].
    apply Er; [exact (placed_bin_r _ _ _ _ _ Hr Hp)|].
    apply Pl_stop, Nat.lt_succ_r, Hh.
  - apply reads_back_unary; [exact Hs|exact I|]. intro rest.
    cbn [safe] in Hs. apply andb_prop in Hs as [Hsa Ha]. apply Nat.leb_le, unary_level_prec in Ha.
    destruct (IHa Hsa) as [_ Ua].
    cbn [print fu]. rewrite <- app_comm_cons. apply Pu_un, Ua, Ha.
  - cbn [safe] in Hs. apply andb_prop in Hs as [Hs Hc]. apply andb_prop in Hs as [Hs Hsb].
    apply andb_prop in Hs as [Hsc Hsa]. apply Nat.leb_le in Hc.
    destruct (IHc Hsc) as [Ec _].
    split; [|intros []].
    intros minp rest res k Hp HL.
    destruct (placed_tern _ _ _ _ _ Hp) as [-> H0].
    (* the loop after a conditional can only stop *)
    assert (res = (Tern c a b, rest)) as ->.
    { apply (Pl_det _ 1 _ _ _ _ _ HL), Pl_stop. rewrite H0. apply Nat.lt_0_1. }
    cbn [print fe]. rewrite <- app_assoc, <- app_comm_cons, <- app_assoc, <- app_comm_cons.
    apply Ec; [exact (placed_tern_c _ _ _ _ _ _ Hc Hp)|].
    apply (Pl_tern _ _ _ _ _ _ (print b ++ rest) _ _ (le_n 1)).
    + exact (reads_closed a (KColon :: print b ++ rest) (IHa Hsa) eq_refl).
    + exact (reads_closed b _ (IHb Hsb) H0).
  - apply reads_back_unary; [exact Hs|exact I|]. intro rest.
    cbn [print fu]. rewrite <- app_comm_cons, <- app_assoc. cbn [app].
    apply Pu_paren. exact (reads_closed a (KRP :: rest) (IHa Hs) eq_refl).
Qed.

Theorem parse_print : forall e, safe e = true -> parse (print e) = Some e.
Proof.
  intros e Hs. pose proof (reads_closed e [] (safe_reads_back e Hs) eq_refl) as P.
  rewrite app_nil_r in P.
  unfold parse. rewrite (Pe_le _ _ _ _ _ P); [reflexivity|]. unfold parse_fuel.
  apply (Nat.le_trans _ _ _ (fuel_le_length e 1)), Nat.add_le_mono_l, Nat.lt_0_succ.
Qed.

Corollary reread_safe : forall e, safe e = true -> reread e = Some e.
Proof. intros; apply parse_print; assumption. Qed.

Lemma reread_same_text : forall e e', print e = print e' -> reread e = reread e'.
Proof. intros e e' H. unfold reread. rewrite H. reflexivity. Qed.

Lemma eprec_wrap : forall e, eprec (wrap e) = 13%nat.
Proof. destruct e; reflexivity. Qed.

Lemma safe_wrap : forall e, safe (wrap e) = safe e.
Proof. destruct e; reflexivity. Qed.

Lemma eval_wrap : forall rho e, eval rho (wrap e) = eval rho e.
Proof. destruct e; reflexivity. Qed.

Lemma vars_wrap : forall e, vars (wrap e) = vars e.
Proof. destruct e; reflexivity. Qed.

Local Open Scope Z_scope.

Lemma chk_some : forall x v, chk x = Some v -> v = x.
Proof. unfold chk. intros x v H. destruct (fits x); congruence. Qed.

Lemma binc_some : forall o x y v, binc o x y = Some v -> v = bin_sem o x y.
Proof.
  intros o x y v H. destruct o; cbn [binc] in H;
    try (apply chk_some in H; exact H);
    repeat match type of H with
           | (if ?c then _ else _) = _ => destruct c
           end; try discriminate; try (apply chk_some in H; exact H); congruence.
Qed.

Theorem evalc_sound : forall rho e v, evalc rho e = Some v -> eval rho e = v.
Proof.
  intros rho e. induction e as [n|x|o l IHl r IHr|o a IHa|c IHc a IHa b IHb|a IHa]; intros v H.
  - apply chk_some in H. symmetry. exact H.
  - apply chk_some in H. symmetry. exact H.
  - cbn [eval].
    assert (G : match evalc rho l, evalc rho r with
                | Some x, Some y => binc o x y
                | _, _ => None
                end = Some v -> bin_sem o (eval rho l) (eval rho r) = v).
    { destruct (evalc rho l) as [x|]; [|discriminate].
      destruct (evalc rho r) as [y|]; [|discriminate].
      rewrite (IHl _ eq_refl), (IHr _ eq_refl). intro B. symmetry. exact (binc_some _ _ _ _ B). }
    cbn [evalc] in H. destruct o; try exact (G H); clear G;
      (* && and ||: the right operand is evaluated only where the left one does not decide *)
      (destruct (evalc rho l) as [x|]; [|discriminate]); rewrite (IHl _ eq_refl); cbn [bin_sem];
      destruct (truthy x);
      try (destruct (evalc rho r) as [y|]; [|discriminate]; rewrite (IHr _ eq_refl));
      injection H as <-; reflexivity.
  - cbn [evalc eval] in *. destruct (evalc rho a) as [x|]; [|discriminate].
    rewrite (IHa _ eq_refl). apply chk_some in H. symmetry. exact H.
  - cbn [evalc eval] in *. destruct (evalc rho c) as [x|]; [|discriminate].
    rewrite (IHc _ eq_refl). destruct (truthy x); auto.
  - cbn [evalc eval] in *. auto.
Qed.

Lemma eval_ext : forall rho rho' e,
  (forall x, In x (vars e) -> rho x = rho' x) -> eval rho e = eval rho' e.
Proof.
  intros rho rho' e. induction e as [n|x|o l IHl r IHr|o a IHa|c IHc a IHa b IHb|a IHa]; intros H;
    cbn [eval vars] in *.
  - reflexivity.
  - apply H. left. reflexivity.
  - rewrite IHl, IHr; auto; intros; apply H; apply in_or_app; auto.
  - rewrite IHa; auto.
  - rewrite IHc, IHa, IHb; auto; intros; apply H; apply in_or_app; auto;
      right; apply in_or_app; auto.
  - auto.
Qed.

Lemma eval_upd_fresh : forall rho x v e, ~ In x (vars e) -> eval (upd_env rho x v) e = eval rho e.
Proof.
  intros rho x v e H. apply eval_ext. intros y Hy. unfold upd_env.
  destruct (Z.eqb_spec y x); [subst; contradiction|reflexivity].
Qed.
