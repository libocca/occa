(* C17 — every backend visits exactly the iterations of each OKL loop.  The lemmas are in
   ExprProofs.v, LoopProofs.v, Proofs.v.  Vocabulary: Expr.v (trees, print, reread, eval), Loop.v
   (headers, sequential loop), Model.v (count_tree, value_tree, launch), Spec.v. *)
From Coq Require Import List ZArith Bool Lia.
From OV.C17 Require Import Expr ExprProofs Loop LoopProofs Model Spec Proofs.
Import ListNotations.
Local Open Scope Z_scope.

(* The text printed for a tree that a C parser can produce is read back as that tree. *)
Theorem parse_print_roundtrip : forall e, safe e = true -> parse (print e) = Some e.
Proof. exact ExprProofs.parse_print. Qed.
Print Assumptions parse_print_roundtrip.

(* The sequential loop never runs out of the fuel the specification gives it. *)
Theorem seq_fuel_suffices : forall rho h,
  direction_ok h = true -> step_positive rho h -> spec_values rho h <> None.
Proof. exact LoopProofs.seq_fuel_sufficient. Qed.
Print Assumptions seq_fuel_suffices.

(* Main theorem (launcher back ends: CUDA, HIP, OpenCL, Metal, DPC++).  For every header with
   operands a C parser can produce, accepted by the translator, and every run-time environment in
   which the step is positive: launching  count  threads along the loop's axis, where count is the
   value of the emitted launch-size TEXT, and giving thread k the iterator value of the emitted
   declaration TEXT, visits exactly the values of the sequential loop, each once, in order;
   both sides are empty for run-time-empty loops. *)
Theorem gpu_visits_seq : forall rho h magic,
  wf_header h = true -> accepted fixed h = true -> step_positive rho h -> magic < 0 ->
  values_gpu fixed rho h magic = spec_values rho h.
Proof. exact Proofs.gpu_visits_seq. Qed.
Print Assumptions gpu_visits_seq.

(* The same in 32-bit `int` arithmetic: if the emitted expressions evaluate without undefined
   behaviour (no overflow), their values are the sequential loop's. *)
Theorem gpu_visits_seq_int32 : forall rho h magic l,
  wf_header h = true -> accepted fixed h = true -> step_positive rho h -> magic < 0 ->
  values_gpu_c fixed rho h magic = Some l -> spec_values rho h = Some l.
Proof.
  intros rho h m l Hwf Hacc Hstep Hm H.
  rewrite <- (gpu_visits_seq rho h m Hwf Hacc Hstep Hm).
  unfold values_gpu_c, values_gpu in *.
  destruct (reread (count_tree fixed h)) as [c|]; [|discriminate].
  destruct (reread (value_tree h (Var m))) as [d|]; [|discriminate].
  destruct (evalc rho c) as [n|] eqn:En; [|discriminate].
  rewrite (evalc_sound _ _ _ En). f_equal. symmetry.
  apply (all_some_map_sound _ _ _ _ _ _ (fun k y => evalc_sound _ d y) H).
Qed.
Print Assumptions gpu_visits_seq_int32.

(* Several nested loops of one kind: the launch dimension the launcher writes for a loop is the one
   the loop's thread index ranges over, and the visited iterator tuples are those of the nested
   sequential loops. *)
Theorem dim_read_back : forall counts d, (d < length counts)%nat ->
  nth (axis_of (length counts) d) (launch_dims counts) 1 = nth d counts 1.
Proof. exact Proofs.dim_read_back. Qed.
Print Assumptions dim_read_back.

Theorem nest_gpu_visits_seq : forall rho hs,
  Forall (fun h => wf_header h = true /\ accepted fixed h = true /\ step_positive rho h) hs ->
  nest_gpu fixed rho hs = spec_nest rho hs.
Proof. exact Proofs.nest_gpu_visits_seq. Qed.
Print Assumptions nest_gpu_visits_seq.

(* Loop trees (a loop may hold several sibling loops of its own kind).  In a kernel that
   kernelHasValidOklLoops accepts every path below a loop holds the same number n of loops of the loop's
   kind (the loop included); getOklLoopIndex — the largest such number over the paths below, the loop
   excluded — is then n - 1.  (For the d-th of D nested loops of one kind n = D - d, so this is
   D - 1 - d, which is how [axis_of] is defined; the theorem itself stops at n - 1.) *)
Theorem loop_index_uniform : forall k cs n,
  uniform k n (LNode k cs) -> loop_index (LNode k cs) = (n - 1)%nat.
Proof.
  intros k cs n H. pose proof (same_below_uniform _ _ _ H) as E.
  rewrite same_below_unfold, Bool.eqb_reflx in E. cbn [loop_index]. lia.
Qed.
Print Assumptions loop_index_uniform.

(* @outer o { @inner a { @inner b {} @inner c {} } }: a reads component 1, b and c component 0;
   counting every nested @inner loop instead would give 2 for a *)
Example ex_siblings :
  let t := forked [true; false; false] 2 in
  t = [LNode true [LNode false [LNode false []; LNode false []]]] /\
  index_at t 0 = 0%nat /\ index_at t 1 = 1%nat /\ index_at t 2 = 0%nat /\
  index_at (forked [true; true; true; false] 1) 0 = 2%nat /\
  index_at (forked [true; true; true; false] 1) 1 = 1%nat.
Proof. repeat split; reflexivity. Qed.

(* Serial / OpenMP keep the loop statement: its values are the specification's by definition; that the
   emitted header is the written one is checked syntactically by the tie. *)
Theorem kept_loop_same : forall rho h, spec_values rho (kept_header h) = spec_values rho h.
Proof. reflexivity. Qed.
Print Assumptions kept_loop_same.

(* the pinned source: each of the three differences breaks the property *)
Definition N : expr := Var 0.
Definition M : expr := Var 1.
Definition rho52 : env := fun x => if x =? 0 then 5 else 2.

(* for (o = 1 + (N - 1); o >= M + 1; --o): the bound is not parenthesised, the emitted count
   `1 + (1 + (N - 1)) - M + 1` is 5 for N = 5, M = 2, the loop has 3 iterations *)
Theorem bound_parens_refuted : exists h rho magic,
  wf_header h = true /\ accepted (mkVariant false true true) h = true /\ step_positive rho h /\
  magic < 0 /\ values_gpu (mkVariant false true true) rho h magic <> spec_values rho h.
Proof.
  exists (mkHeader (Bin Add (Num 1) (Paren (Bin Sub N (Num 1)))) CGe true (Bin Add M (Num 1)) UDec),
         rho52, (-1).
  split; [reflexivity|]. split; [reflexivity|]. split; [reflexivity|]. split; [reflexivity|].
  vm_compute. discriminate.
Qed.
Print Assumptions bound_parens_refuted.

(* for (o = 0; o > N; ++o): accepted, launches N - 0 threads, the loop is empty *)
Theorem direction_mismatch_refuted : exists h rho magic,
  wf_header h = true /\ accepted (mkVariant true false true) h = true /\ step_positive rho h /\
  magic < 0 /\ spec_values rho h = Some [] /\
  values_gpu (mkVariant true false true) rho h magic = Some [0; 1; 2; 3; 4].
Proof.
  exists (mkHeader (Num 0) CGt true N UInc), rho52, (-1).
  repeat split; reflexivity.
Qed.
Print Assumptions direction_mismatch_refuted.

(* for (i = 10; i < N; i += 4) with N = 2: the count (N - 10 + 4 - 1) / 4 is -1, which the launcher
   stores in an unsigned dimension: 2^64 - 1 blocks instead of none *)
Theorem negative_count_refuted : exists h rho magic,
  wf_header h = true /\ accepted (mkVariant true true false) h = true /\ step_positive rho h /\
  magic < 0 /\ spec_values rho h = Some [] /\
  values_gpu (mkVariant true true false) rho h magic <> Some [].
Proof.
  exists (mkHeader (Num 10) CLt true M (UAdd (Num 4))), rho52, (-1).
  split; [reflexivity|]. split; [reflexivity|]. split; [reflexivity|]. split; [reflexivity|].
  split; [reflexivity|].
  eapply Proofs.values_gpu_nonempty; [vm_compute; reflexivity | vm_compute; reflexivity | reflexivity |].
  vm_compute. split; reflexivity.
Qed.
Print Assumptions negative_count_refuted.

(* for (i = 3; i < N << 1; i += 2) with N = 5: the fixed count text `((N << 1) - 3 + 2 - 1) / 2` *)
Example ex_shift_bound :
  let h := mkHeader (Num 3) CLt true (Bin Shl N (Num 1)) (UAdd (Num 2)) in
  wf_header h = true /\ accepted fixed h = true /\ step_positive rho52 h /\
  values_gpu fixed rho52 h (-1) = Some [3; 5; 7; 9] /\ spec_values rho52 h = Some [3; 5; 7; 9] /\
  (* pinned text `(N << 1 - 3 + 2 - 1) / 2`: a shift by -1 (undefined in C; 1 in Z) *)
  option_map (eval rho52) (reread (count_tree pinned h)) = Some 1 /\
  option_map (evalc rho52) (reread (count_tree pinned h)) = Some None.
Proof. repeat split; reflexivity. Qed.

(* a run-time-empty loop: for (i = 10; M >= i; i++) with M = 2 *)
Example ex_empty :
  let h := mkHeader (Num 10) CGe false M UInc in
  wf_header h = true /\ accepted fixed h = true /\ step_positive rho52 h /\
  values_gpu fixed rho52 h (-1) = Some [] /\ spec_values rho52 h = Some [].
Proof. repeat split; reflexivity. Qed.

(* two nested @outer loops *)
Example ex_nest :
  let h1 := mkHeader (Num 0) CLt true (Num 2) UInc in
  let h2 := mkHeader M CGt true (Num 0) UDec in
  nest_gpu fixed rho52 [h1; h2] = Some [[0; 2]; [0; 1]; [1; 2]; [1; 1]].
Proof. reflexivity. Qed.
