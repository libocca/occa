(* Shared by C17, C18 — the sequential `for` of a header whose update moves towards the bound visits
   an arithmetic progression:  i0, i0 + d, ..., i0 + (n-1) d  with  n = ceil (D / s)  (0 if D <= 0),
   D the signed distance from the initial value to the bound (+1 for <=, >=), d = +-s. *)
From Coq Require Import List ZArith Bool Lia.
From OV.C17 Require Import Expr ExprProofs Loop.
Import ListNotations.
Local Open Scope Z_scope.

Lemma wf_operand_safe : forall e, wf_operand e = true -> safe e = true.
Proof. unfold wf_operand. intros e H. apply andb_prop in H. tauto. Qed.

(* translator-made identifiers (negative ids) do not occur in the operands of a header *)
Lemma eval_upd_wf : forall rho m v e, wf_operand e = true -> m < 0 ->
  eval (upd_env rho m v) e = eval rho e.
Proof.
  unfold wf_operand, closed_under. intros rho m v e H Hm. apply andb_prop in H as [_ H].
  apply eval_upd_fresh. intro Hin. rewrite forallb_forall in H. specialize (H m Hin).
  unfold user_var in H. apply Z.leb_le in H. lia.
Qed.

Lemma wf_header_parts : forall h, wf_header h = true ->
  wf_operand (h_init h) = true /\ wf_operand (h_bound h) = true /\
  (forall s, update_value (h_upd h) = Some s -> wf_operand s = true).
Proof.
  unfold wf_header. intros h H. apply andb_prop in H as [H Hs]. apply andb_prop in H as [Hi Hb].
  repeat split; try assumption. intros s E. rewrite E in Hs. exact Hs.
Qed.

Definition progression (i0 d : Z) (n : nat) : list Z :=
  map (fun k => i0 + Z.of_nat k * d) (seq 0 n).

Lemma progression_S : forall i0 d n, progression i0 d (S n) = i0 :: progression (i0 + d) d n.
Proof.
  intros. unfold progression. cbn [seq map]. f_equal; [apply Z.add_0_r|].
  rewrite <- seq_shift, map_map. apply map_ext. intros k. lia.
Qed.

Lemma progression_app : forall i0 d n m,
  progression i0 d (n + m) = progression i0 d n ++ progression (i0 + Z.of_nat n * d) d m.
Proof.
  intros i0 d n. revert i0. induction n as [|n IH]; intros i0 m.
  - cbn [Z.of_nat Z.mul]. rewrite Z.add_0_r. reflexivity.
  - cbn [plus]. rewrite !progression_S, IH. cbn [app]. do 3 f_equal. lia.
Qed.

Lemma run_for_progression : forall n i0 d tst nxt fuel,
  (forall i, nxt i = i + d) ->
  (forall k : nat, tst (i0 + Z.of_nat k * d) = (k <? n)%nat) ->
  (n < fuel)%nat ->
  run_for fuel i0 tst nxt = Some (progression i0 d n).
Proof.
  assert (H0 : forall n i0 d tst,
            (forall k : nat, tst (i0 + Z.of_nat k * d) = (k <? n)%nat) -> tst i0 = (0 <? n)%nat).
  { intros n i0 d tst Ht. rewrite <- (Ht 0%nat). f_equal. lia. }
  induction n as [|n IH]; intros i0 d tst nxt fuel Hn Ht Hf.
  - destruct fuel as [|f]; [lia|]. cbn [run_for]. rewrite (H0 _ _ _ _ Ht). reflexivity.
  - destruct fuel as [|f]; [lia|]. cbn [run_for]. rewrite (H0 _ _ _ _ Ht), progression_S, Hn.
    rewrite (IH (i0 + d) d tst nxt f Hn); [reflexivity| |lia].
    intros k. change (k <? n)%nat with (S k <? S n)%nat. rewrite <- Ht. f_equal. lia.
Qed.

Definition dir (u : upd) : Z := if positive_update u then 1 else -1.

Lemma dir_sq : forall u, dir u * dir u = 1.
Proof. intros u. unfold dir. destruct (positive_update u); lia. Qed.

(* signed distance from the initial value to the first value that fails the test *)
Definition distance (c : cmp) (u : upd) (i0 b : Z) : Z :=
  dir u * (b - i0) + (if inclusive c then 1 else 0).

Lemma test_ascending : forall c l i b,
  test c l i b =
  if ascending c l then (if inclusive c then i <=? b else i <? b)
  else (if inclusive c then b <=? i else b <? i).
Proof. destruct c, l; reflexivity. Qed.

Lemma test_progression : forall h i0 b s k,
  direction_ok h = true ->
  test (h_cmp h) (h_left h) (i0 + k * (dir (h_upd h) * s)) b =
  (k * s <? distance (h_cmp h) (h_upd h) i0 b).
Proof.
  intros h i0 b s k Hd. rewrite test_ascending. unfold direction_ok in Hd.
  apply eqb_prop in Hd. rewrite Hd, Z.mul_shuffle3. generalize (k * s). intros x.
  unfold distance, dir.
  destruct (positive_update (h_upd h)), (inclusive (h_cmp h)); lia.
Qed.

(* the C expression  (D + s - 1) / s  and the number of launched/visited iterations *)
Definition cdiv_count (D s : Z) : Z := Z.quot (D + s - 1) s.

Lemma cdiv_count_spec : forall D s k,
  0 < s -> 0 <= k ->
  (k < cdiv_count D s <-> k * s < D).
Proof.
  intros D s k Hs Hk. unfold cdiv_count.
  destruct (Z_lt_le_dec (D + s - 1) 0) as [Hneg|Hpos].
  - assert (Z.quot (D + s - 1) s <= 0) by (apply (Z.quot_le_upper_bound _ _ _ Hs); lia).
    pose proof (Z.mul_nonneg_nonneg k s Hk (Z.lt_le_incl _ _ Hs)). lia.
  - rewrite (Z.quot_div_nonneg _ _ Hpos Hs).
    destruct (Z_lt_le_dec (k * s) D) as [H|H].
    + assert (Z.succ k <= (D + s - 1) / s) by (apply (Z.div_le_lower_bound _ _ _ Hs); lia). lia.
    + assert ((D + s - 1) / s < Z.succ k) by (apply (Z.div_lt_upper_bound _ _ _ Hs); lia). lia.
Qed.

Lemma lt_count : forall D s (q : nat), 0 < s ->
  ((q < Z.to_nat (cdiv_count D s))%nat <-> Z.of_nat q * s < D).
Proof.
  intros D s q Hs. rewrite <- (cdiv_count_spec D s (Z.of_nat q) Hs (Nat2Z.is_nonneg q)). lia.
Qed.

Lemma ltb_count : forall D s (q : nat), 0 < s ->
  (Z.of_nat q * s <? D) = (q <? Z.to_nat (cdiv_count D s))%nat.
Proof.
  intros D s q Hs. apply eq_true_iff_eq. rewrite Z.ltb_lt, Nat.ltb_lt. symmetry. apply lt_count, Hs.
Qed.

Lemma count_lt_fuel : forall c u i0 b s, 0 < s ->
  (Z.to_nat (cdiv_count (distance c u i0 b) s) < seq_fuel i0 b)%nat.
Proof.
  intros c u i0 b s Hs. unfold seq_fuel.
  assert (M : distance c u i0 b <= Z.abs (b - i0) + 1).
  { unfold distance. apply Z.add_le_mono.
    - unfold dir. destruct (positive_update u); lia.
    - destruct (inclusive c); [apply Z.le_refl|apply Z.le_0_1]. }
  pose proof (Z.abs_nonneg (b - i0)) as N. revert M N. generalize (Z.abs (b - i0)) as a. intros a M N.
  apply Nat.le_lt_trans with (Z.to_nat (a + 1)); [|lia].
  apply Nat.le_ngt. intro L. apply lt_count in L; [|exact Hs]. rewrite Z2Nat.id in L by lia.
  pose proof (Z.mul_le_mono_nonneg_l 1 s (a + 1)). lia.
Qed.

Theorem seq_values_progression : forall rho h,
  direction_ok h = true -> step_positive rho h ->
  let i0 := eval rho (h_init h) in
  let b := eval rho (h_bound h) in
  let s := step_val rho (h_upd h) in
  seq_values rho h =
  Some (progression i0 (dir (h_upd h) * s)
          (Z.to_nat (cdiv_count (distance (h_cmp h) (h_upd h) i0 b) s))).
Proof.
  intros rho h Hd Hs i0 b s. unfold seq_values. fold i0 b.
  apply run_for_progression.
  - intros i. unfold next, dir. destruct (positive_update (h_upd h)); lia.
  - intros k. rewrite test_progression by exact Hd. apply ltb_count, Hs.
  - apply count_lt_fuel, Hs.
Qed.

Corollary seq_fuel_sufficient : forall rho h,
  direction_ok h = true -> step_positive rho h -> seq_values rho h <> None.
Proof. intros rho h Hd Hs. rewrite seq_values_progression by assumption. discriminate. Qed.
