(* C04 — memory-pool accounting matches its live reservations.
   Same model and reference semantics as C03 (coq/C03); Model.fixed is the source after
   fixes/C03-1..4 and fixes/C04-1. *)
From Coq Require Import List ZArith Bool Lia.
From OV.C03 Require Import Model Statements Count Inv Theorems.
From OV.C04 Require Import Spec.
Import ListNotations.
Local Open Scope Z_scope.

(* after every operation of every history: reserved() is the number of byte positions covered by
   the live ranges once each is rounded out to the alignment *)
Theorem reserved_is_union : forall ops, ops_ok ops ->
  let p := snd (run fixed state0 ops) in
  p_reserved p = expected_reserved (p_align p) (p_res p).
Proof.
  (* expected_reserved is union_size (ivs _ _) by conversion *)
  intros ops H. exact (i_reserved (run_inv ops H)).
Qed.
Print Assumptions reserved_is_union.

(* numReservations() (the size of the set) is the number of live handles *)
Theorem num_reservations : forall ops, ops_ok ops ->
  length (p_res (snd (run fixed state0 ops))) = length (s_live (s_run sstate0 (map sop_of ops))).
Proof.
  intros ops H. pose proof (run_inv ops H) as I.
  rewrite <- (map_length r_id), <- (map_length s_id).
  apply Nat.le_antisymm; apply NoDup_incl_length.
  - apply (i_nd I).
  - intros id Hin. apply in_map_iff in Hin. destruct Hin as (r & <- & Hr).
    destruct (i_link I r Hr) as (e & Hl & _). destruct (same_handle_in _ _ _ Hl) as [He Hid].
    rewrite <- Hid. apply in_map. assumption.
  - apply (i_snd I).
  - intros id Hin. apply in_map_iff in Hin. destruct Hin as (e & <- & He).
    destruct (i_back I e He) as (r & Hr & Hid). rewrite <- Hid. apply in_map. assumption.
Qed.
Print Assumptions num_reservations.

Theorem size_ge_reserved : forall ops, ops_ok ops ->
  p_reserved (snd (run fixed state0 ops)) <= p_size (snd (run fixed state0 ops)).
Proof.
  intros ops H. pose proof (run_inv ops H) as I. set (p := snd (run fixed state0 ops)) in *.
  rewrite (i_reserved I), (union_size_bound _ _ (p_size p) (i_size I)).
  - pose proof (count_bounds (cov (p_align p) (p_res p)) 0 _ (i_size I)). lia.
  - intros r Hr. apply (i_bounds I r Hr).
Qed.
Print Assumptions size_ge_reserved.

(* once every handle is released, reserved() is 0 again *)
Theorem release_all_zero : forall ops, ops_ok ops ->
  s_live (s_run sstate0 (map sop_of ops)) = [] -> p_reserved (snd (run fixed state0 ops)) = 0.
Proof.
  intros ops H E. pose proof (run_inv ops H) as I. rewrite (i_reserved I).
  destruct (p_res _) as [|r tl] eqn:El; [reflexivity|].
  destruct (i_link I r ltac:(rewrite El; left; reflexivity)) as (e & Hl & _).
  destruct (same_handle_in _ _ _ Hl) as [He _]. rewrite E in He. destruct He.
Qed.
Print Assumptions release_all_zero.

(* resizing below reserved() raises an error and changes nothing *)
Theorem resize_below_reserved_errors : forall ops b, ops_ok ops ->
  b < p_reserved (snd (run fixed state0 ops)) ->
  step fixed (run fixed state0 ops) (OResize b) = (run fixed state0 ops, Err).
Proof.
  intros ops b _ Hb. destruct (run fixed state0 ops) as [d q]. cbn [snd step] in *.
  unfold resize. destruct (Z.gtb_spec (p_reserved q) b); [reflexivity|lia].
Qed.
Print Assumptions resize_below_reserved_errors.

(* non-vacuity: slices outliving their parent, a re-alignment, a reservation, a release *)
Definition demo : list op :=
  [OReserve 1 512; OSlice 2 1 130 10; OSlice 3 1 300 40; OFree 1; OAlign 16; OReserve 4 100; OFree 2].
Example demo_ok : ops_ok demo.
Proof. repeat constructor; cbn; discriminate. Qed.
Example demo_counters :
  let p := snd (run fixed state0 demo) in
  (p_reserved p, p_size p, length (p_res p), expected_reserved (p_align p) (p_res p)) = (160, 176, 2%nat, 160).
Proof. vm_compute. reflexivity. Qed.

Definition without_sub : variant := mkVariant true true true true false.   (* fixes/C04-1 missing *)
Definition without_fit : variant := mkVariant true true false true true.   (* fixes/C03-3 missing *)

(* reserve 512, slice(130,10), release the parent: the loop narrows [0,512) to its intersection
   with the slice's rounded range [128,256) and gives back 128 instead of 384 *)
Definition inter : list op := [OReserve 1 512; OSlice 2 1 130 10; OFree 1].
Theorem reserved_intersection_refuted :
  ops_ok inter /\
  let p := snd (run without_sub state0 inter) in
  p_reserved p = 384 /\ expected_reserved (p_align p) (p_res p) = 128.
Proof. split; [repeat constructor; cbn; discriminate|]. vm_compute. split; reflexivity. Qed.
Print Assumptions reserved_intersection_refuted.

(* ... and never returns to 0 *)
Theorem reserved_not_zero_refuted :
  let ops := inter ++ [OFree 2] in
  ops_ok ops /\ s_live (s_run sstate0 (map sop_of ops)) = [] /\
  p_reserved (snd (run without_sub state0 ops)) = 256.
Proof. split; [repeat constructor; cbn; discriminate|]. vm_compute. split; reflexivity. Qed.
Print Assumptions reserved_not_zero_refuted.

(* setAlignment on an empty pool keeps the 128-byte buffer; reserve(100) then fits by its raw size
   but is accounted with its aligned extent: reserved() = 256 > size() = 128 *)
Definition realign : list op := [OReserve 1 100; OFree 1; OAlign 256; OReserve 2 100].
Theorem size_below_reserved_refuted :
  ops_ok realign /\
  let p := snd (run without_fit state0 realign) in p_reserved p = 256 /\ p_size p = 128.
Proof. split; [repeat constructor; cbn; discriminate|]. vm_compute. split; reflexivity. Qed.
Print Assumptions size_below_reserved_refuted.
