(* C13 — the repaired directive state machine simulates the group semantics of the standard. *)
From Coq Require Import List ZArith Bool.
From OV.C14 Require Import Syntax Model Spec ProofsOps.
From OV.C13 Require Import Model Spec.
Import ListNotations.
Local Open Scope Z_scope.

(* the status word of a group; finishedIf (read only while ignoring): no later branch may be
   selected, because one was taken or the whole group is skipped *)
Definition status_of (f : frame) : status :=
  mk_status (active f) (negb (active f)) true (seen_else f)
            (negb (active f) && (taken f || negb (parent_active f))).

(* status word and statusStack; at the bottom what the constructor leaves *)
Fixpoint stack_of (fs : list frame) : status * list status :=
  match fs with
  | [] => (st_reading, [st_zero])
  | f :: fs' => (status_of f, fst (stack_of fs') :: snd (stack_of fs'))
  end.

(* a kept branch is a taken branch of a kept group; parent_active caches cur_active *)
Fixpoint frames_ok (fs : list frame) : Prop :=
  match fs with
  | [] => True
  | f :: fs' =>
      implb (active f) (parent_active f && taken f) = true /\
      parent_active f = cur_active fs' /\ frames_ok fs'
  end.

Section Sim.
Context {C Dir D : Type}.
Variable evalm : D -> C -> cres.
Variable evals : D -> C -> option bool.
Variable isdef : D -> Z -> bool.
Variable apply_dir : D -> Dir -> D.

(* wherever the standard gives a condition a value, the implementation's evaluator returns it *)
Hypothesis Hagree : forall d c b, evals d c = Some b -> evalm d c = (if b then CTrue else CFalse).

Notation mstate := (@mstate C D).
Notation sstate := (@sstate C D).

(* the machine state is computed from the specification state; no error, no crash *)
Definition rel (m : mstate) (s : sstate) : Prop :=
  m = mk_mstate (fst (stack_of (ss_frames s))) (snd (stack_of (ss_frames s)))
                (ss_defs s) (ss_out s) (ss_trace s) 0 None /\
  frames_ok (ss_frames s).

Lemma ignoring_cur : forall fs, ignoring (fst (stack_of fs)) = negb (cur_active fs).
Proof. destruct fs; reflexivity. Qed.

Lemma step_sim : forall m s it s',
  rel m s -> sstep evals isdef apply_dir s it = Some s' ->
  rel (mstep evalm isdef apply_dir true m it) s'.
Proof.
  intros m [fs d out tr] it s' [-> Hok] Hstep. cbn [ss_frames ss_defs ss_out ss_trace] in *.
  unfold mstep. cbn [ms_crashed ms_status].
  destruct it as [id | dd | c | n | n | c | | ]; cbn [sstep ss_frames ss_defs ss_out ss_trace] in Hstep.
  (* #ifdef, #ifndef *)
  4,5: unfold process_ifdef; cbn [ms_status]; rewrite ignoring_cur; unfold open_group in Hstep;
       destruct (cur_active fs) eqn:Ea; injection Hstep as <-; cbn [negb xorb ms_defs];
       [destruct (isdef d n)|]; (split; [reflexivity | cbn; auto]).
  (* a text line, #define / #undef *)
  1,2: rewrite ignoring_cur; destruct (cur_active fs); inversion Hstep; split; assumption || reflexivity.
  - (* #if *) unfold process_if. cbn [ms_status]. rewrite ignoring_cur. unfold open_group in Hstep.
    destruct (cur_active fs) eqn:Ea; cbn [negb].
    + destruct (evals d c) as [b|] eqn:Ev; [|discriminate]. injection Hstep as <-.
      unfold line_is_true. cbn [add_trace ms_defs]. rewrite (Hagree _ _ _ Ev).
      destruct b; (split; [reflexivity | cbn; auto]).
    + injection Hstep as <-. split; [reflexivity | cbn; auto].
  - (* #elif *) destruct fs as [|[pa tk se ac] fs]; [discriminate|]. destruct Hok as (Hf & Hpa & Hok).
    cbn in Hf, Hpa, Hstep. destruct se; [discriminate|].
    unfold process_elif; cbn.
    destruct pa, tk, ac; try discriminate Hf; cbn in Hstep |- *;
      try (destruct (evals d c) as [b|] eqn:Ev; [|discriminate];
           unfold line_is_true; cbn [add_trace ms_defs]; rewrite (Hagree _ _ _ Ev); destruct b);
      injection Hstep as <-; (split; [reflexivity | cbn; auto]).
  - (* #else *) destruct fs as [|[pa tk se ac] fs]; [discriminate|]. destruct Hok as (Hf & Hpa & Hok).
    cbn in Hf, Hpa, Hstep. destruct se; [discriminate|]. injection Hstep as <-.
    unfold process_else; cbn.
    destruct pa, tk, ac; try discriminate Hf; (split; [reflexivity | cbn; auto]).
  - (* #endif *) destruct fs as [|f fs]; [discriminate|]. destruct Hok as (Hf & Hpa & Hok).
    injection Hstep as <-. split; [reflexivity | exact Hok].
Qed.

Lemma run_sim : forall items m s s',
  rel m s -> srun_from evals isdef apply_dir s items = Some s' ->
  rel (fold_left (mstep evalm isdef apply_dir true) items m) s'.
Proof.
  induction items as [|it items IH]; intros m s s' Hrel Hrun; cbn in *.
  - inversion Hrun; subst. exact Hrel.
  - destruct (sstep evals isdef apply_dir s it) as [s1|] eqn:Es; [|discriminate].
    apply (IH _ s1); [apply (step_sim m s it s1 Hrel Es) | exact Hrun].
Qed.

Theorem bisim : forall d items out trace,
  srun evals isdef apply_dir d items = Some (out, trace) ->
  let m := mrun evalm isdef apply_dir true d items in
  rev (ms_out m) = out /\ rev (ms_trace m) = trace /\ ms_errors m = 0 /\ ms_crashed m = None /\
  ms_status m = st_reading /\ ms_stack m = [st_zero].
Proof.
  intros d items out trace H. unfold srun in H.
  destruct (srun_from evals isdef apply_dir (mk_sstate [] d [] []) items) as [s'|] eqn:Er; [|discriminate].
  destruct (ss_frames s') eqn:Ef; [|discriminate]. injection H as <- <-.
  assert (Hinit : rel (m_init d) (mk_sstate (C:=C) [] d [] [])) by (split; [reflexivity | exact I]).
  destruct (run_sim items _ _ _ Hinit Er) as [Hm _].
  cbv zeta. unfold mrun. rewrite Hm, Ef. repeat split; reflexivity.
Qed.

End Sim.

Section CondAgree.
Context {F : Type} (ops : fops F).
Hypothesis H_nz_of_Z : forall s z, - 2 ^ 64 < z < 2 ^ 64 -> fnonzero ops (f_of_Z ops s z) = negb (z =? 0).
Hypothesis H_nz_ext : forall f, fnonzero ops (f64_of_f32 ops f) = fnonzero ops f.

Lemma cond_agree : forall d c b,
  evals_conc ops d c = Some b ->
  evalm_conc ops pfixed d c = (if b then CTrue else CFalse).
Proof.
  intros d c b H. unfold evals_conc, evalm_conc in *.
  destruct (resolve d c) as [e|]; [|discriminate].
  cbn [fix_wide pfixed folder].
  destruct (no_float (widen e) && guards (widen e)) eqn:Eg; [|discriminate].
  apply andb_true_iff in Eg. destruct Eg as [_ Hg].
  destruct (cpp_eval ops (widen e)) as [v|] eqn:Ev; [|discriminate].
  injection H as <-.
  rewrite (fold_agrees_guarded ops H_nz_of_Z H_nz_ext (widen e) v Hg Ev), truthy_erase. destruct (truth ops v); reflexivity.
Qed.

End CondAgree.
