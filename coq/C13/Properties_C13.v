(* C13 — preprocessing agrees with the C preprocessor on the supported subset: conditional inclusion.

   Vocabulary: Model.item (one source line: text, #define/#undef, #if/#ifdef/#ifndef/#elif/#else/
   #endif), Model.mrun (OCCA's status word and statusStack, transcribed; parameter true = the tree
   with fixes/C13-1 applied), Spec.srun (the standard's groups: (parent_active, taken, seen_else,
   active) frames; None = undefined run), Model.evalm_conc / Spec.evals_conc (condition values:
   C14's folder model / C14's C++ specification, after identifiers -> 0, defined(), 64-bit typing).

   PROVED here (conditionals): conditional_bisim, no_error_in_dead_code, if_value_agrees_partial.
   NOT proved (labelled a test in props/C13.py): macro expansion (object-like, function-like,
   variadic, #undef) against the C rescanning algorithm; it is compared with the system `cpp -P`
   by the differential run only.

   FULL STATEMENT for the condition values, false because of the three recorded C14 findings
   (Spec.guards) and left partial:
       forall d c b, value of c under C++17/intmax_t rules = b -> evalm_conc pfixed d c = b. *)
From Coq Require Import List ZArith Bool.
From OV.C14 Require Import Syntax Model Spec.
From OV.C13 Require Import Model Spec Proofs.
Import ListNotations.
Local Open Scope Z_scope.

(* for every evaluator of the implementation that returns the standard's value wherever the standard
   defines one (and does anything at all elsewhere: errors, crashes), and every translation unit on
   which the standard's run is defined: same kept lines, same conditions evaluated in the same
   order, no error, no crash, status word and stack back to their initial values *)
Theorem conditional_bisim :
  forall (C Dir D : Type)
         (evalm : D -> C -> cres) (evals : D -> C -> option bool)
         (isdef : D -> Z -> bool) (apply_dir : D -> Dir -> D),
    (forall d c b, evals d c = Some b -> evalm d c = (if b then CTrue else CFalse)) ->
    forall (d : D) (items : list (item C Dir)) (kept : list Z) (evaluated : list C),
      srun evals isdef apply_dir d items = Some (kept, evaluated) ->
      let m := mrun evalm isdef apply_dir true d items in
      rev (ms_out m) = kept /\ rev (ms_trace m) = evaluated /\
      ms_errors m = 0 /\ ms_crashed m = None /\
      ms_status m = st_reading /\ ms_stack m = [st_zero].
Proof. exact (@bisim). Qed.
Print Assumptions conditional_bisim.

(* conditions the standard does not evaluate (#elif after a taken branch, anything inside a
   skipped group) cannot cause an error or a crash: whatever the evaluator does on them *)
Theorem no_error_in_dead_code :
  forall (C Dir D : Type)
         (evalm : D -> C -> cres) (evals : D -> C -> option bool)
         (isdef : D -> Z -> bool) (apply_dir : D -> Dir -> D),
    (forall d c b, evals d c = Some b -> evalm d c = (if b then CTrue else CFalse)) ->
    forall (d : D) (items : list (item C Dir)) r,
      srun evals isdef apply_dir d items = Some r ->
      ms_errors (mrun evalm isdef apply_dir true d items) = 0 /\
      ms_crashed (mrun evalm isdef apply_dir true d items) = None.
Proof.
  intros C Dir D evalm evals isdef apply_dir Hagree d items [kept evaluated] H.
  destruct (conditional_bisim C Dir D evalm evals isdef apply_dir Hagree d items kept evaluated H)
    as [_ [_ [He [Hc _]]]].
  split; assumption.
Qed.
Print Assumptions no_error_in_dead_code.

(* condition values: where the specification (C++17 on 64-bit typed literals, C14's guards)
   defines the value of a controlling expression, the repaired lineIsTrue returns it *)
Theorem if_value_agrees_partial :
  forall (F : Type) (ops : fops F),
    (forall s z, - 2 ^ 64 < z < 2 ^ 64 -> fnonzero ops (f_of_Z ops s z) = negb (z =? 0)) ->
    (forall f, fnonzero ops (f64_of_f32 ops f) = fnonzero ops f) ->
    forall (d : defs) (c : pexpr F) (b : bool),
      evals_conc ops d c = Some b ->
      evalm_conc ops pfixed d c = (if b then CTrue else CFalse).
Proof. exact (@cond_agree). Qed.
Print Assumptions if_value_agrees_partial.

(* both parts together, on the concrete conditions *)
Theorem conditional_bisim_conc :
  forall (F : Type) (ops : fops F),
    (forall s z, - 2 ^ 64 < z < 2 ^ 64 -> fnonzero ops (f_of_Z ops s z) = negb (z =? 0)) ->
    (forall f, fnonzero ops (f64_of_f32 ops f) = fnonzero ops f) ->
    forall (items : list (item (pexpr F) dir)) kept evaluated,
      srun_conc ops items = Some (kept, evaluated) ->
      let m := mrun_conc ops pfixed items in
      rev (ms_out m) = kept /\ rev (ms_trace m) = evaluated /\ ms_errors m = 0 /\ ms_crashed m = None.
Proof.
  intros F ops H1 H2 items kept evaluated H.
  destruct (conditional_bisim _ _ _ (evalm_conc ops pfixed) (evals_conc ops) isdef_conc apply_dir_conc
              (if_value_agrees_partial F ops H1 H2) [] items kept evaluated H) as [A [B [Cc [Dd _]]]].
  repeat split; assumption.
Qed.
Print Assumptions conditional_bisim_conc.

Definition ilit_p {F} (l : ilit) : pexpr F := PLit (LInt l).
Definition d1 : ilit := mk_ilit Dec [1] false 0.
Definition z0 : ilit := mk_ilit Oct [] false 0.
Definition div10 {F} : pexpr F := PBin Div (ilit_p d1) (ilit_p z0).        (* 1/0 *)

(* #if 1 / A / #elif 1/0 / B / #endif / C *)
Definition tu_elif_after_taken {F} : list (item (pexpr F) dir) :=
  [IIf (ilit_p d1); IText 1; IElif div10; IText 2; IEndif; IText 3].

Theorem elif_after_taken_evaluated_refuted :      (* pinned: the #elif condition is evaluated -> SIGFPE *)
  forall (F : Type) (ops : fops F),
    srun_conc ops (@tu_elif_after_taken F) = Some ([1; 3], [ilit_p d1]) /\
    ms_crashed (mrun_conc ops ppinned (@tu_elif_after_taken F)) = Some 0 /\
    ms_crashed (mrun_conc ops pfixed (@tu_elif_after_taken F)) = None.
Proof. intros. repeat split; vm_compute; reflexivity. Qed.
Print Assumptions elif_after_taken_evaluated_refuted.

(* #if 0 / #if 1 / X / #elif 1/0 / Y / #endif / #endif / C : an #elif inside a skipped group
   (pinned: its condition is evaluated all the same -> SIGFPE) *)
Definition tu_dead_elif {F} : list (item (pexpr F) dir) :=
  [IIf (ilit_p z0); IIf (ilit_p d1); IText 1; IElif div10; IText 2; IEndif; IEndif; IText 3].

Theorem dead_code_elif_evaluated_refuted :
  forall (F : Type) (ops : fops F),
    srun_conc ops (@tu_dead_elif F) = Some ([3], [ilit_p z0]) /\
    ms_crashed (mrun_conc ops ppinned (@tu_dead_elif F)) = Some 0 /\
    ms_crashed (mrun_conc ops pfixed (@tu_dead_elif F)) = None.
Proof. intros. repeat split; vm_compute; reflexivity. Qed.
Print Assumptions dead_code_elif_evaluated_refuted.

(* #if 0 && (1/0) : pinned folder evaluates both operands *)
Definition tu_dead_arith {F} : list (item (pexpr F) dir) :=
  [IIf (PBin LAnd (ilit_p z0) div10); IText 1; IEndif; IText 2].

Theorem dead_if_arith_refuted :
  forall (F : Type) (ops : fops F),
    srun_conc ops (@tu_dead_arith F) = Some ([2], [PBin LAnd (ilit_p z0) div10]) /\
    ms_crashed (mrun_conc ops ppinned (@tu_dead_arith F)) = Some 0.
Proof. intros. repeat split; vm_compute; reflexivity. Qed.
Print Assumptions dead_if_arith_refuted.

(* #if 65536*65536 : 2^32 in intmax_t arithmetic, signed overflow in 32-bit arithmetic;
   the repaired folder alone (literal typing by value) does not help, 64-bit typing does *)
Definition lit65536 : ilit := mk_ilit Dec [6;5;5;3;6] false 0.
Definition tu_int32 {F} : list (item (pexpr F) dir) :=
  [IIf (PBin Mul (ilit_p lit65536) (ilit_p lit65536)); IText 1; IEndif; IText 2].

Theorem int32_conditions_refuted :
  forall (F : Type) (ops : fops F),
    srun_conc ops (@tu_int32 F) = Some ([1; 2], [PBin Mul (ilit_p lit65536) (ilit_p lit65536)]) /\
    ms_crashed (mrun_conc ops ppinned (@tu_int32 F)) = Some 0 /\
    ms_crashed (mrun_conc ops (mk_pcfg true false fixed) (@tu_int32 F)) = Some 0 /\
    rev (ms_out (mrun_conc ops pfixed (@tu_int32 F))) = [1; 2].
Proof. intros. repeat split; vm_compute; reflexivity. Qed.
Print Assumptions int32_conditions_refuted.

(* #define N 3 / #if N > 2 / A / #elif 1/0 / B / #else / C / #endif / #undef N / #if N > 2 / D / #else / E / #endif *)
Example bisim_example :
  forall (F : Type) (ops : fops F),
    let three := mk_ilit Dec [3] false 0 in
    let two := mk_ilit Dec [2] false 0 in
    let c : pexpr F := PBin Gt (PIdent 7) (ilit_p two) in
    let tu : list (item (pexpr F) dir) :=
      [IDir (DDefine 7 (BLit three)); IIf c; IText 1; IElif div10; IText 2; IElse; IText 3; IEndif;
       IDir (DUndef 7); IIf c; IText 4; IElse; IText 5; IEndif] in
    srun_conc ops tu = Some ([1; 5], [c; c]) /\
    rev (ms_out (mrun_conc ops pfixed tu)) = [1; 5] /\
    ms_crashed (mrun_conc ops pfixed tu) = None.
Proof. intros. repeat split; vm_compute; reflexivity. Qed.
