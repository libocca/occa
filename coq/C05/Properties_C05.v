(* C05 — device memory accounting returns to zero and tracks live allocations.
   drun fixed true = the source after fixes/C03-1..4, C04-1 (pool model) and C05-1 (host pointers). *)
From Coq Require Import List ZArith Bool Lia.
From OV.C03 Require Import Statements.
From OV.C05 Require Import Model Spec Proofs.
Import ListNotations.
Local Open Scope Z_scope.

(* after every operation of every history of malloc (all use_host_pointer/own_host_pointer
   combinations) / clone / wrapMemory / release / pool creation, pool operations, pool release:
   memoryAllocated() = bytes of the live malloc/clone allocations + bytes of the live pool buffers *)
Theorem allocated_is_sum_of_live : forall ops, dops_ok ops ->
  let s := drun fixed true dstate0 ops in
  d_alloc (ds_dev s) = expected_allocated (ds_objs s).
Proof. intros ops H. exact (di_sum (drun_inv ops H)). Qed.
Print Assumptions allocated_is_sum_of_live.

(* maxMemoryAllocated() is the largest value bytesAllocated has ever taken (d_hist records every
   value, including the moment of a pool migration when the old and the new buffer both exist) *)
Theorem max_is_running_max : forall ops, dops_ok ops ->
  let s := drun fixed true dstate0 ops in
  d_max (ds_dev s) = running_max (d_hist (ds_dev s)).
Proof. intros ops H. exact (proj1 (di_max (drun_inv ops H))). Qed.
Print Assumptions max_is_running_max.

(* once every memory object and pool is released, memoryAllocated() is 0 again *)
Theorem all_released_zero : forall ops, dops_ok ops ->
  ds_objs (drun fixed true dstate0 ops) = [] -> d_alloc (ds_dev (drun fixed true dstate0 ops)) = 0.
Proof. intros ops H E. rewrite (di_sum (drun_inv ops H)), E. reflexivity. Qed.
Print Assumptions all_released_zero.

(* non-vacuity: each kind of allocation, a clone, a migrating pool, releases *)
Definition demo : list dop :=
  [DMalloc 1 100 false false false; DMalloc 2 64 true true false; DWrap 3 40; DClone 4 2; DPoolNew 5;
   DPoolOp 5 (OReserve 10 200); DPoolOp 5 (OReserve 11 50); DPoolOp 5 (OFree 10); DPoolOp 5 (OAlign 16);
   DFree 2; DPoolOp 5 OShrink].
Example demo_ok : dops_ok demo.
Proof. unfold dops_ok, demo. repeat (apply Forall_cons; [cbn; try exact I; try lia|]). apply Forall_nil. Qed.
Example demo_counters :
  let s := drun fixed true dstate0 demo in
  (d_alloc (ds_dev s), expected_allocated (ds_objs s), d_max (ds_dev s)) = (228, 228, 868).
Proof. vm_compute. reflexivity. Qed.

(* the unrepaired source:
   malloc(64, ptr, {use_host_pointer: true}) and release: nothing is live, 64 bytes still counted *)
Definition hostptr : list dop := [DMalloc 1 64 true true false; DFree 1].
Theorem host_pointer_never_decremented_refuted :
  dops_ok hostptr /\
  let s := drun fixed false dstate0 hostptr in ds_objs s = [] /\ d_alloc (ds_dev s) = 64.
Proof. split; [repeat (apply Forall_cons; [exact I|]); apply Forall_nil|]. vm_compute. split; reflexivity. Qed.
Print Assumptions host_pointer_never_decremented_refuted.
