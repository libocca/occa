(* C05: the counters follow the live objects over every history. *)
From Coq Require Import List ZArith Bool Lia.
From OV.C03 Require Import Spec Statements Inv Theorems.
From OV.C05 Require Import Model Spec.
Import ListNotations.
Local Open Scope Z_scope.

Definition dop_ok (o : dop) : Prop :=
  match o with DPoolOp _ po => op_ok po | _ => True end.
Definition dops_ok (ops : list dop) : Prop := Forall dop_ok ops.

Definition dmax_ok (d : dev) : Prop := d_max d = running_max (d_hist d) /\ d_alloc d <= d_max d.

Lemma dmax_alloc : forall d n, dmax_ok d -> dmax_ok (dev_alloc d n).
Proof.
  intros d n [A B]. unfold dmax_ok, dev_alloc. cbn [d_max d_alloc d_hist].
  change (running_max ((d_alloc d + n) :: d_hist d)) with (Z.max (d_alloc d + n) (running_max (d_hist d))).
  rewrite A. split; lia.
Qed.

Lemma dmax_free : forall d n, dmax_ok d -> 0 <= n -> dmax_ok (dev_free d n).
Proof.
  intros d n [A B] Hn. unfold dmax_ok, dev_free. cbn [d_max d_alloc d_hist].
  change (running_max ((d_alloc d - n) :: d_hist d)) with (Z.max (d_alloc d - n) (running_max (d_hist d))).
  rewrite <- A. split; lia.
Qed.

(* bytesAllocated moves exactly as the pool's size does and the maximum stays the running maximum.
   Stated over the sizes: add_ref, remove_ref, set_buf leave the size alone by conversion. *)
Definition tracks (d : dev) (sz : Z) (d' : dev) (sz' : Z) : Prop :=
  d_alloc d' - sz' = d_alloc d - sz /\
  (dmax_ok d -> 0 <= sz -> dmax_ok d').

Lemma tracks_refl : forall d sz, tracks d sz d sz.
Proof. intros. split; [reflexivity|tauto]. Qed.

(* a new buffer of n bytes for the old one of sz: allocated before the release in a migration, after
   it on an empty pool *)
Lemma tracks_alloc_then_free : forall d sz n, tracks d sz (dev_free (dev_alloc d n) sz) n.
Proof.
  intros d sz n. split; [cbn; lia|intros M S]. apply dmax_free; [apply dmax_alloc|]; assumption.
Qed.

Lemma tracks_free_then_alloc : forall d sz n, tracks d sz (dev_alloc (dev_free d sz) n) n.
Proof.
  intros d sz n. split; [cbn; lia|intros M S]. apply dmax_alloc, dmax_free; assumption.
Qed.

Lemma resize_tracks : forall V force d p bytes d' p',
  resize V force d p bytes = Some (d', p') -> tracks d (p_size p) d' (p_size p').
Proof.
  intros V force d p bytes d' p' H. unfold resize in H.
  destruct (p_reserved p >? bytes); [discriminate|].
  destruct ((p_size p =? bytes) && negb force); [inversion H; subst; apply tracks_refl|].
  destruct (p_res p).
  - inversion H; subst. apply tracks_free_then_alloc.
  - destruct (if v_round V then _ else _) as [[l' cs] nr]. inversion H; subst. apply tracks_alloc_then_free.
Qed.

Lemma set_alignment_tracks : forall V d p na d' p',
  set_alignment V d p na = Some (d', p') -> tracks d (p_size p) d' (p_size p').
Proof.
  intros V d p na d' p' H. unfold set_alignment in H.
  destruct (na =? 0); [discriminate|]. destruct (p_align p =? na); [inversion H; subst; apply tracks_refl|].
  destruct (p_res p) as [|m tl]; [inversion H; subst; apply tracks_refl|].
  destruct (pack r_off r_end (ru na) (m :: tl)) as [[l' cs] nr]. inversion H; subst. apply tracks_alloc_then_free.
Qed.

Lemma add_ref_size : forall V p x, p_size (add_ref V p x) = p_size p.
Proof. reflexivity. Qed.

Lemma reserve_tracks : forall V d p id bytes d' p',
  reserve V d p id bytes = Some (d', p') -> tracks d (p_size p) d' (p_size p').
Proof.
  intros V d p id bytes d' p' H. unfold reserve in H.
  destruct (_ >? p_size p).
  - destruct (resize V false d p _) as [[d1 p1]|] eqn:Er; [|discriminate]. inversion H; subst.
    exact (resize_tracks _ _ _ _ _ _ _ Er).
  - destruct (p_res p); [inversion H; subst; apply tracks_refl|].
    destruct (_ <=? p_size p); [inversion H; subst; apply tracks_refl|].
    destruct (resize V (v_force V) d p _) as [[d1 p1]|] eqn:Er; [|discriminate]. inversion H; subst.
    exact (resize_tracks _ _ _ _ _ _ _ Er).
Qed.

Lemma lift_tracks : forall d p r,
  (forall d' p', r = Some (d', p') -> tracks d (p_size p) d' (p_size p')) ->
  tracks d (p_size p) (fst (fst (lift (d, p) r))) (p_size (snd (fst (lift (d, p) r)))).
Proof. intros d p [[d' p']|] H; [apply H; reflexivity|apply tracks_refl]. Qed.

(* only the four branches through lift reach the device; the others are tracks_refl by conversion *)
Lemma step_tracks : forall V d p o,
  tracks d (p_size p) (fst (fst (step V (d, p) o))) (p_size (snd (fst (step V (d, p) o)))).
Proof.
  intros V d p o. destruct o as [id n|id parent off cnt|id|id off data|b| |na]; cbn [step].
  - destruct (find_res id (p_res p)); [apply tracks_refl|].
    destruct (n =? 0); [apply tracks_refl|]. destruct (n <? 0); [apply tracks_refl|].
    apply lift_tracks, reserve_tracks.
  - destruct (find_res id (p_res p)); [apply tracks_refl|].
    destruct (find_res parent (p_res p)); [|apply tracks_refl].
    destruct (off <? 0); [apply tracks_refl|].
    destruct (_ <? 0); [apply tracks_refl|]. destruct (negb _); [apply tracks_refl|].
    destruct (_ <? 0); apply tracks_refl.
  - destruct (find_res id (p_res p)); apply tracks_refl.
  - destruct (find_res id (p_res p)); [|apply tracks_refl].
    destruct (off <? 0); [apply tracks_refl|]. destruct (negb _); apply tracks_refl.
  - apply lift_tracks, resize_tracks.
  - apply lift_tracks, resize_tracks.
  - apply lift_tracks, set_alignment_tracks.
Qed.

Lemma expected_cons : forall k o l, expected_allocated ((k, o) :: l) = obj_bytes o + expected_allocated l.
Proof. reflexivity. Qed.

Lemma expected_remove : forall id l o, lookup id l = Some o ->
  expected_allocated (remove_obj id l) = expected_allocated l - obj_bytes o.
Proof.
  induction l as [|[k o0] tl IH]; intros o H; cbn [lookup remove_obj] in *; [discriminate|].
  destruct (k =? id).
  - inversion H; subst. rewrite expected_cons. lia.
  - rewrite !expected_cons. rewrite (IH o H). lia.
Qed.

Lemma expected_replace : forall id o' l o, lookup id l = Some o ->
  expected_allocated (replace_obj id o' l) = expected_allocated l - obj_bytes o + obj_bytes o'.
Proof.
  induction l as [|[k o0] tl IH]; intros o H; cbn [lookup replace_obj] in *; [discriminate|].
  destruct (k =? id).
  - inversion H; subst. rewrite !expected_cons. lia.
  - rewrite !expected_cons. rewrite (IH o H). lia.
Qed.

Lemma lookup_in : forall id l o, lookup id l = Some o -> In (id, o) l.
Proof.
  induction l as [|[k o0] tl IH]; intros o H; cbn in *; [discriminate|].
  destruct (Z.eqb_spec k id); [inversion H; subst; left; reflexivity|right; apply IH; assumption].
Qed.

Lemma in_remove_obj : forall id l x, In x (remove_obj id l) -> In x l.
Proof.
  induction l as [|[k o0] tl IH]; intros x H; cbn in *; [assumption|].
  destruct (k =? id); [right; assumption|]. destruct H as [<-|H]; [left; reflexivity|right; apply IH; assumption].
Qed.

Lemma in_replace_obj : forall id o' l x, In x (replace_obj id o' l) -> x = (id, o') \/ In x l.
Proof.
  induction l as [|[k o0] tl IH]; intros x H; cbn in *; [right; assumption|].
  destruct (Z.eqb_spec k id).
  - destruct H as [<-|H]; [left; congruence|right; right; assumption].
  - destruct H as [<-|H]; [right; left; reflexivity|]. destruct (IH x H); [left; assumption|right; right; assumption].
Qed.

(* used here for 0 <= p_size only; the whole invariant is what pool operations preserve *)
Definition pool_good (p : pool) : Prop := exists sp, Inv p sp.

(* wrapped iff made by wrapMemory: exactly what was never added is not subtracted on release *)
Definition obj_good (o : obj) : Prop :=
  match o with
  | OMem bytes how w => 0 <= bytes /\ (w = true <-> how = ByWrap)
  | OPool p => pool_good p
  end.

Record DInv (s : dstate) : Prop := mkDInv {
  di_sum : d_alloc (ds_dev s) = expected_allocated (ds_objs s);
  di_max : dmax_ok (ds_dev s);
  di_objs : forall id o, In (id, o) (ds_objs s) -> obj_good o
}.
Arguments di_sum {s} _. Arguments di_max {s} _. Arguments di_objs {s} _.

Lemma dinv0 : DInv dstate0.
Proof. constructor; cbn; [reflexivity|split; cbn; lia|intros ? ? []]. Qed.

Lemma dinv_add : forall s id o d',
  DInv s -> obj_good o -> d_alloc d' = d_alloc (ds_dev s) + obj_bytes o -> dmax_ok d' ->
  DInv (mkD d' ((id, o) :: ds_objs s)).
Proof.
  intros s id o d' I Ho Hsum Hmax. constructor; cbn [ds_dev ds_objs].
  - rewrite expected_cons, Hsum, (di_sum I). lia.
  - exact Hmax.
  - intros k o' [E|Hin]; [inversion E; subst; exact Ho|apply (di_objs I k o' Hin)].
Qed.

Lemma dinv_remove : forall s id o d',
  DInv s -> lookup id (ds_objs s) = Some o -> d_alloc d' = d_alloc (ds_dev s) - obj_bytes o -> dmax_ok d' ->
  DInv (mkD d' (remove_obj id (ds_objs s))).
Proof.
  intros s id o d' I El Hsum Hmax. constructor; cbn [ds_dev ds_objs].
  - rewrite (expected_remove _ _ _ El), Hsum, (di_sum I). reflexivity.
  - exact Hmax.
  - intros k o' Hin. apply (di_objs I k o'). eapply in_remove_obj; eassumption.
Qed.

Lemma malloc_inv : forall s id bytes src use_host,
  DInv s -> 0 < bytes -> DInv (do_malloc true s id bytes src use_host).
Proof.
  intros s id bytes src use_host I Hb. unfold do_malloc. rewrite andb_false_r.
  apply dinv_add; [assumption| |reflexivity|apply dmax_alloc, (di_max I)].
  cbn. split; [lia|split; discriminate].
Qed.

Lemma dstep_inv : forall s o, DInv s -> dop_ok o -> DInv (fst (dstep fixed true s o)).
Proof.
  intros s o I Hok. destruct o as [id bytes src uh oh|id from|id bytes|id|id|id po|id]; cbn [dstep].
  - destruct (lookup id (ds_objs s)); [assumption|].
    destruct (Z.eqb_spec bytes 0); [assumption|]. destruct (Z.ltb_spec bytes 0); [assumption|].
    apply malloc_inv; [assumption|lia].
  - destruct (lookup id (ds_objs s)); [assumption|].
    destruct (lookup from (ds_objs s)) as [[bytes how w|p]|] eqn:El; try assumption.
    pose proof (di_objs I _ _ (lookup_in _ _ _ El)) as [Hb _].
    destruct (Z.eqb_spec bytes 0); [assumption|]. apply malloc_inv; [assumption|lia].
  - destruct (lookup id (ds_objs s)); [assumption|].
    destruct (Z.ltb_spec bytes 0); [assumption|].
    apply dinv_add; [assumption| |cbn; lia|apply (di_max I)]. cbn. split; [lia|split; reflexivity].
  - destruct (lookup id (ds_objs s)) as [[bytes how w|p]|] eqn:El; try assumption.
    pose proof (di_objs I _ _ (lookup_in _ _ _ El)) as [Hb Hw].
    apply (dinv_remove _ _ _ _ I El).
    + destruct how.
      * assert (w = false) as -> by (destruct w; [discriminate (proj1 Hw eq_refl)|reflexivity]). cbn. lia.
      * rewrite (proj2 Hw eq_refl). cbn. lia.
    + destruct w; [apply (di_max I)|apply dmax_free; [apply (di_max I)|assumption]].
  - destruct (lookup id (ds_objs s)); [assumption|].
    apply dinv_add; [assumption|exists sstate0; exact inv0|cbn; lia|apply (di_max I)].
  - destruct (lookup id (ds_objs s)) as [[bytes how w|p]|] eqn:El; try assumption.
    pose proof (di_objs I _ _ (lookup_in _ _ _ El)) as (sp & Ip).
    pose proof (step_tracks fixed (ds_dev s) p po) as [T1 T2].
    pose proof (step_inv (ds_dev s, p) sp po Ip Hok) as Ip'.
    destruct (step fixed (ds_dev s, p) po) as [[d' p'] r]. cbn [fst snd] in *.
    constructor; cbn [ds_dev ds_objs].
    + rewrite (expected_replace _ _ _ _ El). cbn [obj_bytes]. rewrite <- (di_sum I). lia.
    + apply T2; [apply (di_max I)|apply (i_size Ip)].
    + intros k o Hin. destruct (in_replace_obj _ _ _ _ Hin) as [E|Hin'].
      * inversion E; subst. exists (s_step sp (sop_of po)). assumption.
      * apply (di_objs I k o Hin').
  - destruct (lookup id (ds_objs s)) as [[bytes how w|p]|] eqn:El; try assumption.
    pose proof (di_objs I _ _ (lookup_in _ _ _ El)) as (sp & Ip).
    apply (dinv_remove _ _ _ _ I El); [reflexivity|].
    apply dmax_free; [apply (di_max I)|apply (i_size Ip)].
Qed.

Lemma drun_inv_from : forall ops s, DInv s -> dops_ok ops -> DInv (drun fixed true s ops).
Proof.
  induction ops as [|o ops IH]; intros s I Hok; cbn; [assumption|].
  inversion Hok; subst. apply IH; [apply dstep_inv; assumption|assumption].
Qed.

Theorem drun_inv : forall ops, dops_ok ops -> DInv (drun fixed true dstate0 ops).
Proof. intros ops. apply drun_inv_from, dinv0. Qed.
