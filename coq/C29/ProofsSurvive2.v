(* C29 — the occaCreateJson handle survives every history that neither
   frees its heap object nor overwrites the C variable. *)
From Coq Require Import List ZArith Bool Lia Arith.
From OV.C29 Require Import Types Model ProofsTree ProofsHandles ProofsSurvive.
Import ListNotations.
Local Open Scope Z_scope.

(* the history neither assigns to variable n nor frees heap object r *)
Fixpoint quiet (F : fops) (cf : cfg) (st : mstate) (ops : list op) (n r : nat) : Prop :=
  match ops with
  | [] => True
  | o :: ops' =>
      writes_slot o n = false /\ frees_root st o r = false /\
      quiet F cf (fst (step F cf st o)) ops' n r
  end.

Lemma run_keeps : forall F cf ops st n r,
  inv st -> m_tab st n = mkSlot (root_handle r) true -> (exists t, m_roots st r = Some t) ->
  quiet F cf st ops n r ->
  let st' := fst (run_from F cf st ops) in
  m_tab st' n = mkSlot (root_handle r) true /\ (exists t, m_roots st' r = Some t).
Proof.
  induction ops as [|o ops IH]; intros st n r Hi Ht Hl Hq; [cbn; auto|].
  destruct Hq as [Hw [Hf Hq]]. destruct (step_keeps F cf st o n r (inv_fresh _ Hi) Hl Hw Hf) as [K1 K2].
  rewrite run_from_cons. exact (IH _ n r (step_inv F cf st o Hi) (K1 Ht) (K2 Hl) Hq).
Qed.

Lemma created_survives : forall F cf st n ops,
  inv st ->
  let st1 := fst (occaCreateJson st n) in
  quiet F cf st1 ops n (m_next st) ->
  let st' := fst (run_from F cf st1 ops) in
  exists t, open_handle st' n = HGo (m_next st) [] t.
Proof.
  intros F cf st n ops Hi st1 Hq st'.
  assert (Hi1 : inv st1) by (apply inv_create; exact Hi).
  destruct (run_keeps F cf ops st1 n (m_next st) Hi1 (create_tab st n)
              (ex_intro _ JNone (create_root st n)) Hq) as [Ht [t Hr]].
  exists t. apply open_root_handle; assumption.
Qed.
