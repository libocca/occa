(* C29 — the stateless conversions.  A value of a C type converted to that type,
   or to an integral type that can hold it, is itself (`int_cast_id`, `cast_to_conv`); with the
   repaired branches (`cfg_fixed`) bool goes the way of every other kind, so each constructor,
   primitive and kernel-argument path returns the value it was given. *)
From Coq Require Import List ZArith Bool Lia.
From OV.C29 Require Import Types Model Spec.
Import ListNotations.
Local Open Scope Z_scope.

Lemma wrapu_small : forall b v, 0 <= v < 2 ^ b -> wrapu b v = v.
Proof. intros. apply Z.mod_small. assumption. Qed.

Lemma wraps_small : forall b v, 0 < b -> - 2 ^ (b - 1) <= v < 2 ^ (b - 1) -> wraps b v = v.
Proof.
  intros b v Hb Hv. unfold wraps.
  assert (HM : 2 ^ b = 2 * 2 ^ (b - 1)) by (rewrite <- Z.pow_succ_r by lia; f_equal; lia).
  set (M := 2 ^ b) in *. set (H := 2 ^ (b - 1)) in *.
  destruct (Z.neg_nonneg_cases v).
  - (* a negative v is represented by v + 2^b, in the upper half *)
    rewrite <- (Z.mod_unique_pos v M (-1) (v + M)) by lia.
    destruct (Z.ltb_spec (v + M) H); lia.
  - rewrite Z.mod_small by lia. destruct (Z.ltb_spec v H); lia.
Qed.

(* (unsigned T) (signed T) v = (unsigned T) v *)
Lemma wrapu_wraps : forall b v, 0 <= b -> wrapu b (wraps b v) = wrapu b v.
Proof.
  intros b v Hb. unfold wraps, wrapu.
  assert (HM : 2 ^ b <> 0) by (apply Z.pow_nonzero; lia).
  destruct (v mod 2 ^ b <? 2 ^ (b - 1)).
  - apply Z.mod_mod, HM.
  - rewrite <- (Z.mod_add _ 1) by exact HM. rewrite <- (Z.mod_mod v) at 2 by exact HM. f_equal. lia.
Qed.

Lemma in_range_spec : forall k v, in_range k v = true <-> lo_of k <= v <= hi_of k.
Proof. intros. unfold in_range. rewrite andb_true_iff, !Z.leb_le. tauto. Qed.

Lemma int_cast_id : forall k v, in_range k v = true -> int_cast k v = v.
Proof.
  intros k v H. apply in_range_spec in H.
  destruct k; cbn [int_cast lo_of hi_of] in *;
    try reflexivity; try (apply wraps_small; lia); try (apply wrapu_small; lia).
  destruct (Z.eqb_spec v 0); lia.
Qed.

Lemma bool_eqb_1 : forall v, in_range KBool v = true -> negb (v =? 0) = (v =? 1).
Proof.
  intros v H. apply in_range_spec in H. cbn in H.
  destruct (Z.eqb_spec v 0); destruct (Z.eqb_spec v 1); try reflexivity; lia.
Qed.

Lemma kind_eqb_refl : forall k, kind_eqb k k = true.
Proof. intros. apply Z.eqb_refl. Qed.

Lemma kind_eqb_eq : forall a b, kind_eqb a b = true -> a = b.
Proof. intros a b H. apply Z.eqb_eq in H. destruct a, b; try discriminate H; reflexivity. Qed.

Lemma s_conv_refl : forall k v, s_conv k k v = Some v.
Proof. intros. unfold s_conv. rewrite kind_eqb_refl. reflexivity. Qed.

Lemma s_conv_Some : forall [k0 k v v'], s_conv k0 k v = Some v' ->
  v' = v /\ (k0 = k \/ is_float k0 = false /\ is_float k = false /\ in_range k v = true).
Proof.
  intros k0 k v v' H. unfold s_conv in H. destruct (kind_eqb k0 k) eqn:E.
  - apply kind_eqb_eq in E. inversion H. auto.
  - destruct (is_float k0); [discriminate|]. destruct (is_float k); [discriminate|].
    destruct (in_range k v); inversion H. auto.
Qed.

Lemma cast_to_same : forall F k v, in_range k v = true -> cast_to F k k v = Ok v.
Proof. intros F k v H. destruct k; cbn [cast_to]; rewrite ?int_cast_id by exact H; reflexivity. Qed.

Lemma cast_to_integral : forall F k0 k v,
  is_float k0 = false -> is_float k = false -> cast_to F k0 k v = Ok (int_cast k v).
Proof. intros F k0 k v H0 H1. destruct k0; try discriminate H0; destruct k; try discriminate H1; reflexivity. Qed.

Lemma cast_to_conv : forall F [k0 k v v'],
  in_range k0 v = true -> s_conv k0 k v = Some v' -> cast_to F k0 k v = Ok v'.
Proof.
  intros F k0 k v v' H0 Hc. destruct (s_conv_Some Hc) as [-> [<-|[Hf0 [Hf H]]]].
  - apply cast_to_same, H0.
  - rewrite cast_to_integral, int_cast_id by assumption. reflexivity.
Qed.

(* the specification's and the model's scalar occaType are the same term: proofs that end in
   `OType (mk_scalar k v) = OType (s_scalar k v)` close by conversion *)
Lemma s_scalar_mk : forall k v, s_scalar k v = mk_scalar k v.
Proof. reflexivity. Qed.

Lemma pint_mk : forall k v, pint (mk_scalar k v) = v.
Proof. reflexivity. Qed.

Lemma prim_of_scalar : forall [k v], in_range k v = true ->
  prim_of cfg_fixed (mk_scalar k v) = Ok (mkP (PTK k) v).
Proof.
  intros k v H. unfold prim_of. cbn [o_tag mk_scalar]. destruct k; try reflexivity.
  cbn [fix_bool_prim cfg_fixed]. rewrite pint_mk, int_cast_id by exact H. reflexivity.
Qed.

(* with the repaired branches the switch over the type has the same body for every kind *)
Lemma newOccaType_prim_fixed : forall F k v,
  newOccaType_prim F cfg_fixed (mkP (PTK k) v) = new_from_prim F k (mkP (PTK k) v).
Proof. destruct k; reflexivity. Qed.

Lemma newOccaType_prim_typed_fixed : forall F p k,
  newOccaType_prim_typed F cfg_fixed p (TK k) = new_from_prim F k p.
Proof. destruct k; reflexivity. Qed.

Lemma new_from_prim_conv : forall F k0 k v v',
  in_range k0 v = true -> s_conv k0 k v = Some v' ->
  new_from_prim F k (mkP (PTK k0) v) = Ok (mk_scalar k v').
Proof.
  intros F k0 k v v' H0 Hc. unfold new_from_prim, prim_to. cbn [p_type p_val].
  rewrite (cast_to_conv F H0 Hc). reflexivity.
Qed.

Lemma newOccaType_prim_same : forall F [k v], in_range k v = true ->
  newOccaType_prim F cfg_fixed (mkP (PTK k) v) = Ok (mk_scalar k v).
Proof. intros. rewrite newOccaType_prim_fixed. apply new_from_prim_conv; [assumption | apply s_conv_refl]. Qed.

Lemma newOccaType_prim_typed_conv : forall F [k0 k v v'],
  in_range k0 v = true -> s_conv k0 k v = Some v' ->
  newOccaType_prim_typed F cfg_fixed (mkP (PTK k0) v) (TK k) = Ok (mk_scalar k v').
Proof. intros. rewrite newOccaType_prim_typed_fixed. apply new_from_prim_conv; assumption. Qed.

Lemma prim_of_typed_conv : forall F [k0 k v v'],
  in_range k0 v = true -> s_conv k0 k v = Some v' ->
  prim_of_typed F cfg_fixed (mk_scalar k0 v) (TK k) = Ok (mkP (PTK k) v').
Proof.
  intros F k0 k v v' H0 Hc. unfold prim_of_typed, prim_to. rewrite prim_of_scalar by assumption.
  cbn [p_type p_val]. destruct k; cbn [fix_bool_prim cfg_fixed];
    rewrite (cast_to_conv F H0 Hc); reflexivity.
Qed.

(* occaChar ... occaULong keep the value of their C argument: the detour through the signed
   type of the same width is undone by the conversion to the unsigned one *)
Lemma occa_amb_id : forall [c v], in_range (ct_kind c) v = true -> occa_amb c v = mk_scalar (ct_kind c) v.
Proof.
  intros c v H. unfold occa_amb, newOccaIntType.
  destruct c; cbn [ct_unsigned ct_size ct_kind signed_kind unsigned_kind Z.eqb Pos.eqb] in *; f_equal;
    first [ rewrite (int_cast_id _ v H); apply int_cast_id, H
          | cbn [int_cast]; rewrite wrapu_wraps by lia; apply (int_cast_id _ v H) ].
Qed.

Lemma kernelArg_scalar : forall [k v], in_range k v = true ->
  kernelArg cfg_fixed (mk_scalar k v) = Ok (mkKA (PTK k) (PInt v) 0).
Proof.
  intros k v H. unfold kernelArg. cbn [o_magic mk_scalar negb o_tag]. destruct k; try reflexivity.
  cbn [fix_bool_karg cfg_fixed]. rewrite pint_mk, int_cast_id by exact H. reflexivity.
Qed.

Lemma infer_scalar : forall st k v, in_range k v = true ->
  inferJson cfg_fixed st (mkSlot (lit_otype (LScalar k v)) true) = Ok (JNum k v).
Proof.
  intros st k v H. unfold inferJson. cbn [sl_val lit_otype mk_scalar o_tag].
  destruct k; try reflexivity. rewrite pint_mk, (int_cast_id _ _ H). reflexivity.
Qed.

Lemma echo_reads : forall [l o], s_echo l = Some o ->
  kernel_reads cfg_fixed l = o /\ o <> OErr /\ o <> OUB.
Proof.
  intros l o H. destruct l; cbn [s_echo] in H; try discriminate.
  - destruct (in_range k v) eqn:Er; [|discriminate]. inversion H; subst o.
    unfold kernel_reads. cbn [lit_otype]. rewrite (kernelArg_scalar Er). cbn [ka_pt ka_val].
    rewrite kind_eqb_refl. repeat split; discriminate.
  - inversion H; subst. unfold kernel_reads. cbn. destruct s; cbn; repeat split; discriminate.
  - inversion H; subst. cbn. repeat split; discriminate.
  - inversion H; subst. unfold kernel_reads. cbn. destruct s; cbn; repeat split; discriminate.
Qed.

Lemma echo_all_run : forall [args os], s_echo_all args = Some os ->
  map (kernel_reads cfg_fixed) args = os /\ first_stop os = None.
Proof.
  induction args as [|l args IH]; cbn [s_echo_all]; intros os H.
  - inversion H. split; reflexivity.
  - destruct (s_echo l) as [o|] eqn:El; [|discriminate].
    destruct (s_echo_all args) as [os'|] eqn:Ea; [|discriminate]. inversion H; subst os.
    destruct (echo_reads El) as [H1 [H2 H3]]. destruct (IH _ eq_refl) as [H4 H5].
    cbn [map]. rewrite H1, H4. split; [reflexivity|]. cbn [first_stop]. destruct o; try exact H5; congruence.
Qed.

Lemma addToScope_scalar : forall [k v], in_range k v = true ->
  addToScope cfg_fixed (mk_scalar k v) =
    Ok (mkKA (PTK k) (PInt v) 0,
        match k with
        | KBool => CNBool | KI8 | KU8 => CNChar | KI16 | KU16 => CNShort | KI32 | KU32 => CNInt
        | KI64 | KU64 => CNLong | KF32 => CNFloat | KF64 => CNDouble
        end).
Proof.
  intros k v H. unfold addToScope. rewrite (kernelArg_scalar H). destruct k; reflexivity.
Qed.

Lemma scope_decl_signed : forall ic k v, is_unsigned k = false ->
  scope_decl cfg_fixed ic (LScalar k v) = ODecl ic (s_cname k) false.
Proof. intros ic k v Hu. destruct k; try discriminate Hu; reflexivity. Qed.

Lemma scope_reads_signed : forall [k v], in_range k v = true -> is_unsigned k = false ->
  scope_reads cfg_fixed (LScalar k v) = OType (mk_scalar k v).
Proof.
  intros k v H Hu. unfold scope_reads. cbn [lit_otype]. rewrite (addToScope_scalar H).
  destruct k; try discriminate Hu; cbn [decl_kind ka_pt ka_val];
    (replace (same_class _ _) with true by reflexivity); cbn [is_float];
    try reflexivity; rewrite (int_cast_id _ _ H); reflexivity.
Qed.

Lemma scope_all_run : forall [args os], forallb lit_guard args = true -> s_scope_all args = Some os ->
  map (scope_reads cfg_fixed) args = os /\ first_stop os = None.
Proof.
  induction args as [|l args IH]; cbn [s_scope_all forallb]; intros os Hg H.
  - inversion H. split; reflexivity.
  - apply andb_true_iff in Hg. destruct Hg as [Hg1 Hg2].
    destruct (s_scope_one l) as [o|] eqn:El; [|discriminate].
    destruct (s_scope_all args) as [os'|] eqn:Ea; [|discriminate]. inversion H; subst os.
    destruct (IH _ Hg2 eq_refl) as [H4 H5].
    destruct l; cbn [s_scope_one] in El; try discriminate.
    destruct (in_range k v) eqn:Er; [|discriminate]. inversion El; subst o.
    cbn [lit_guard] in Hg1. apply negb_true_iff in Hg1.
    cbn [map]. rewrite (scope_reads_signed Er Hg1), H4. split; [reflexivity|]. exact H5.
Qed.
