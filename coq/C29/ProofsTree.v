(* C29 — paths, the std::map / std::vector operations the model uses, and what
   a write through a json pointer does to the abstract view (alpha) of the tree it points into
   and to the state that holds the tree; the unfolding of run_from. *)
From Coq Require Import List ZArith Bool Lia Arith.
From OV.C29 Require Import Types Model Spec.
Import ListNotations.
Local Open Scope Z_scope.

Lemma bytes_eqb_refl : forall a, bytes_eqb a a = true.
Proof. induction a; cbn; [reflexivity|]. rewrite Z.eqb_refl, IHa. reflexivity. Qed.

Lemma bytes_eqb_eq : forall a b, bytes_eqb a b = true -> a = b.
Proof.
  induction a; destruct b; cbn; intros H; try discriminate; [reflexivity|].
  apply andb_true_iff in H. destruct H as [H1 H2]. apply Z.eqb_eq in H1. f_equal; auto.
Qed.

Lemma bytes_eqb_sym : forall a b, bytes_eqb a b = bytes_eqb b a.
Proof.
  intros a b. destruct (bytes_eqb a b) eqn:E.
  - apply bytes_eqb_eq in E. subst. symmetry. apply bytes_eqb_refl.
  - destruct (bytes_eqb b a) eqn:E2; [|reflexivity]. apply bytes_eqb_eq in E2. subst.
    rewrite bytes_eqb_refl in E. discriminate.
Qed.

Lemma step_eqb_refl : forall a, step_eqb a a = true.
Proof. destruct a; cbn; [apply bytes_eqb_refl | apply Nat.eqb_refl]. Qed.

Lemma step_eqb_eq : forall a b, step_eqb a b = true -> a = b.
Proof.
  destruct a, b; cbn; intros H; try discriminate.
  - apply bytes_eqb_eq in H. subst. reflexivity.
  - apply Nat.eqb_eq in H. subst. reflexivity.
Qed.

Lemma strip_prefix_self : forall p r, strip_prefix p (p ++ r) = Some r.
Proof. induction p; cbn; intros; [reflexivity|]. rewrite step_eqb_refl. apply IHp. Qed.

Lemma strip_prefix_Some : forall p q r, strip_prefix p q = Some r -> q = p ++ r.
Proof.
  induction p; cbn; intros q r H.
  - inversion H. reflexivity.
  - destruct q; [discriminate|]. destruct (step_eqb a s) eqn:E; [|discriminate].
    apply step_eqb_eq in E. subst. f_equal. apply IHp. exact H.
Qed.

Lemma strip_prefix_app : forall p q r,
  strip_prefix (p ++ q) r = match strip_prefix p r with Some r' => strip_prefix q r' | None => None end.
Proof.
  induction p; cbn; intros; [reflexivity|].
  destruct r; [reflexivity|]. destruct (step_eqb a s); [apply IHp | reflexivity].
Qed.

Lemma strictly_below_self : forall p, strictly_below p p = false.
Proof. intros. unfold strictly_below. rewrite <- (app_nil_r p) at 2. rewrite strip_prefix_self. reflexivity. Qed.

Lemma strictly_below_app : forall p a r, strictly_below p (p ++ a :: r) = true.
Proof. intros. unfold strictly_below. rewrite strip_prefix_self. reflexivity. Qed.

Lemma strictly_below_nil_r : forall p, strictly_below p [] = false.
Proof. destruct p; reflexivity. Qed.

Lemma strictly_below_app_l : forall [p] a [q rest],
  strip_prefix p q = Some rest -> strictly_below (p ++ a) q = strictly_below a rest.
Proof. intros. unfold strictly_below. rewrite strip_prefix_app, H. reflexivity. Qed.

Lemma assoc_get_modify : forall k2 k g m,
  assoc_get k2 (assoc_modify k g m) =
    if bytes_eqb k2 k then option_map g (assoc_get k m) else assoc_get k2 m.
Proof.
  induction m as [|[k' c'] m IH]; cbn; [destruct (bytes_eqb k2 k); reflexivity|].
  destruct (bytes_eqb k k') eqn:E; cbn.
  - apply bytes_eqb_eq in E. subst k'. destruct (bytes_eqb k2 k); reflexivity.
  - rewrite IH. destruct (bytes_eqb k2 k') eqn:E2; [|reflexivity].
    apply bytes_eqb_eq in E2. subst k'. rewrite bytes_eqb_sym, E. reflexivity.
Qed.

Lemma assoc_get_set : forall k2 k v m,
  assoc_get k2 (assoc_set k v m) = if bytes_eqb k2 k then Some v else assoc_get k2 m.
Proof.
  induction m as [|[k' c'] m IH]; cbn; [destruct (bytes_eqb k2 k); reflexivity|].
  destruct (bytes_eqb k k') eqn:E; cbn.
  - apply bytes_eqb_eq in E. subst k'. destruct (bytes_eqb k2 k); reflexivity.
  - rewrite IH. destruct (bytes_eqb k2 k') eqn:E2; [|reflexivity].
    apply bytes_eqb_eq in E2. subst k'. rewrite bytes_eqb_sym, E. reflexivity.
Qed.

Lemma nth_error_modify : forall g l i j,
  nth_error (list_modify i g l) j = if Nat.eqb i j then option_map g (nth_error l i) else nth_error l j.
Proof.
  induction l; destruct i, j; cbn; try reflexivity; [destruct (Nat.eqb i j); reflexivity | apply IHl].
Qed.

Lemma length_list_modify : forall g l i, length (list_modify i g l) = length l.
Proof. induction l; destruct i; cbn; auto. Qed.

Lemma nth_error_insert : forall (l : list json) k x j,
  (k <= length l)%nat ->
  nth_error (firstn k l ++ x :: skipn k l) j =
    if Nat.ltb j k then nth_error l j else if Nat.eqb j k then Some x else nth_error l (j - 1).
Proof.
  intros l k. revert l. induction k as [|k IH]; intros l x j Hk.
  - cbn [firstn skipn app]. destruct j as [|j]; [reflexivity|]. cbn. rewrite Nat.sub_0_r. reflexivity.
  - destruct l as [|a l]; [cbn in Hk; lia|]. cbn [firstn skipn app].
    destruct j as [|j]; [reflexivity|].
    cbn [nth_error]. rewrite IH by (cbn in Hk; lia).
    change (Nat.ltb (S j) (S k)) with (Nat.ltb j k). change (Nat.eqb (S j) (S k)) with (Nat.eqb j k).
    destruct (Nat.ltb_spec j k); [reflexivity|]. destruct (Nat.eqb_spec j k); [reflexivity|].
    destruct j as [|j]; [lia|]. cbn. rewrite Nat.sub_0_r. reflexivity.
Qed.

Lemma push_as_insert : forall (l : list json) x, l ++ [x] = firstn (length l) l ++ x :: skipn (length l) l.
Proof. intros. rewrite firstn_all, skipn_all. reflexivity. Qed.

Lemma length_insert : forall (l : list json) k x, (k <= length l)%nat -> length (firstn k l ++ x :: skipn k l) = S (length l).
Proof.
  intros. rewrite app_length. cbn [length]. rewrite firstn_length, skipn_length. lia.
Qed.

Lemma nth_error_removelast : forall (l : list json) j,
  nth_error (removelast l) j = if Nat.ltb j (length l - 1) then nth_error l j else None.
Proof.
  induction l as [|a l IH]; intros j.
  - destruct j; reflexivity.
  - destruct l as [|b l].
    + destruct j; reflexivity.
    + change (removelast (a :: b :: l)) with (a :: removelast (b :: l)).
      destruct j as [|j].
      * reflexivity.
      * cbn [nth_error]. rewrite IH. cbn [length].
        replace (S (S (length l)) - 1)%nat with (S (length l)) by lia.
        replace (S (length l) - 1)%nat with (length l) by lia.
        change (Nat.ltb (S j) (S (length l))) with (Nat.ltb j (length l)). reflexivity.
Qed.

Lemma length_removelast : forall (l : list json), length (removelast l) = (length l - 1)%nat.
Proof.
  induction l as [|a l IH]; [reflexivity|]. destruct l as [|b l]; [reflexivity|].
  change (removelast (a :: b :: l)) with (a :: removelast (b :: l)). cbn [length] in *. rewrite IH. lia.
Qed.

Lemma nth_error_grow : forall (l : list json) k,
  (length l <= k)%nat -> nth_error (l ++ repeat JNull (k - length l) ++ [JNone]) k = Some JNone.
Proof.
  intros l k H. rewrite nth_error_app2 by lia. rewrite nth_error_app2 by (rewrite repeat_length; lia).
  rewrite repeat_length. replace (k - length l - (k - length l))%nat with 0%nat by lia. reflexivity.
Qed.

(* alpha t is the Spec.doc that the tree t denotes: what the accessors can tell about the node
   at each path, NAbsent where there is none *)
Definition alpha (t : json) (q : path) : node :=
  match node_at q t with Some c => kind_of c | None => NAbsent end.

Lemma node_at_app : forall p q t,
  node_at (p ++ q) t = match node_at p t with Some c => node_at q c | None => None end.
Proof.
  induction p as [|a p IH]; cbn; intros; [reflexivity|].
  destruct a; destruct t; try reflexivity.
  - destruct (assoc_get k m); [apply IH | reflexivity].
  - destruct (nth_error l i); [apply IH | reflexivity].
Qed.

Lemma alpha_app : forall [p] q [t c], node_at p t = Some c -> alpha t (p ++ q) = alpha c q.
Proof. intros. unfold alpha. rewrite node_at_app, H. reflexivity. Qed.

Lemma alpha_nil : forall t, alpha t [] = kind_of t.
Proof. reflexivity. Qed.

Lemma alpha_absent_app : forall p q t, alpha t p = NAbsent -> alpha t (p ++ q) = NAbsent.
Proof.
  intros p q t H. unfold alpha in *. rewrite node_at_app.
  destruct (node_at p t) eqn:E; [|reflexivity]. destruct j; discriminate.
Qed.

Lemma kind_of_not_absent : forall c, kind_of c <> NAbsent.
Proof. destruct c; discriminate. Qed.

Lemma alpha_present : forall [t p], alpha t p <> NAbsent -> exists c, node_at p t = Some c /\ kind_of c = alpha t p.
Proof.
  intros t p H. unfold alpha in *. destruct (node_at p t) eqn:E; [|congruence]. eauto.
Qed.

Lemma alpha_leaf : forall c, (forall m, c <> JObj m) -> (forall l, c <> JArr l) ->
  forall q, alpha c q = leaf (kind_of c) q.
Proof.
  intros c Ho Ha q. destruct q as [|a q]; [reflexivity|].
  unfold alpha. destruct a; destruct c; cbn; try reflexivity.
  - exfalso. eapply Ho. reflexivity.
  - exfalso. eapply Ha. reflexivity.
Qed.

Lemma alpha_obj_key : forall m k q,
  alpha (JObj m) (SK k :: q) = match assoc_get k m with Some c => alpha c q | None => NAbsent end.
Proof. intros. unfold alpha. cbn. destruct (assoc_get k m); reflexivity. Qed.

Lemma alpha_arr_idx : forall l i q,
  alpha (JArr l) (SI i :: q) = match nth_error l i with Some c => alpha c q | None => NAbsent end.
Proof. intros. unfold alpha. cbn. destruct (nth_error l i); reflexivity. Qed.

Lemma alpha_arr_key : forall l k q, alpha (JArr l) (SK k :: q) = NAbsent.
Proof. reflexivity. Qed.

(* writing f through the pointer p changes exactly what is at and below p *)
Lemma alpha_modify : forall [p] f [t c] q,
  node_at p t = Some c ->
  alpha (modify_at p f t) q =
    match strip_prefix p q with Some r => alpha (f c) r | None => alpha t q end.
Proof.
  induction p as [|a p IH]; intros f t c q H.
  - cbn in H. inversion H; subst. reflexivity.
  - destruct a as [k|i].
    + cbn in H. destruct t; try discriminate. destruct (assoc_get k m) eqn:Ek; [|discriminate].
      cbn [modify_at]. destruct q as [|b q].
      * reflexivity.
      * cbn [strip_prefix]. destruct b as [k2|i2].
        -- cbn [step_eqb]. rewrite !alpha_obj_key, assoc_get_modify, (bytes_eqb_sym k2 k), Ek.
           destruct (bytes_eqb k k2) eqn:E; [|reflexivity].
           apply bytes_eqb_eq in E. subst k2. rewrite Ek. apply IH, H.
        -- reflexivity.
    + cbn in H. destruct t; try discriminate. destruct (nth_error l i) eqn:Ei; [|discriminate].
      cbn [modify_at]. destruct q as [|b q].
      * unfold alpha. cbn. rewrite length_list_modify. reflexivity.
      * cbn [strip_prefix]. destruct b as [k2|i2].
        -- reflexivity.
        -- cbn [step_eqb]. rewrite !alpha_arr_idx, nth_error_modify, Ei.
           destruct (Nat.eqb i i2) eqn:E; [|reflexivity].
           apply Nat.eqb_eq in E. subst i2. rewrite Ei. apply IH, H.
Qed.

Lemma node_at_modify_self : forall p f t c,
  node_at p t = Some c -> node_at p (modify_at p f t) = Some (f c).
Proof.
  induction p as [|a p IH]; intros f t c H.
  - cbn in *. inversion H. reflexivity.
  - destruct a as [k|i]; cbn in H; destruct t; try discriminate.
    + destruct (assoc_get k m) eqn:Ek; [|discriminate]. cbn.
      rewrite assoc_get_modify, bytes_eqb_refl, Ek. apply IH, H.
    + destruct (nth_error l i) eqn:Ei; [|discriminate]. cbn.
      rewrite nth_error_modify, Nat.eqb_refl, Ei. apply IH, H.
Qed.

Lemma alpha_JObj_nil : forall q, alpha (JObj []) q = leaf NObj q.
Proof. destruct q as [|[k|i] q]; reflexivity. Qed.
Lemma alpha_JArr_nil : forall q, alpha (JArr []) q = leaf (NArr 0) q.
Proof. destruct q as [|[k|i] q]; try reflexivity. unfold alpha. cbn. destruct i; reflexivity. Qed.

Lemma node_at_put : forall [p t c] c', node_at p t = Some c -> node_at p (modify_at p (fun _ => c') t) = Some c'.
Proof. intros. apply (node_at_modify_self p (fun _ => c') t c H). Qed.

Lemma put_node_tab : forall st r p c, m_tab (put_node st r p c) = m_tab st.
Proof. intros. unfold put_node. destruct (m_roots st r); reflexivity. Qed.

Lemma put_node_next : forall st r p c, m_next (put_node st r p c) = m_next st.
Proof. intros. unfold put_node. destruct (m_roots st r); reflexivity. Qed.

Lemma put_node_root_same : forall [st r] p c [t],
  m_roots st r = Some t -> m_roots (put_node st r p c) r = Some (modify_at p (fun _ => c) t).
Proof. intros. unfold put_node. rewrite H. cbn. rewrite Nat.eqb_refl. reflexivity. Qed.

Lemma put_node_root_other : forall st r p c r', r' <> r -> m_roots (put_node st r p c) r' = m_roots st r'.
Proof.
  intros. unfold put_node. destruct (m_roots st r); [|reflexivity]. cbn.
  destruct (Nat.eqb_spec r' r); [contradiction | reflexivity].
Qed.

(* what occaFree leaves behind: nothing changed (undefined value; a json it cannot delete); the
   value only marked undefined (anything but an owned json); or the heap object deleted *)
Lemma occaFree_cases : forall st n,
  fst (occaFree st n) = st \/
  fst (occaFree st n) =
    with_slot st n (mkSlot (mark_undefined (sl_val (m_tab st n))) (sl_ok (m_tab st n))) \/
  exists r q, o_val (sl_val (m_tab st n)) = PRef r q /\
    fst (occaFree st n) =
      with_slot (set_tab (set_root st r None) (kill_root r (m_tab st))) n
                (mkSlot (mark_undefined (sl_val (m_tab st n))) false).
Proof.
  intros st n. unfold occaFree. cbv zeta.
  destruct (negb (o_magic (sl_val (m_tab st n)))); [left; reflexivity|].
  destruct (o_tag (sl_val (m_tab st n))); try (right; left; reflexivity).
  destruct (o_free (sl_val (m_tab st n))); [|right; left; reflexivity].
  destruct (negb (sl_ok (m_tab st n))); [left; reflexivity|].
  destruct (o_val (sl_val (m_tab st n))); try (left; reflexivity).
  right; right. do 2 eexists. split; reflexivity.
Qed.

Lemma run_from_cons : forall F cf st o ops,
  run_from F cf st (o :: ops) =
    (fst (run_from F cf (fst (step F cf st o)) ops),
     snd (step F cf st o) :: snd (run_from F cf (fst (step F cf st o)) ops)).
Proof.
  intros. cbn [run_from]. destruct (step F cf st o) as [st1 ob]. cbn [fst snd].
  destruct (run_from F cf st1 ops) as [st2 obs']. reflexivity.
Qed.
