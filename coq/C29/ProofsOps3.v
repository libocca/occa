(* C29 — the refinement for one operation of the case language, stateless
   or stateful, and the theorem over all histories. *)
From Coq Require Import List ZArith Bool Lia Arith.
From OV.C29 Require Import Types Model Spec Proofs ProofsTree ProofsOps.
Import ListNotations.
Local Open Scope Z_scope.

Lemma pure_refines : forall o (ob : mstate -> obs) (rq : sstate -> req),
  (forall s, sstep s o = Some (s, rq s)) -> (forall st s, R st s -> agrees (ob st) (rq s)) ->
  refines o (fun st => (st, ob st)).
Proof.
  intros o ob rq Hs Ha st s s' rq' HR H. rewrite Hs in H. injection H as <- <-.
  split; [exact HR | apply Ha, HR].
Qed.

Theorem step_refines : forall F o, op_guard o = true -> refines o (fun st => step F cfg_fixed st o).
Proof.
  intros F o Hg. destruct o; cbn [step];
    (* pure_refines applies where step returns the pair (st, _) as written: the eleven operations
       without a lemma of their own below; on the others the eapply fails and the goal stays *)
    try (eapply pure_refines; [intros s; reflexivity | intros st s HR; cbv beta]).
  - (* OpC *) destruct (s_lit l) eqn:El; [|exact I]. apply s_lit_lit_otype in El. subst. reflexivity.
  - (* OpAmb *) destruct (in_range (ct_kind c) v) eqn:Er; [|exact I]. rewrite (occa_amb_id Er). reflexivity.
  - (* OpP *) destruct l; try exact I. destruct (in_range k v) eqn:Er; [|exact I]. cbn [lit_otype agrees].
    rewrite (prim_of_scalar Er), (newOccaType_prim_same F Er). reflexivity.
  - (* OpQ *) unfold s_conv_req. destruct l; try exact I. destruct (in_range k0 v) eqn:Er; [|exact I].
    destruct (s_conv k0 k v) as [v'|] eqn:Ec; [|exact I]. cbn [lit_otype agrees].
    rewrite (prim_of_scalar Er), (newOccaType_prim_typed_conv F Er Ec). reflexivity.
  - (* OpT *) unfold s_conv_req. destruct l; try exact I. destruct (in_range k0 v) eqn:Er; [|exact I].
    destruct (s_conv k0 k v) as [v'|] eqn:Ec; [|exact I]. cbn [lit_otype agrees].
    rewrite (prim_of_typed_conv F Er Ec).
    destruct (s_conv_Some Ec) as [-> [<-|[_ [_ Er2]]]]; rewrite (newOccaType_prim_same F); auto.
  - (* OpK *) destruct l; try exact I; [|reflexivity]. destruct (in_range k v) eqn:Er; [|exact I].
    cbn [lit_otype agrees]. rewrite (kernelArg_scalar Er). reflexivity.
  - (* OpKRun *) destruct (s_echo_all args) as [os|] eqn:Ea; [|exact I]. destruct (echo_all_run Ea) as [H1 H2].
    cbn [agrees]. unfold kernel_run. rewrite H1, H2. reflexivity.
  - (* OpScopeDecl *) destruct l; try exact I; [|reflexivity]. destruct (in_range k v) eqn:Er; [|exact I].
    cbn [op_guard lit_guard] in Hg. apply negb_true_iff in Hg. cbn [agrees].
    apply scope_decl_signed, Hg.
  - (* OpScopeRun *) destruct (s_scope_all args) as [os|] eqn:Ea; [|exact I]. cbn [op_guard] in Hg.
    destruct (scope_all_run Hg Ea) as [H1 H2].
    cbn [agrees]. unfold scope_run. rewrite H1, H2. reflexivity.
  - (* OpNew *) apply new_refines.
  - (* OpFree *) apply free_refines.
  - (* OpIsUndef *) cbn. rewrite (R_tab HR). reflexivity.
  - (* OpView *) cbn. rewrite (R_tab HR). reflexivity.
  - (* OpOSet *) apply oset_refines.
  - (* OpOGet *) apply oget_refines.
  - (* OpOHas *) apply ohas_refines.
  - (* OpAPush *) apply apush_refines.
  - (* OpAIns *) apply ains_refines.
  - (* OpAGet *) apply aget_refines.
  - (* OpAPop *) apply apop_refines.
  - (* OpAClear *) apply aclear_refines.
  - (* OpASize *) apply asize_refines.
  - (* OpCast *) apply cast_refines.
  - (* OpGetB *) apply getb_refines.
  - (* OpGetN *) apply getn_refines.
  - (* OpGetS *) apply gets_refines.
  - (* OpTy *) apply ty_refines.
Qed.

Lemma s_run_none : forall ops, s_run_from None ops = map (fun _ => Any) ops.
Proof. induction ops; cbn; [reflexivity|]. rewrite IHops. reflexivity. Qed.

Lemma run_from_length : forall F cf ops st, length (snd (run_from F cf st ops)) = length ops.
Proof.
  induction ops as [|o ops IH]; intros st; [reflexivity|].
  rewrite run_from_cons. cbn. rewrite IH. reflexivity.
Qed.

Lemma Forall2_any : forall (A : Type) (l : list obs) (l' : list A), length l = length l' ->
  Forall2 agrees l (map (fun _ => Any) l').
Proof.
  induction l; destruct l'; cbn; intros H; try discriminate; constructor; [exact I|].
  apply IHl. lia.
Qed.

Lemma agrees_any : forall l, Forall2 agrees l (map (fun _ => Any) l).
Proof. intros. apply Forall2_any. reflexivity. Qed.

Theorem run_refines_from : forall F ops st s,
  forallb op_guard ops = true ->
  R st s -> Forall2 agrees (snd (run_from F cfg_fixed st ops)) (s_run_from (Some s) ops).
Proof.
  induction ops as [|o ops IH]; intros st s Hgs HR.
  - constructor.
  - rewrite run_from_cons. cbn [snd s_run_from forallb] in *.
    apply andb_true_iff in Hgs. destruct Hgs as [Hg Hgs].
    destruct (sstep s o) as [[s1 rq]|] eqn:Es.
    + destruct (step_refines F o Hg _ _ _ _ HR Es) as [HR1 Hag]. constructor; [exact Hag | exact (IH _ _ Hgs HR1)].
    + constructor; [exact I|]. rewrite s_run_none. apply Forall2_any, run_from_length.
Qed.
