(* C29 — what can be said of a json made by occaCreateJson from an arbitrary state (any heap, any
   contents of the other C variables).
   First the round trips through it, as an object and as an array.  They are computed on the model
   and are not corollaries of json_roundtrip: the state they start from need not be related by R to
   any state of the specification.
   Then: the handle stays exactly as it is, and its heap object stays alive, across every operation
   other than an occaFree of a variable that points into that object or an assignment to the C
   variable that holds it. *)
From Coq Require Import List ZArith Bool Lia Arith.
From OV.C29 Require Import Types Model Spec Proofs ProofsTree ProofsHandles.
Import ListNotations.
Local Open Scope Z_scope.

(* the occaType occaCreateJson returns for heap object r *)
Definition root_handle (r : nat) : otype := mkO true TJson 8 true (PRef r []).

Lemma create_tab : forall st n,
  m_tab (fst (occaCreateJson st n)) n = mkSlot (root_handle (m_next st)) true.
Proof.
  intros. unfold occaCreateJson. cbv zeta. cbn [fst with_slot set_tab m_tab]. unfold set_slot.
  rewrite Nat.eqb_refl. reflexivity.
Qed.

Lemma create_root : forall st n, m_roots (fst (occaCreateJson st n)) (m_next st) = Some JNone.
Proof.
  intros. unfold occaCreateJson. cbv zeta. cbn [fst with_slot set_tab m_roots]. rewrite Nat.eqb_refl. reflexivity.
Qed.

Lemma open_root_handle : forall st n r t,
  m_tab st n = mkSlot (root_handle r) true -> m_roots st r = Some t -> open_handle st n = HGo r [] t.
Proof. intros st n r t Ht Hr. unfold open_handle. rewrite Ht. cbn. rewrite Hr. reflexivity. Qed.

Lemma create_opens : forall st n,
  open_handle (fst (occaCreateJson st n)) n = HGo (m_next st) [] JNone.
Proof. intros. apply open_root_handle; [apply create_tab | apply create_root]. Qed.

Lemma kill_below_root_handle : forall r' p T n r b,
  T n = mkSlot (root_handle r) b -> kill_below r' p T n = T n.
Proof.
  intros. unfold kill_below. cbv zeta. rewrite H. cbn [sl_val o_val root_handle].
  rewrite strictly_below_nil_r, andb_false_r. reflexivity.
Qed.

(* two writes at the root of heap object r, then a kill: the object is the second value and
   the variable that holds the root handle is untouched *)
Lemma root_written : forall [st r n] c1 c2 q [t0],
  m_roots st r = Some t0 -> m_tab st n = mkSlot (root_handle r) true ->
  m_roots (kill (put_node (put_node st r [] c1) r [] c2) r q) r = Some c2 /\
  m_tab (kill (put_node (put_node st r [] c1) r [] c2) r q) n = mkSlot (root_handle r) true.
Proof.
  intros st r n c1 c2 q t0 Hr Ht. split.
  - cbn [kill set_tab m_roots].
    rewrite (put_node_root_same _ _ (put_node_root_same _ _ Hr)). reflexivity.
  - cbn [kill set_tab m_tab]. rewrite !put_node_tab, (kill_below_root_handle _ _ _ _ r _ Ht). exact Ht.
Qed.

Lemma open_child_handle : forall [st] m [r q t c],
  m_roots st r = Some t -> node_at q t = Some c ->
  open_handle (with_slot st m (mkSlot (mkO true TJson 8 false (PRef r q)) true)) m = HGo r q c.
Proof.
  intros st m r q t c Hr Hn. unfold open_handle. cbn [with_slot set_tab m_tab m_roots]. unfold set_slot.
  rewrite Nat.eqb_refl. cbn [sl_val sl_ok o_magic o_tag o_val negb]. change (tag_eqb TJson TJson) with true.
  cbn [negb]. rewrite Hr, Hn. reflexivity.
Qed.

Section FreshObject.
  Variables (F : fops) (st : mstate) (n m : nat) (b : Z) (key' : bytes) (k : kind) (v : Z).
  Let key := b :: key'.
  Hypothesis Hkey : key_ok key = true.
  Hypothesis Hv : in_range k v = true.

  Let r := m_next st.
  Let st1 := fst (occaCreateJson st n).
  Let set := occaJsonObjectSet cfg_fixed st1 n key (VLit (LScalar k v)).
  Let st2 := fst set.
  Let get := occaJsonObjectGet st2 n key m LUndef.
  Let st3 := fst get.

  Lemma fresh_set :
    set = (kill (put_node (put_node st1 r [] (JObj [])) r [] (JObj [(key, JNum k v)])) r [SK key], OUnit).
  Proof.
    subst set. unfold occaJsonObjectSet. rewrite Hkey. cbn [negb].
    assert (Ht1 : m_tab st1 n = mkSlot (root_handle r) true) by apply create_tab.
    rewrite Ht1. cbn [sl_val root_handle o_magic negb open_value].
    rewrite (create_opens st n : open_handle st1 n = _). cbv zeta. cbn [auto_cast].
    rewrite (infer_scalar _ _ _ Hv). subst key. reflexivity.
  Qed.

  Lemma fresh_state2 :
    m_roots st2 r = Some (JObj [(key, JNum k v)]) /\ m_tab st2 n = mkSlot (root_handle r) true.
  Proof. subst st2. rewrite fresh_set. apply (root_written _ _ _ (create_root st n) (create_tab st n)). Qed.

  Lemma fresh_open2 : open_handle st2 n = HGo r [] (JObj [(key, JNum k v)]).
  Proof. destruct fresh_state2 as [Hr Ht]. apply open_root_handle; assumption. Qed.

  Lemma fresh_get :
    get = (with_slot (put_node st2 r [] (JObj [(key, JNum k v)])) m
             (mkSlot (mkO true TJson 8 false (PRef r [SK key])) true),
           OType (mkO true TJson 8 false (PRef r [SK key]))).
  Proof.
    subst get. unfold occaJsonObjectGet. rewrite Hkey. cbn [negb]. rewrite fresh_open2. cbv zeta.
    cbn [auto_cast]. subst key. cbn [assoc_get]. rewrite bytes_eqb_refl. reflexivity.
  Qed.

  Lemma fresh_open3 : open_handle st3 m = HGo r [SK key] (JNum k v).
  Proof.
    subst st3. rewrite fresh_get. destruct fresh_state2 as [Hr _].
    apply (open_child_handle _ (put_node_root_same _ _ Hr)).
    subst key. cbn [modify_at node_at assoc_get]. rewrite bytes_eqb_refl. reflexivity.
  Qed.

  (* occaJsonGetNumber(occaJsonObjectGet(j, key), type-of-k) gives back the constructor's occaType *)
  Lemma object_roundtrip_number :
    snd set = OUnit /\
    snd get = OType (mkO true TJson 8 false (PRef r [SK key])) /\
    snd (occaJsonGetNumber F cfg_fixed st3 m k) = OType (lit_otype (LScalar k v)).
  Proof.
    split; [rewrite fresh_set; reflexivity|]. split; [rewrite fresh_get; reflexivity|].
    unfold occaJsonGetNumber. rewrite fresh_open3.
    rewrite (newOccaType_prim_typed_conv F Hv (s_conv_refl k v)). reflexivity.
  Qed.
End FreshObject.

Section FreshArray.
  Variables (F : fops) (st : mstate) (n m : nat) (k : kind) (v : Z).
  Hypothesis Hv : in_range k v = true.

  Let r := m_next st.
  Let st1 := fst (occaCreateJson st n).
  Let push := occaJsonArrayPush cfg_fixed st1 n (VLit (LScalar k v)).
  Let st2 := fst push.
  Let get := occaJsonArrayGet st2 n 0 m.
  Let st3 := fst get.

  Lemma afresh_push :
    push = (kill (put_node (put_node st1 r [] (JArr [])) r [] (JArr [JNum k v])) r [], OUnit).
  Proof.
    subst push. unfold occaJsonArrayPush.
    assert (Ht1 : m_tab st1 n = mkSlot (root_handle r) true) by apply create_tab.
    rewrite Ht1. cbn [sl_val root_handle o_magic negb open_value].
    rewrite (create_opens st n : open_handle st1 n = _). cbv zeta. cbn [auto_cast].
    rewrite (infer_scalar _ _ _ Hv). reflexivity.
  Qed.

  Lemma afresh_state2 :
    m_roots st2 r = Some (JArr [JNum k v]) /\ m_tab st2 n = mkSlot (root_handle r) true.
  Proof. subst st2. rewrite afresh_push. apply (root_written _ _ _ (create_root st n) (create_tab st n)). Qed.

  Lemma afresh_open2 : open_handle st2 n = HGo r [] (JArr [JNum k v]).
  Proof. destruct afresh_state2 as [Hr Ht]. apply open_root_handle; assumption. Qed.

  Lemma afresh_get :
    get = (with_slot (put_node st2 r [] (JArr [JNum k v])) m
             (mkSlot (mkO true TJson 8 false (PRef r [SI 0%nat])) true),
           OType (mkO true TJson 8 false (PRef r [SI 0%nat]))).
  Proof.
    subst get. unfold occaJsonArrayGet. rewrite afresh_open2. cbv zeta. reflexivity.
  Qed.

  Lemma afresh_open3 : open_handle st3 m = HGo r [SI 0%nat] (JNum k v).
  Proof.
    subst st3. rewrite afresh_get. destruct afresh_state2 as [Hr _].
    apply (open_child_handle _ (put_node_root_same _ _ Hr)). reflexivity.
  Qed.

  (* occaJsonGetNumber(occaJsonArrayGet(a, 0), type-of-k) after a push gives back the occaType *)
  Lemma array_roundtrip_number :
    snd push = OUnit /\
    snd (occaJsonGetNumber F cfg_fixed st3 m k) = OType (lit_otype (LScalar k v)).
  Proof.
    split; [rewrite afresh_push; reflexivity|].
    unfold occaJsonGetNumber. rewrite afresh_open3.
    rewrite (newOccaType_prim_typed_conv F Hv (s_conv_refl k v)). reflexivity.
  Qed.
End FreshArray.

Definition writes_slot (o : op) (n : nat) : bool :=
  match o with
  | OpNew m | OpFree m => Nat.eqb m n
  | OpOGet _ _ m _ | OpAGet _ _ m => Nat.eqb m n
  | _ => false
  end.

Definition frees_root (st : mstate) (o : op) (r : nat) : bool :=
  match o with
  | OpFree m => match o_val (sl_val (m_tab st m)) with PRef r' _ => Nat.eqb r' r | _ => false end
  | _ => false
  end.

(* from st to st' variable n keeps the root handle of heap object r, and r stays alive *)
Definition keeps (n r : nat) (st st' : mstate) : Prop :=
  (m_tab st n = mkSlot (root_handle r) true -> m_tab st' n = mkSlot (root_handle r) true) /\
  ((exists t, m_roots st r = Some t) -> exists t, m_roots st' r = Some t).

Lemma keeps_refl : forall n r st, keeps n r st st.
Proof. intros. split; auto. Qed.

Lemma keeps_trans : forall n r a b c, keeps n r a b -> keeps n r b c -> keeps n r a c.
Proof. intros n r a b c [H1 H2] [H3 H4]. split; auto. Qed.

Lemma keeps_put : forall n r st r' p c, keeps n r st (put_node st r' p c).
Proof.
  intros. split.
  - rewrite put_node_tab. exact (fun H => H).
  - intros [t Ht]. destruct (Nat.eq_dec r r') as [<-|Hne].
    + rewrite (put_node_root_same _ _ Ht). eexists. reflexivity.
    + rewrite put_node_root_other by exact Hne. exists t. exact Ht.
Qed.

Lemma keeps_kill : forall n r st r' p, keeps n r st (kill st r' p).
Proof.
  intros. split; [|auto]. intros H. cbn [kill set_tab m_tab].
  rewrite (kill_below_root_handle _ _ _ _ r _ H). exact H.
Qed.

Lemma keeps_with_slot : forall n r st m sl, Nat.eqb m n = false -> keeps n r st (with_slot st m sl).
Proof.
  intros n r st m sl H. split; [|auto]. intros Ht. cbn [with_slot set_tab m_tab]. unfold set_slot.
  rewrite Nat.eqb_sym, H. exact Ht.
Qed.

Lemma reach_keeps : forall n r st st', reach (fun m => m <> n) st st' -> keeps n r st st'.
Proof.
  intros n r st st' H. induction H.
  - apply keeps_refl.
  - eapply keeps_trans; [eassumption | apply keeps_put].
  - eapply keeps_trans; [eapply keeps_trans; [eassumption | apply keeps_put] | apply keeps_kill].
  - eapply keeps_trans; [eassumption | apply keeps_with_slot, Nat.eqb_neq; assumption].
Qed.

Lemma keeps_new : forall st m n r, Nat.eqb m n = false -> (exists t, m_roots st r = Some t) ->
  (forall r', (m_next st <= r')%nat -> m_roots st r' = None) ->
  keeps n r st (fst (occaCreateJson st m)).
Proof.
  intros st m n r Hm [t Ht] Hfresh. unfold occaCreateJson. cbv zeta. cbn [fst]. split.
  - intros H. cbn [with_slot set_tab m_tab]. unfold set_slot. rewrite Nat.eqb_sym, Hm. exact H.
  - intros _. cbn [with_slot set_tab m_roots]. destruct (Nat.eqb_spec r (m_next st)) as [->|]; [|eauto].
    rewrite Hfresh in Ht by lia. discriminate.
Qed.

Lemma keeps_free : forall st m n r, Nat.eqb m n = false -> frees_root st (OpFree m) r = false ->
  keeps n r st (fst (occaFree st m)).
Proof.
  intros st m n r Hm Hfr. cbn [frees_root] in Hfr.
  destruct (occaFree_cases st m) as [->|[->|[root [q [Ev ->]]]]];
    [apply keeps_refl | apply keeps_with_slot, Hm | rewrite Ev in Hfr].
  split.
  - intros H. cbn [with_slot set_tab m_tab]. unfold set_slot. rewrite Nat.eqb_sym, Hm.
    unfold kill_root. cbv zeta. rewrite H. cbn [sl_val o_val root_handle].
    rewrite Nat.eqb_sym, Hfr. reflexivity.
  - intros [t Ht]. cbn [with_slot set_tab set_root m_roots]. rewrite Nat.eqb_sym, Hfr. eauto.
Qed.

Lemma step_keeps : forall F cf st o n r,
  (forall r', (m_next st <= r')%nat -> m_roots st r' = None) -> (exists t, m_roots st r = Some t) ->
  writes_slot o n = false -> frees_root st o r = false ->
  keeps n r st (fst (step F cf st o)).
Proof.
  intros F cf st o n r Hfresh Hlive Hw Hf.
  assert (Hout : forall m, op_out o = Some m -> m <> n).
  { destruct o; cbn; intros m' E; try discriminate E; injection E as <-; apply Nat.eqb_neq, Hw. }
  destruct (changes_heap o) eqn:Hh.
  - destruct o; try discriminate Hh; [apply keeps_new | apply keeps_free]; assumption.
  - exact (reach_keeps _ _ _ _ (step_reach _ F cf st o Hh Hout)).
Qed.
