(* C29 — over every history the model's JSON store (trees of std::map /
   std::vector nodes reached through pointers) answers exactly as the specification's
   path-indexed store requires, as long as the history stays inside the specification's
   preconditions.  This file: the relation R between the two states and one lemma per stateful
   operation of the case language — when the specification accepts the call, the model's new
   state is related to the specification's and the model's observation is the required one.
   The operations share one shape: the handle opens on both sides at the same node (`open_rel`),
   an uninitialised node is turned into a container on both sides (`open_obj`, `open_arr`), and a write
   through the pointer is a graft of the document (`R_put`) whose content is a fact about the
   container alone (`obj_rel_set`, `arr_rel_insert`, `arr_rel_pop`). *)
From Coq Require Import List ZArith Bool Lia Arith.
From OV.C29 Require Import Types Model Spec Proofs ProofsTree.
Import ListNotations.
Local Open Scope Z_scope.

Definition rel_doc (t : json) (d : doc) : Prop := forall q, alpha t q = d q.

Definition rel_root (a : option json) (b : option doc) : Prop :=
  match a, b with
  | Some t, Some d => rel_doc t d
  | None, None => True
  | _, _ => False
  end.

Record R (st : mstate) (s : sstate) : Prop := mkR {
  R_next : m_next st = s_next s;
  R_tab : forall n, m_tab st n = s_tab s n;
  R_roots : forall r, rel_root (m_roots st r) (s_roots s r) }.

Arguments R_next [st s] _.
Arguments R_tab [st s] _ n.
Arguments R_roots [st s] _ r.

Lemma R_init : R m_init s_init.
Proof. constructor; cbn; auto. Qed.

Lemma R_kill : forall st s r p, R st s -> R (kill st r p) (s_kill s r p).
Proof.
  intros st s r p [Hn Ht Hr]. constructor; cbn; auto.
  intros n. unfold kill_below. rewrite Ht. reflexivity.
Qed.

Lemma R_with_slot : forall st s n sl, R st s -> R (with_slot st n sl) (s_with_slot s n sl).
Proof.
  intros st s n sl [Hn Ht Hr]. constructor; cbn; auto.
  intros m. unfold set_slot. rewrite Ht. reflexivity.
Qed.

Lemma rel_put : forall p t c c' d g,
  rel_doc t d -> node_at p t = Some c -> (forall q, alpha c' q = g q) ->
  rel_doc (modify_at p (fun _ => c') t) (graft d p g).
Proof.
  intros p t c c' d g Hrel Hc Hg q. rewrite (alpha_modify _ _ Hc). unfold graft.
  destruct (strip_prefix p q); [apply Hg | apply Hrel].
Qed.

(* writing back the node that is already there changes nothing the accessors can see *)
Lemma rel_put_same : forall p t c d,
  rel_doc t d -> node_at p t = Some c -> rel_doc (modify_at p (fun _ => c) t) d.
Proof.
  intros p t c d Hrel Hc q. rewrite (alpha_modify _ _ Hc).
  destruct (strip_prefix p q) eqn:E; [|apply Hrel].
  apply strip_prefix_Some in E. subst q. rewrite <- Hrel. symmetry. apply alpha_app. exact Hc.
Qed.

(* what open_rel establishes about one handle: the two roots, the node it points at, and that
   the tree denotes the document *)
Record opened (st : mstate) (s : sstate) (r : nat) (p : path) (t : json) (c : json) (d : doc) : Prop := mkOpened {
  op_mroot : m_roots st r = Some t;
  op_sroot : s_roots s r = Some d;
  op_node : node_at p t = Some c;
  op_rel : rel_doc t d }.

Lemma opened_kind : forall [st s r p t c d], opened st s r p t c d -> kind_of c = d p.
Proof. intros st s r p t c d [H1 H2 H3 H4]. rewrite <- H4. unfold alpha. rewrite H3. reflexivity. Qed.

Lemma opened_sub : forall [st s r p t c d], opened st s r p t c d -> forall q, alpha c q = sub d p q.
Proof. intros st s r p t c d [H1 H2 H3 H4] q. unfold sub. rewrite <- H4. symmetry. apply alpha_app. exact H3. Qed.

Lemma R_write : forall st s s' r p c' t,
  R st s -> m_roots st r = Some t ->
  s_next s' = s_next s -> s_tab s' = s_tab s ->
  (forall r', r' <> r -> s_roots s' r' = s_roots s r') ->
  rel_root (Some (modify_at p (fun _ => c') t)) (s_roots s' r) ->
  R (put_node st r p c') s'.
Proof.
  intros st s s' r p c' t [Hn Ht Hr] Hmt Hn' Ht' Ho Hnew. constructor.
  - rewrite put_node_next, Hn'. exact Hn.
  - intros n. rewrite put_node_tab, Ht'. apply Ht.
  - intros r'. destruct (Nat.eq_dec r' r) as [->|Hne].
    + rewrite (put_node_root_same _ _ Hmt). exact Hnew.
    + rewrite put_node_root_other, Ho by assumption. apply Hr.
Qed.

Lemma s_set_root_other : forall s r d r', r' <> r -> s_roots (s_set_root s r d) r' = s_roots s r'.
Proof. intros. cbn. destruct (Nat.eqb_spec r' r); [contradiction | reflexivity]. Qed.

Lemma s_set_root_same : forall s r d, s_roots (s_set_root s r d) r = d.
Proof. intros. cbn. rewrite Nat.eqb_refl. reflexivity. Qed.

Lemma R_put : forall [st s r p c c' t d g],
  R st s -> opened st s r p t c d -> (forall q, alpha c' q = g q) ->
  R (put_node st r p c') (s_set_root s r (Some (graft d p g))).
Proof.
  intros st s r p c c' t d g HR [Hmt Hsd Hc Hrel] Hg.
  apply (R_write _ s _ _ _ _ t HR Hmt); try reflexivity.
  - intros. apply s_set_root_other. assumption.
  - rewrite s_set_root_same. eapply rel_put; eassumption.
Qed.

Lemma R_put_same : forall [st s r p c t d],
  R st s -> opened st s r p t c d -> R (put_node st r p c) s.
Proof.
  intros st s r p c t d HR [Hmt Hsd Hc Hrel].
  apply (R_write _ s _ _ _ _ t HR Hmt); try reflexivity.
  rewrite Hsd. eapply rel_put_same; eassumption.
Qed.

(* two writes through the same pointer: only the second is visible (occaJsonArrayClear writes
   the auto-initialised node and then the empty array; the specification grafts once) *)
Lemma R_put_put : forall [st s r p c t d] c1 [c2 g],
  R st s -> opened st s r p t c d -> (forall q, alpha c2 q = g q) ->
  R (put_node (put_node st r p c1) r p c2) (s_set_root s r (Some (graft d p g))).
Proof.
  intros st s r p c t d c1 c2 g HR [Hmt Hsd Hn Hrel] Hg. constructor.
  - rewrite !put_node_next. apply (R_next HR).
  - intros m. rewrite !put_node_tab. apply (R_tab HR).
  - intros r'. destruct (Nat.eq_dec r' r) as [->|Hne].
    + rewrite (put_node_root_same _ _ (put_node_root_same _ _ Hmt)), s_set_root_same. intros q.
      rewrite (alpha_modify _ _ (node_at_put _ Hn)). unfold graft.
      destruct (strip_prefix p q) eqn:E; [apply Hg|].
      rewrite (alpha_modify _ _ Hn), E. apply Hrel.
    + rewrite !put_node_root_other, s_set_root_other by assumption. apply (R_roots HR).
Qed.

Lemma opened_put : forall st s r p c c' t d g,
  opened st s r p t c d -> (forall q, alpha c' q = g q) ->
  opened (put_node st r p c') (s_set_root s r (Some (graft d p g))) r p
         (modify_at p (fun _ => c') t) c' (graft d p g).
Proof.
  intros st s r p c c' t d g [Hmt Hsd Hc Hrel] Hg. constructor.
  - apply put_node_root_same, Hmt.
  - apply s_set_root_same.
  - eapply node_at_put, Hc.
  - eapply rel_put; eassumption.
Qed.

Lemma opened_put_same : forall st s r p c t d,
  opened st s r p t c d -> opened (put_node st r p c) s r p (modify_at p (fun _ => c) t) c d.
Proof.
  intros st s r p c t d [Hmt Hsd Hc Hrel]. constructor.
  - apply put_node_root_same, Hmt.
  - exact Hsd.
  - eapply node_at_put, Hc.
  - eapply rel_put_same; eassumption.
Qed.

Lemma open_rel : forall [st s n r p d],
  R st s -> s_open s n = Some (r, p, d) ->
  exists t c, open_handle st n = HGo r p c /\ opened st s r p t c d /\
              o_magic (sl_val (m_tab st n)) = true.
Proof.
  intros st s n r p d HR H. unfold s_open in H. rewrite <- (R_tab HR n) in H.
  destruct (o_magic (sl_val (m_tab st n))) eqn:Em; [|discriminate].
  destruct (tag_eqb (o_tag (sl_val (m_tab st n))) TJson) eqn:Et; [|discriminate].
  destruct (sl_ok (m_tab st n)) eqn:Eo; [|discriminate]. cbn [andb] in H.
  destruct (o_val (sl_val (m_tab st n))) eqn:Ev; try discriminate.
  destruct (s_roots s root) as [d0|] eqn:Es; [|discriminate].
  pose proof (R_roots HR root) as Hr. rewrite Es in Hr.
  destruct (m_roots st root) as [t|] eqn:Emr; [|contradiction]. cbn in Hr.
  assert (Hp : d0 p0 <> NAbsent /\ (root, p0, d0) = (r, p, d)).
  { destruct (d0 p0); [discriminate H | injection H as <- <- <-; split; [discriminate | reflexivity] ..]. }
  destruct Hp as [Hp E]. injection E as <- <- <-. rewrite <- Hr in Hp.
  apply alpha_present in Hp. destruct Hp as [c [Hc _]].
  exists t, c. split; [|split; [constructor; auto|reflexivity]].
  unfold open_handle. rewrite Em, Et, Eo, Ev, Emr, Hc. reflexivity.
Qed.

Lemma s_auto_other : forall w s r p d, d p <> NNone -> s_auto w s r p d = (s, d).
Proof. intros. unfold s_auto. destruct (d p); try reflexivity. congruence. Qed.

Lemma s_auto_arr : forall s r [p d k], d p = NArr k -> s_auto false s r p d = (s, d).
Proof. intros. apply s_auto_other. congruence. Qed.

(* Every handle operation of the model opens the handle and then writes the node back as
   `auto_cast w c` (if (!j_.isInitialized()) j_.asObject()/asArray()), whether or not it was
   initialised; the specification calls s_auto only where it allows an uninitialised node.  Where
   it requires a container instead, s_auto is the identity (s_auto_other), so open_auto also gives
   the facts about the state after the model's no-op write for those operations. *)
Lemma open_auto : forall [w st s n r p d s1 d1],
  R st s -> s_open s n = Some (r, p, d) -> s_auto w s r p d = (s1, d1) ->
  exists t1 c,
    open_handle st n = HGo r p c /\ o_magic (sl_val (m_tab st n)) = true /\ kind_of c = d p /\
    R (put_node st r p (auto_cast w c)) s1 /\
    opened (put_node st r p (auto_cast w c)) s1 r p t1 (auto_cast w c) d1.
Proof.
  intros w st s n r p d s1 d1 HR Eo Ea.
  destruct (open_rel HR Eo) as [t [c [Hoh [Hop Hmag]]]].
  pose proof (opened_kind Hop) as Hk.
  exists (modify_at p (fun _ => auto_cast w c) t), c. repeat (split; [assumption|]).
  assert (Hc : c = JNone \/ auto_cast w c = c /\ d p <> NNone).
  { rewrite <- Hk. destruct c; [left; reflexivity | right; split; [reflexivity | discriminate] ..]. }
  destruct Hc as [->|[-> Hne]].
  - unfold s_auto in Ea. rewrite <- Hk in Ea. cbn [kind_of auto_cast] in *. injection Ea as <- <-.
    assert (Hg : forall q, alpha (if w then JObj [] else JArr []) q = leaf (if w then NObj else NArr 0) q).
    { destruct w; [apply alpha_JObj_nil | apply alpha_JArr_nil]. }
    split; [eapply R_put | eapply opened_put]; eassumption.
  - rewrite (s_auto_other _ _ _ _ _ Hne) in Ea. injection Ea as <- <-.
    split; [eapply R_put_same | eapply opened_put_same]; eassumption.
Qed.

Lemma none_or_obj : forall (A : Type) (nd : node) (X : option A) y,
  match nd with NNone | NObj => X | _ => None end = Some y -> (nd = NNone \/ nd = NObj) /\ X = Some y.
Proof. intros A nd X y H. destruct nd; try discriminate H; auto. Qed.

Lemma none_or_arr : forall (A : Type) (nd : node) (X : option A) y,
  match nd with NNone | NArr _ => X | _ => None end = Some y ->
  (nd = NNone \/ exists k, nd = NArr k) /\ X = Some y.
Proof. intros A nd X y H. destruct nd; try discriminate H; eauto. Qed.

Lemma auto_arr : forall c, kind_of c = NNone \/ (exists k, kind_of c = NArr k) -> exists l, auto_cast false c = JArr l.
Proof. intros c [H|[k H]]; destruct c; try discriminate H; cbn; eauto. Qed.

Lemma open_obj : forall [st s n r p d s1 d1],
  R st s -> s_open s n = Some (r, p, d) -> d p = NNone \/ d p = NObj ->
  s_auto true s r p d = (s1, d1) ->
  exists t1 c m,
    open_handle st n = HGo r p c /\ o_magic (sl_val (m_tab st n)) = true /\ auto_cast true c = JObj m /\
    R (put_node st r p (JObj m)) s1 /\ opened (put_node st r p (JObj m)) s1 r p t1 (JObj m) d1.
Proof.
  intros st s n r p d s1 d1 HR Eo Hdp Ea.
  destruct (open_auto HR Eo Ea) as [t1 [c [Hoh [Hmag [Hk [HR1 Hop1]]]]]].
  rewrite <- Hk in Hdp. assert (Hm : exists m, auto_cast true c = JObj m)
    by (destruct Hdp as [E|E]; destruct c; try discriminate E; cbn; eauto).
  destruct Hm as [m Hm]. rewrite Hm in HR1, Hop1. exists t1, c, m. auto.
Qed.

Lemma open_arr : forall [st s n r p d s1 d1],
  R st s -> s_open s n = Some (r, p, d) -> d p = NNone \/ (exists k, d p = NArr k) ->
  s_auto false s r p d = (s1, d1) ->
  exists t1 c l,
    open_handle st n = HGo r p c /\ o_magic (sl_val (m_tab st n)) = true /\ auto_cast false c = JArr l /\
    R (put_node st r p (JArr l)) s1 /\ opened (put_node st r p (JArr l)) s1 r p t1 (JArr l) d1 /\
    d1 p = NArr (length l).
Proof.
  intros st s n r p d s1 d1 HR Eo Hdp Ea.
  destruct (open_auto HR Eo Ea) as [t1 [c [Hoh [Hmag [Hk [HR1 Hop1]]]]]].
  rewrite <- Hk in Hdp. destruct (auto_arr _ Hdp) as [l Hl]. rewrite Hl in HR1, Hop1.
  exists t1, c, l. repeat (split; [assumption|]). symmetry. exact (opened_kind Hop1).
Qed.

Lemma int_num_to_bool : forall k v, is_float k = false -> num_to_bool k v = (if v =? 0 then 0 else 1).
Proof. intros k v H. destruct k; try discriminate H; reflexivity. Qed.

Lemma match_not_json : forall (X : Type) (t : tag) (A B : X),
  tag_eqb t TJson = false -> match t with TJson => A | _ => B end = B.
Proof. intros X t A B H. destruct t; try reflexivity. discriminate H. Qed.

Lemma s_lit_lit_otype : forall l o, s_lit l = Some o -> lit_otype l = o.
Proof.
  destruct l; cbn; intros o H; try (inversion H; reflexivity).
  destruct (in_range k v); inversion H; reflexivity.
Qed.

Lemma otype_value_rel : forall [st s sl vd],
  R st s -> otype_doc s sl = Some vd ->
  exists jv, inferJson cfg_fixed st sl = Ok jv /\ (forall q, alpha jv q = vd q) /\ jv <> JNone.
Proof.
  intros st s sl vd HR H. unfold otype_doc in H.
  destruct (o_magic (sl_val sl)) eqn:Em; [|discriminate]. cbn [negb] in H.
  unfold inferJson.
  destruct (o_tag (sl_val sl)) eqn:Et; destruct (o_val (sl_val sl)) eqn:Ev; try discriminate.
  (* six cases store JSON null: tag TNull with each of the five payloads, and TPtr with PNull *)
  1-6: injection H as <-; exists JNull; split; [reflexivity|]; split; [apply alpha_leaf; discriminate | discriminate].
  - destruct (in_range k v) eqn:Er; [|discriminate]. injection H as <-.
    assert (Hp : pint (sl_val sl) = v) by (unfold pint; rewrite Ev; reflexivity).
    exists (JNum k v). split; [|split; [apply alpha_leaf; discriminate | discriminate]].
    destruct k; try (unfold prim_of; rewrite Et, Hp; reflexivity).
    rewrite Hp, int_cast_id by exact Er. reflexivity.
  - injection H as <-. exists (JStr s0). split; [reflexivity|]. split; [apply alpha_leaf; discriminate | discriminate].
  - destruct (sl_ok sl) eqn:Eo; [|discriminate].
    destruct (s_roots s root) as [d|] eqn:Es; [|discriminate].
    pose proof (R_roots HR root) as Hr. rewrite Es in Hr.
    destruct (m_roots st root) as [t|] eqn:Emr; [|contradiction]. cbn in Hr.
    assert (Hp : alpha t p <> NAbsent /\ alpha t p <> NNone /\ vd = sub d p).
    { rewrite Hr. destruct (d p); try discriminate H; injection H as <-; repeat split; discriminate. }
    destruct Hp as [Hp1 [Hp2 Hvd]]. subst vd.
    destruct (alpha_present Hp1) as [c [Hc Hk]].
    exists c. rewrite Hc. split; [reflexivity|]. split.
    + intros q. unfold sub. rewrite <- Hr. symmetry. apply alpha_app. exact Hc.
    + intros ->. apply Hp2. rewrite <- Hk. reflexivity.
Qed.

Lemma tag_eqb_json : forall t, tag_eqb t TJson = true -> t = TJson.
Proof. destruct t; try (cbn; discriminate); [|reflexivity]. destruct k; cbn; discriminate. Qed.

Lemma value_rel : forall [st s v vd],
  R st s -> s_value s v = Some vd ->
  exists vs jv, open_value st v = Ok vs /\ inferJson cfg_fixed st vs = Ok jv /\
                (forall q, alpha jv q = vd q) /\ jv <> JNone.
Proof.
  intros st s v vd HR H. destruct v as [l|m]; cbn [s_value] in H.
  - destruct (s_lit l) as [o|] eqn:El; [|discriminate].
    apply s_lit_lit_otype in El. subst o.
    destruct (otype_value_rel HR H) as [jv [H1 [H2 H3]]].
    exists (mkSlot (lit_otype l) true), jv. cbn. auto.
  - rewrite <- (R_tab HR m) in H.
    destruct (otype_value_rel HR H) as [jv [H1 [H2 H3]]].
    exists (m_tab st m), jv. split; [|auto].
    unfold open_value. unfold otype_doc in H.
    destruct (o_magic (sl_val (m_tab st m))); [|discriminate]. cbn [negb] in *.
    destruct (tag_eqb (o_tag (sl_val (m_tab st m))) TJson) eqn:Et; [|reflexivity].
    apply tag_eqb_json in Et. rewrite Et in H.
    destruct (o_val (sl_val (m_tab st m))); try discriminate.
    destruct (sl_ok (m_tab st m)); [reflexivity | discriminate].
Qed.

(* the model opens the value argument before the auto-initialising write and converts it after
   (the right operand is evaluated first), hence the two states *)
Lemma value_rel_put : forall [st s r p c v vd],
  R (put_node st r p c) s -> s_value s v = Some vd ->
  exists vs jv, open_value st v = Ok vs /\ inferJson cfg_fixed (put_node st r p c) vs = Ok jv /\
                (forall q, alpha jv q = vd q) /\ jv <> JNone.
Proof.
  intros st s r p c v vd HR Ev. destruct (value_rel HR Ev) as [vs [jv [Hov H]]].
  unfold open_value in Hov. rewrite put_node_tab in Hov. eauto.
Qed.

Lemma handle_kind : forall r q ch dv,
  match kind_of ch with NAbsent => dv | nd => s_handle r q nd end = handle_to r q ch false.
Proof. destruct ch; reflexivity. Qed.

Lemma s_handle_kind : forall r q ch, s_handle r q (kind_of ch) = handle_to r q ch false.
Proof. destruct ch; reflexivity. Qed.

Lemma obj_child : forall [st s r p t m d] key,
  opened st s r p t (JObj m) d ->
  d (p ++ [SK key]) = match assoc_get key m with Some ch => kind_of ch | None => NAbsent end.
Proof.
  intros st s r p t m d key [H1 H2 H3 H4]. rewrite <- H4. rewrite (alpha_app _ H3).
  unfold alpha. cbn. destruct (assoc_get key m); reflexivity.
Qed.

Lemma arr_child : forall [st s r p t l d] k,
  opened st s r p t (JArr l) d ->
  d (p ++ [SI k]) = match nth_error l k with Some ch => kind_of ch | None => NAbsent end.
Proof.
  intros st s r p t l d k [H1 H2 H3 H4]. rewrite <- H4. rewrite (alpha_app _ H3).
  unfold alpha. cbn. destruct (nth_error l k); reflexivity.
Qed.

Lemma obj_rel_set : forall m key jv vd old,
  (forall q, alpha jv q = vd q) -> (forall q, alpha (JObj m) q = old q) ->
  forall q, alpha (JObj (assoc_set key jv m)) q = g_oset old key vd q.
Proof.
  intros m key jv vd old Hjv Hold q. unfold g_oset. destruct q as [|[k2|i2] q].
  - reflexivity.
  - rewrite alpha_obj_key, assoc_get_set. destruct (bytes_eqb k2 key); [apply Hjv|].
    rewrite <- Hold, alpha_obj_key. reflexivity.
  - rewrite <- Hold. reflexivity.
Qed.

Lemma arr_rel_insert : forall l k jv vd old,
  (k <= length l)%nat ->
  (forall q, alpha jv q = vd q) -> (forall q, alpha (JArr l) q = old q) ->
  forall q, alpha (JArr (firstn k l ++ jv :: skipn k l)) q = g_ains old (length l) k vd q.
Proof.
  intros l k jv vd old Hk Hjv Hold q. unfold g_ains. destruct q as [|[k2|j] q].
  - unfold alpha. cbn. rewrite length_insert by exact Hk. reflexivity.
  - rewrite alpha_arr_key. rewrite <- Hold. reflexivity.
  - rewrite alpha_arr_idx, nth_error_insert by exact Hk.
    destruct (Nat.ltb j k).
    + rewrite <- Hold, alpha_arr_idx. reflexivity.
    + destruct (Nat.eqb j k); [apply Hjv|]. rewrite <- Hold, alpha_arr_idx. reflexivity.
Qed.

Lemma arr_rel_pop : forall l old,
  (forall q, alpha (JArr l) q = old q) ->
  forall q, alpha (JArr (removelast l)) q = g_apop old (length l) q.
Proof.
  intros l old Hold q. unfold g_apop. destruct q as [|[k2|j] q].
  - unfold alpha. cbn [node_at kind_of]. rewrite length_removelast. reflexivity.
  - rewrite alpha_arr_key. rewrite <- Hold. reflexivity.
  - rewrite alpha_arr_idx, nth_error_removelast.
    destruct (Nat.ltb j (length l - 1)); [|reflexivity].
    rewrite <- Hold, alpha_arr_idx. reflexivity.
Qed.

Definition refines (o : op) (f : mstate -> mstate * obs) : Prop :=
  forall st s s' rq, R st s -> sstep s o = Some (s', rq) ->
    R (fst (f st)) s' /\ agrees (snd (f st)) rq.

Lemma oset_refines : forall n key v, refines (OpOSet n key v) (fun st => occaJsonObjectSet cfg_fixed st n key v).
Proof.
  intros n key v st s s' rq HR H. cbv beta. cbn [sstep] in H.
  destruct key as [|b key']; [discriminate|]. set (key := b :: key') in *.
  destruct (key_ok key) eqn:Ek; [|discriminate].
  destruct (s_open s n) as [[[r p] d]|] eqn:Eo; [|discriminate].
  apply none_or_obj in H. destruct H as [Hdp H].
  destruct (s_auto true s r p d) as [s1 d1] eqn:Ea.
  destruct (open_obj HR Eo Hdp Ea) as [t1 [c [m [Hoh [Hmag [Hm [HR1 Hop1]]]]]]].
  destruct (s_value s1 v) as [vd|] eqn:Ev; [|discriminate]. injection H as <- <-.
  destruct (value_rel_put HR1 Ev) as [vs [jv [Hov [Hij [Hjv _]]]]].
  unfold occaJsonObjectSet. rewrite Ek, Hmag, Hov, Hoh. cbn [negb]. cbv zeta.
  rewrite Hm, Hij. subst key. cbn [fst snd]. split; [|reflexivity].
  apply R_kill. eapply R_put; [eassumption ..|].
  apply obj_rel_set; [exact Hjv | apply (opened_sub Hop1)].
Qed.

Lemma oget_refines : forall n key mth dl, refines (OpOGet n key mth dl) (fun st => occaJsonObjectGet st n key mth dl).
Proof.
  intros n key mth dl st s s' rq HR H. cbv beta. cbn [sstep] in H.
  destruct key as [|b key']; [discriminate|]. set (key := b :: key') in *.
  destruct (key_ok key) eqn:Ek; [|discriminate].
  destruct (s_open s n) as [[[r p] d]|] eqn:Eo; [|discriminate].
  destruct (s_lit dl) as [dv|] eqn:El; [|discriminate]. apply s_lit_lit_otype in El. subst dv.
  apply none_or_obj in H. destruct H as [Hdp H].
  destruct (s_auto true s r p d) as [s1 d1] eqn:Ea.
  destruct (open_obj HR Eo Hdp Ea) as [t1 [c [m [Hoh [Hmag [Hm [HR1 Hop1]]]]]]].
  cbv zeta in H. rewrite (obj_child key Hop1) in H.
  unfold occaJsonObjectGet. rewrite Ek, Hoh. cbn [negb]. cbv zeta. rewrite Hm. subst key.
  destruct (assoc_get (b :: key') m) as [ch|]; [rewrite handle_kind in H|];
    injection H as <- <-; cbn [fst snd]; (split; [apply R_with_slot; exact HR1 | reflexivity]).
Qed.

Lemma ohas_refines : forall n key, refines (OpOHas n key) (fun st => occaJsonObjectHas st n key).
Proof.
  intros n key st s s' rq HR H. cbv beta. cbn [sstep] in H.
  destruct key as [|b key']; [discriminate|]. set (key := b :: key') in *.
  destruct (key_ok key) eqn:Ek; [|discriminate].
  destruct (s_open s n) as [[[r p] d]|] eqn:Eo; [|discriminate].
  apply none_or_obj in H. destruct H as [Hdp H].
  destruct (s_auto true s r p d) as [s1 d1] eqn:Ea.
  destruct (open_obj HR Eo Hdp Ea) as [t1 [c [m [Hoh [Hmag [Hm [HR1 Hop1]]]]]]].
  rewrite (obj_child key Hop1) in H. injection H as <- <-.
  unfold occaJsonObjectHas. rewrite Ek, Hoh. cbn [negb]. cbv zeta. rewrite Hm. subst key.
  cbn [fst snd]. split; [exact HR1|].
  destruct (assoc_get (b :: key') m) as [ch|]; [destruct ch|]; reflexivity.
Qed.

Lemma apush_refines : forall n v, refines (OpAPush n v) (fun st => occaJsonArrayPush cfg_fixed st n v).
Proof.
  intros n v st s s' rq HR H. cbv beta. cbn [sstep] in H.
  destruct (s_open s n) as [[[r p] d]|] eqn:Eo; [|discriminate].
  apply none_or_arr in H. destruct H as [Hdp H].
  destruct (s_auto false s r p d) as [s1 d1] eqn:Ea.
  destruct (open_arr HR Eo Hdp Ea) as [t1 [c [l [Hoh [Hmag [Hl [HR1 [Hop1 Hd1]]]]]]]].
  rewrite Hd1 in H. cbn [arr_len] in H.
  destruct (s_value s1 v) as [vd|] eqn:Ev; [|discriminate]. injection H as <- <-.
  destruct (value_rel_put HR1 Ev) as [vs [jv [Hov [Hij [Hjv Hne]]]]].
  unfold occaJsonArrayPush. rewrite Hmag, Hov, Hoh. cbn [negb]. cbv zeta. rewrite Hl, Hij.
  assert (Hgoal : R (kill (put_node (put_node st r p (JArr l)) r p (JArr (l ++ [jv]))) r p)
                    (s_kill (s_set_root s1 r (Some (graft d1 p (g_ains (sub d1 p) (length l) (length l) vd)))) r p)).
  { apply R_kill. eapply R_put; [eassumption ..|]. rewrite push_as_insert.
    apply arr_rel_insert; [lia | exact Hjv | apply (opened_sub Hop1)]. }
  destruct jv; [contradiction Hne; reflexivity | ..]; cbn [fst snd]; (split; [exact Hgoal | reflexivity]).
Qed.

Lemma ains_refines : forall n i v, refines (OpAIns n i v) (fun st => occaJsonArrayInsert cfg_fixed st n i v).
Proof.
  intros n i v st s s' rq HR H. cbv beta. cbn [sstep] in H.
  destruct (s_open s n) as [[[r p] d]|] eqn:Eo; [|discriminate].
  destruct (d p) eqn:Edp; try discriminate. rename n0 into len.
  destruct ((0 <=? i) && (i <? Z.of_nat len)) eqn:Eb; [|discriminate].
  destruct (s_value s v) as [vd|] eqn:Ev; [|discriminate]. injection H as <- <-.
  destruct (open_arr HR Eo (or_intror (ex_intro _ _ Edp)) (s_auto_arr _ _ Edp))
    as [t1 [c [l [Hoh [Hmag [Hl [HR1 [Hop1 Hd1]]]]]]]].
  rewrite Edp in Hd1. injection Hd1 as ->.
  destruct (value_rel_put HR1 Ev) as [vs [jv [Hov [Hij [Hjv _]]]]].
  unfold occaJsonArrayInsert. rewrite Hmag, Hov, Hoh. cbn [negb]. cbv zeta. rewrite Hl, Eb, Hij.
  cbn [fst snd]. split; [|reflexivity].
  apply R_kill. eapply R_put; [eassumption ..|].
  apply arr_rel_insert; [lia | exact Hjv | apply (opened_sub Hop1)].
Qed.

Lemma aget_refines : forall n i mth, refines (OpAGet n i mth) (fun st => occaJsonArrayGet st n i mth).
Proof.
  intros n i mth st s s' rq HR H. cbv beta. cbn [sstep] in H.
  destruct (s_open s n) as [[[r p] d]|] eqn:Eo; [|discriminate].
  destruct (d p) eqn:Edp; try discriminate. rename n0 into len.
  destruct ((0 <=? i) && (i <? Z.of_nat len)) eqn:Eb; [|discriminate].
  destruct (open_arr HR Eo (or_intror (ex_intro _ _ Edp)) (s_auto_arr _ _ Edp))
    as [t1 [c [l [Hoh [Hmag [Hl [HR1 [Hop1 Hd1]]]]]]]].
  rewrite Edp in Hd1. injection Hd1 as ->.
  cbv zeta in H. rewrite (arr_child (Z.to_nat i) Hop1) in H.
  unfold occaJsonArrayGet. rewrite Hoh. cbv zeta. rewrite Hl.
  destruct (Z.ltb_spec i 0); [lia|].
  destruct (nth_error l (Z.to_nat i)) as [ch|] eqn:En; [|apply nth_error_None in En; lia].
  rewrite s_handle_kind in H. injection H as <- <-.
  cbn [fst snd]. split; [apply R_with_slot; exact HR1 | reflexivity].
Qed.

Lemma apop_refines : forall n, refines (OpAPop n) (fun st => occaJsonArrayPop st n).
Proof.
  intros n st s s' rq HR H. cbv beta. cbn [sstep] in H.
  destruct (s_open s n) as [[[r p] d]|] eqn:Eo; [|discriminate].
  destruct (d p) as [| | | | |[|len]|] eqn:Edp; try discriminate H. injection H as <- <-.
  destruct (open_arr HR Eo (or_intror (ex_intro _ _ Edp)) (s_auto_arr _ _ Edp))
    as [t1 [c [l [Hoh [Hmag [Hl [HR1 [Hop1 Hd1]]]]]]]].
  rewrite Edp in Hd1. unfold occaJsonArrayPop. rewrite Hoh. cbv zeta. rewrite Hl.
  destruct l as [|a l]; [discriminate Hd1|]. injection Hd1 as ->. cbn [fst snd]. split; [|reflexivity].
  apply R_kill. eapply R_put; [eassumption ..|].
  apply (arr_rel_pop (a :: l)), (opened_sub Hop1).
Qed.

Lemma aclear_refines : forall n, refines (OpAClear n) (fun st => occaJsonArrayClear st n).
Proof.
  intros n st s s' rq HR H. cbv beta. cbn [sstep] in H.
  destruct (s_open s n) as [[[r p] d]|] eqn:Eo; [|discriminate].
  apply none_or_arr in H. destruct H as [Hdp H]. injection H as <- <-.
  destruct (open_rel HR Eo) as [t [c [Hoh [Hop Hmag]]]].
  rewrite <- (opened_kind Hop) in Hdp. destruct (auto_arr _ Hdp) as [l Hl].
  unfold occaJsonArrayClear. rewrite Hoh. cbv zeta. rewrite Hl. cbn [fst snd]. split; [|reflexivity].
  apply R_kill, (R_put_put _ HR Hop), alpha_JArr_nil.
Qed.

Lemma asize_refines : forall n, refines (OpASize n) (fun st => occaJsonArraySize st n).
Proof.
  intros n st s s' rq HR H. cbv beta. cbn [sstep] in H.
  destruct (s_open s n) as [[[r p] d]|] eqn:Eo; [|discriminate].
  apply none_or_arr in H. destruct H as [Hdp H].
  destruct (s_auto false s r p d) as [s1 d1] eqn:Ea.
  destruct (open_arr HR Eo Hdp Ea) as [t1 [c [l [Hoh [Hmag [Hl [HR1 [Hop1 Hd1]]]]]]]].
  rewrite Hd1 in H. injection H as <- <-.
  unfold occaJsonArraySize. rewrite Hoh. cbv zeta. rewrite Hl. split; [exact HR1 | reflexivity].
Qed.

Lemma cast_refines : forall n cj, refines (OpCast n cj) (fun st => occaJsonCastTo st n cj).
Proof.
  intros n cj st s s' rq HR H. cbv beta. cbn [sstep] in H.
  destruct (s_open s n) as [[[r p] d]|] eqn:Eo; [|discriminate].
  destruct (open_rel HR Eo) as [t [c [Hoh [Hop Hmag]]]].
  rewrite <- (opened_kind Hop) in H.
  unfold occaJsonCastTo. rewrite Hoh. cbv zeta.
  (* by the table of Spec.sstep: the node keeps its type (and, for a container, its children),
     or becomes the empty value of the target type *)
  destruct cj; destruct c; cbn [kind_of] in H; try discriminate H;
    try (destruct (negb (is_float k) && in_range k v) eqn:Eb; [|discriminate H]);
    injection H as <- <-; cbn [cast_json cast_keeps fst snd]; (split; [|reflexivity]);
    first [ exact (R_put_same HR Hop)
          | apply R_kill; exact (R_put_same HR Hop)
          | apply R_kill, (R_put HR Hop); intros q;
            first [ apply alpha_JObj_nil | apply alpha_JArr_nil | apply alpha_leaf; discriminate | idtac ] ].
  (* left: CBool on a number of integral kind, the one case where the new leaf depends on the old *)
  apply andb_true_iff in Eb. destruct Eb as [Eb1 _]. apply negb_true_iff in Eb1.
  rewrite int_num_to_bool by exact Eb1. apply alpha_leaf; discriminate.
Qed.

Lemma getb_refines : forall n, refines (OpGetB n) (fun st => occaJsonGetBoolean st n).
Proof.
  intros n st s s' rq HR H. cbv beta. cbn [sstep] in H.
  destruct (s_open s n) as [[[r p] d]|] eqn:Eo; [|discriminate].
  destruct (open_rel HR Eo) as [t [c [Hoh [Hop Hmag]]]].
  rewrite <- (opened_kind Hop) in H.
  unfold occaJsonGetBoolean. rewrite Hoh.
  destruct c as [| |[] v| | |]; cbn [kind_of] in H; try (injection H as <- <-; split; [exact HR | reflexivity]).
  destruct (in_range KBool v) eqn:Er; [|discriminate]. injection H as <- <-. split; [exact HR|].
  cbn. rewrite (bool_eqb_1 _ Er). reflexivity.
Qed.

Lemma getn_refines : forall F n k, refines (OpGetN n k) (fun st => occaJsonGetNumber F cfg_fixed st n k).
Proof.
  intros F n k st s s' rq HR H. cbv beta. cbn [sstep] in H.
  destruct (s_open s n) as [[[r p] d]|] eqn:Eo; [|discriminate].
  destruct (open_rel HR Eo) as [t [c [Hoh [Hop Hmag]]]].
  rewrite <- (opened_kind Hop) in H.
  unfold occaJsonGetNumber. rewrite Hoh.
  destruct c; cbn [kind_of] in H; try (injection H as <- <-; split; [exact HR | reflexivity]).
  destruct (in_range k0 v) eqn:Er; [|discriminate]. injection H as <- <-.
  destruct (s_conv k0 k v) as [v'|] eqn:Ec.
  - rewrite (newOccaType_prim_typed_conv F Er Ec). split; [exact HR | reflexivity].
  - destruct (newOccaType_prim_typed F cfg_fixed (mkP (PTK k0) v) (TK k)); split; (exact HR || exact I).
Qed.

Lemma gets_refines : forall n, refines (OpGetS n) (fun st => occaJsonGetString st n).
Proof.
  intros n st s s' rq HR H. cbv beta. cbn [sstep] in H.
  destruct (s_open s n) as [[[r p] d]|] eqn:Eo; [|discriminate].
  destruct (open_rel HR Eo) as [t [c [Hoh [Hop Hmag]]]].
  rewrite <- (opened_kind Hop) in H.
  unfold occaJsonGetString. rewrite Hoh.
  destruct c; injection H as <- <-; split; (exact HR || reflexivity).
Qed.

Lemma ty_refines : forall n, refines (OpTy n) (fun st => occaJsonIs st n).
Proof.
  intros n st s s' rq HR H. cbv beta. cbn [sstep] in H.
  destruct (s_open s n) as [[[r p] d]|] eqn:Eo; [|discriminate].
  destruct (open_rel HR Eo) as [t [c [Hoh [Hop Hmag]]]].
  cbv zeta in H. rewrite <- (opened_kind Hop) in H. injection H as <- <-.
  unfold occaJsonIs. rewrite Hoh. split; [exact HR|]. destruct c; reflexivity.
Qed.

Lemma new_refines : forall n, refines (OpNew n) (fun st => occaCreateJson st n).
Proof.
  intros n st s s' rq HR H. cbv beta. cbn [sstep] in H. cbv zeta in H. injection H as <- <-.
  unfold occaCreateJson. cbv zeta. cbn [fst snd]. rewrite (R_next HR). split; [|reflexivity].
  apply R_with_slot. constructor; cbn.
  - reflexivity.
  - apply (R_tab HR).
  - intros r'. rewrite <- (R_next HR). destruct (Nat.eqb r' (m_next st)).
    + cbn. intros q. apply alpha_leaf; discriminate.
    + apply (R_roots HR).
Qed.

Lemma free_refines : forall n, refines (OpFree n) (fun st => occaFree st n).
Proof.
  intros n st s s' rq HR H. cbv beta. cbn [sstep] in H. cbv zeta in H.
  unfold occaFree. cbv zeta. rewrite <- (R_tab HR n) in H.
  destruct (o_magic (sl_val (m_tab st n))) eqn:Em; cbn [negb] in *.
  2:{ injection H as <- <-. split; [exact HR | reflexivity]. }
  (* the value is only marked undefined: not a json, or a json that is not owned *)
  assert (Hmark : Some (s_with_slot s n (mkSlot (mark_undefined (sl_val (m_tab st n))) (sl_ok (m_tab st n))), Must OUnit)
                  = Some (s', rq) ->
                  R (with_slot st n (mkSlot (mark_undefined (sl_val (m_tab st n))) (sl_ok (m_tab st n)))) s' /\
                  agrees OUnit rq).
  { intros HX. injection HX as <- <-. split; [apply R_with_slot, HR | reflexivity]. }
  destruct (tag_eqb (o_tag (sl_val (m_tab st n))) TJson) eqn:Et; cbn [andb] in H.
  2:{ rewrite (match_not_json _ _ _ _ Et). exact (Hmark H). }
  apply tag_eqb_json in Et. rewrite Et.
  destruct (o_free (sl_val (m_tab st n))) eqn:Ef; [|exact (Hmark H)].
  destruct (sl_ok (m_tab st n)) eqn:Eo; [|discriminate]. cbn [negb].
  destruct (o_val (sl_val (m_tab st n))) eqn:Ev; try discriminate.
  injection H as <- <-. cbn [fst snd]. split; [|reflexivity].
  apply R_with_slot. constructor; cbn.
  - apply (R_next HR).
  - intros m. unfold kill_root. rewrite (R_tab HR). reflexivity.
  - intros r'. destruct (Nat.eqb r' root); [exact I | apply (R_roots HR)].
Qed.
