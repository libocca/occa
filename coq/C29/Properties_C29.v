(* C29 — C API values keep their value and type through conversions.
   Vocabulary: Types.v (kinds, tags, occaType, paths, case language), Model.v (the C++ as it is
   after fixes/C29-1.patch and fixes/C29-2.patch; cfg_pinned = before them), Spec.v (what must
   be observed).  Floats are bit patterns; F : fops is any implementation of the float
   conversions (no positive theorem below needs a hypothesis about it, except
   float_via_double_roundtrip).  The work is done in Proofs*.v; each theorem here is a few
   lines from the lemmas there. *)
From Coq Require Import List ZArith Bool.
From OV.C29 Require Import Proofs ProofsTree ProofsOps ProofsOps3 ProofsHandles.
From OV.C29 Require Import Types Model Spec ProofsSurvive ProofsSurvive2.
Import ListNotations.
Local Open Scope Z_scope.

(* ------------------------------------------------------------------------------------------
   1. scalar_roundtrip: for every scalar kind k (bool, int8 ... uint64, float, double) and every
      value v of its C type, the occaType x made by the constructor has tag k, sizeof(k) bytes,
      needsFree = false and value v, and each conversion path gives back exactly x / v:
        newOccaType(primitive(x)), newOccaType(primitive(x), type k), newOccaType(primitive(x, type k)),
        kernelArg(x) (a primitive of kind k, value v, size sizeof(k), not a pointer), and what a
        Serial kernel parameter of that C type receives. *)
Theorem scalar_roundtrip : forall (F : fops) (k : kind) (v : Z),
  in_range k v = true ->
  let x := lit_otype (LScalar k v) in
  x = mkO true (TK k) (size_of k) false (PInt v) /\
  match prim_of cfg_fixed x with Ok p => newOccaType_prim F cfg_fixed p | Stop o => Stop o end = Ok x /\
  match prim_of cfg_fixed x with Ok p => newOccaType_prim_typed F cfg_fixed p (TK k) | Stop o => Stop o end = Ok x /\
  match prim_of_typed F cfg_fixed x (TK k) with Ok p => newOccaType_prim F cfg_fixed p | Stop o => Stop o end = Ok x /\
  (exists a, kernelArg cfg_fixed x = Ok a /\ ka_pt a = PTK k /\ ka_val a = PInt v /\
             ka_size a = size_of k /\ ka_isPointer a = false) /\
  kernel_reads cfg_fixed (LScalar k v) = OType x.
Proof.
  intros F k v H x. subst x. cbn [lit_otype].
  pose proof (s_conv_refl k v) as Hc.
  split; [reflexivity|].
  split; [rewrite (prim_of_scalar H); apply newOccaType_prim_same; exact H|].
  split; [rewrite (prim_of_scalar H); apply (newOccaType_prim_typed_conv F H Hc)|].
  split; [rewrite (prim_of_typed_conv F H Hc); apply newOccaType_prim_same; exact H|].
  split.
  - exists (mkKA (PTK k) (PInt v) 0). split; [apply kernelArg_scalar; exact H|].
    repeat split; reflexivity.
  - apply (@echo_reads (LScalar k v)). cbn. rewrite H. reflexivity.
Qed.
Print Assumptions scalar_roundtrip.

(* the "ambiguous" constructors occaChar ... occaULong (LP64) keep the value and pick the tag of
   the same width and signedness *)
Theorem ambiguous_constructors : forall (c : ctype) (v : Z),
  in_range (ct_kind c) v = true -> occa_amb c v = mkO true (TK (ct_kind c)) (size_of (ct_kind c)) false (PInt v).
Proof. exact occa_amb_id. Qed.
Print Assumptions ambiguous_constructors.

(* an integer (or bool) read back at another integral kind that can hold it is unchanged *)
Theorem integer_cross_kind : forall (F : fops) (k0 k : kind) (v : Z),
  is_float k0 = false -> is_float k = false -> in_range k0 v = true -> in_range k v = true ->
  newOccaType_prim_typed F cfg_fixed (mkP (PTK k0) v) (TK k) = Ok (mkO true (TK k) (size_of k) false (PInt v)).
Proof.
  intros F k0 k v H0 H1 _ Hr. rewrite newOccaType_prim_typed_fixed. unfold new_from_prim, prim_to.
  cbn [p_type p_val]. rewrite cast_to_integral, int_cast_id by assumption. reflexivity.
Qed.
Print Assumptions integer_cross_kind.

(* float -> double -> float: the only theorem with a hypothesis on the float interface *)
Theorem float_via_double_roundtrip : forall (F : fops) (v : Z),
  f32_of_f64 F (f64_of_f32 F v) = v ->
  match newOccaType_prim_typed F cfg_fixed (mkP (PTK KF32) v) (TK KF64) with
  | Ok d => newOccaType_prim_typed F cfg_fixed (mkP (PTK KF64) (pint d)) (TK KF32)
  | Stop o => Stop o
  end = Ok (mkO true (TK KF32) 4 false (PInt v)).
Proof. intros F v H. cbn. rewrite H. reflexivity. Qed.
Print Assumptions float_via_double_roundtrip.

(* ------------------------------------------------------------------------------------------
   2. Through JSON.  From ANY state (any heap, any other variables): create a json in variable n,
      set a key to the scalar, get the key into variable m, read the number at the scalar's own
      kind: the observation is the constructor's occaType.  Same through array push / get. *)
Theorem scalar_roundtrip_object : forall (F : fops) (st : mstate) (n m : nat) (b : Z) (key' : bytes) (k : kind) (v : Z),
  key_ok (b :: key') = true -> in_range k v = true ->
  let st1 := fst (occaCreateJson st n) in
  let set := occaJsonObjectSet cfg_fixed st1 n (b :: key') (VLit (LScalar k v)) in
  let get := occaJsonObjectGet (fst set) n (b :: key') m LUndef in
  snd set = OUnit /\
  snd get = OType (mkO true TJson 8 false (PRef (m_next st) [SK (b :: key')])) /\
  snd (occaJsonGetNumber F cfg_fixed (fst get) m k) = OType (lit_otype (LScalar k v)).
Proof. intros. apply object_roundtrip_number; assumption. Qed.
Print Assumptions scalar_roundtrip_object.

Theorem bool_roundtrip_object : forall (st : mstate) (n m : nat) (b : Z) (key' : bytes) (v : Z),
  key_ok (b :: key') = true -> in_range KBool v = true ->
  let st1 := fst (occaCreateJson st n) in
  let set := occaJsonObjectSet cfg_fixed st1 n (b :: key') (VLit (LScalar KBool v)) in
  let get := occaJsonObjectGet (fst set) n (b :: key') m LUndef in
  snd (occaJsonGetBoolean (fst get) m) = OBool (v =? 1) /\
  snd (occaJsonIs (fst get) m) = OFlags true true false false false.
Proof.
  intros st n m b key' v Hkey Hv st1 set get. unfold occaJsonGetBoolean, occaJsonIs.
  subst st1 set get. rewrite (fresh_open3 st n m b key' KBool v Hkey Hv). cbn [snd].
  rewrite (bool_eqb_1 _ Hv). split; reflexivity.
Qed.
Print Assumptions bool_roundtrip_object.

Theorem scalar_roundtrip_array : forall (F : fops) (st : mstate) (n m : nat) (k : kind) (v : Z),
  in_range k v = true ->
  let st1 := fst (occaCreateJson st n) in
  let push := occaJsonArrayPush cfg_fixed st1 n (VLit (LScalar k v)) in
  let get := occaJsonArrayGet (fst push) n 0 m in
  snd push = OUnit /\
  snd (occaJsonGetNumber F cfg_fixed (fst get) m k) = OType (lit_otype (LScalar k v)).
Proof. intros. apply array_roundtrip_number; assumption. Qed.
Print Assumptions scalar_roundtrip_array.

(* ------------------------------------------------------------------------------------------
   2b. Scopes: a scalar added with occaScopeAdd / occaScopeAddConst is declared in the inlined
       (JIT) kernel's signature with the C type of its kind and the kernel reads the value that
       was added — for bool, the signed integer kinds, float and double.
       Full statement (scope_roundtrip for EVERY kind): false for the library as it is: the occa
       dtype system has no unsigned builtins (dtype::uint8 is dtype::char_ ...), so uint8/16/32/64
       scope values are declared `char/short/int/long` and values with the top bit set arrive
       negative (known finding scope_unsigned; witness below). *)
Theorem scope_roundtrip_partial : forall (isConst : bool) (k : kind) (v : Z),
  in_range k v = true -> is_unsigned k = false ->
  scope_decl cfg_fixed isConst (LScalar k v) = ODecl isConst (s_cname k) false /\
  scope_reads cfg_fixed (LScalar k v) = OType (lit_otype (LScalar k v)).
Proof. intros. split; [apply scope_decl_signed | apply scope_reads_signed]; assumption. Qed.
Print Assumptions scope_roundtrip_partial.

Theorem scope_unsigned_refuted :
  exists k v, in_range k v = true /\
    scope_decl cfg_fixed true (LScalar k v) <> ODecl true (s_cname k) false /\
    scope_reads cfg_fixed (LScalar k v) <> OType (lit_otype (LScalar k v)).
Proof. exists KU8, 200. split; [reflexivity|]. split; vm_compute; discriminate. Qed.
Print Assumptions scope_unsigned_refuted.

(* ------------------------------------------------------------------------------------------
   3. json_roundtrip: for EVERY history of operations of the case language (constructors,
      conversions, kernel runs, create/free, object set/get/has, array push/insert/get/pop/
      clear/size, casts, accessors, over any number of C variables, with scalars, strings of
      arbitrary bytes, null, and JSON values copied through handles), every observation of the
      model is the one the specification's path-indexed last-write-wins store requires, for as
      long as the history stays inside the specification's preconditions (Spec.sstep = Some). *)
(* Guard: `op_guard` excludes only scope operations that carry an unsigned scalar (known finding
   scope_unsigned, see 2b); every other operation is unrestricted.  Full statement: the same
   without the guard — false for the library as it is (scope_unsigned_refuted). *)
Theorem json_roundtrip : forall (F : fops) (ops : list op),
  forallb op_guard ops = true ->
  Forall2 agrees (run F cfg_fixed ops) (s_run ops).
Proof. intros. apply run_refines_from; [assumption | apply R_init]. Qed.
Print Assumptions json_roundtrip.

(* what "last write wins" means in the specification's store *)
Theorem spec_store_read_back : forall (d : doc) (p q : path) (g : doc), graft d p g (p ++ q) = g q.
Proof. intros. unfold graft. rewrite strip_prefix_self. reflexivity. Qed.
Theorem spec_store_frame : forall (d : doc) (p q : path) (g : doc),
  strip_prefix p q = None -> graft d p g q = d q.
Proof. intros. unfold graft. rewrite H. reflexivity. Qed.
Theorem spec_object_set_read_back : forall (old vd : doc) (key : bytes) (q : path),
  g_oset old key vd (SK key :: q) = vd q.
Proof. intros. unfold g_oset. rewrite bytes_eqb_refl. reflexivity. Qed.
Theorem spec_object_set_frame : forall (old vd : doc) (key k2 : bytes) (q : path),
  bytes_eqb k2 key = false -> g_oset old key vd (SK k2 :: q) = old (SK k2 :: q).
Proof. intros. unfold g_oset. rewrite H. reflexivity. Qed.
Theorem spec_array_insert_shift : forall (old vd : doc) (len i j : nat) (q : path),
  g_ains old len i vd (SI j :: q) =
    if Nat.ltb j i then old (SI j :: q) else if Nat.eqb j i then vd q else old (SI (j - 1) :: q).
Proof. reflexivity. Qed.
Print Assumptions spec_store_read_back.
Print Assumptions spec_object_set_read_back.

(* ------------------------------------------------------------------------------------------
   4. Handles.
      handles_valid_until_free_partial: after ANY history (and with either variant of the
      repaired branches), every C variable that is not marked undefined, holds a json handle and
      has not been made unusable by the model's rule designates a live heap object and an
      existing node: occa::c::json(value) dereferences valid memory of the model.
      created_handle_valid_until_free: the handle returned by occaCreateJson, after any history,
      still opens (same heap object, live) after every further history that neither frees that
      heap object nor assigns to the C variable (`quiet`).
      Full statement (not proved): "every handle stays valid in the C++ sense until occaFree".
      Missing: (a) for handles to nodes *inside* a document the model's rule is conservative —
      every structural change of a container (push, insert, pop, clear, growth by get, re-typing
      cast, assignment to a key) makes the handles strictly below it unusable, while std::vector
      without reallocation / std::map node reuse may keep some of them valid; (b) that "usable
      in the model" implies "valid memory in the process" is observed by ASan on the generated
      histories, not proved. *)
Theorem handles_valid_until_free_partial : forall (F : fops) (cf : cfg) (ops : list op) (n : nat),
  let st := fst (run_from F cf m_init ops) in
  o_magic (sl_val (m_tab st n)) = true ->
  o_tag (sl_val (m_tab st n)) = TJson ->
  sl_ok (m_tab st n) = true ->
  exists r p c, open_handle st n = HGo r p c.
Proof. intros F cf ops n st. apply usable_opens, run_inv, inv_init. Qed.
Print Assumptions handles_valid_until_free_partial.

Theorem created_handle_valid_until_free : forall (F : fops) (cf : cfg) (before after : list op) (n : nat),
  let st := fst (run_from F cf m_init before) in
  let st1 := fst (occaCreateJson st n) in
  quiet F cf st1 after n (m_next st) ->
  exists t, open_handle (fst (run_from F cf st1 after)) n = HGo (m_next st) [] t.
Proof. intros F cf before after n st st1 Hq. apply created_survives; [apply run_inv, inv_init | exact Hq]. Qed.
Print Assumptions created_handle_valid_until_free.

(* ------------------------------------------------------------------------------------------
   5. The pinned source (before the two patches) violates the property for bool. *)
Theorem bool_through_primitive_refuted : forall F : fops,
  exists v, in_range KBool v = true /\
    prim_of cfg_pinned (lit_otype (LScalar KBool v)) = Stop OErr /\
    newOccaType_prim F cfg_pinned (mkP (PTK KBool) v) = Ok occaUndefined /\
    newOccaType_prim_typed F cfg_pinned (mkP (PTK KBool) v) (TK KBool) = Ok occaUndefined.
Proof. intros. exists 1. vm_compute. auto. Qed.
Print Assumptions bool_through_primitive_refuted.

Theorem bool_kernel_argument_refuted :
  exists v, in_range KBool v = true /\ kernelArg cfg_pinned (lit_otype (LScalar KBool v)) = Stop OErr.
Proof. exists 1. vm_compute. auto. Qed.
Print Assumptions bool_kernel_argument_refuted.

(* ------------------------------------------------------------------------------------------
   Non-vacuity *)
Definition no_floats : fops := mkF (fun x => x) (fun x => x) (fun x => x) (fun x => x) (fun _ => None) (fun _ => None).

(* a history with nested JSON, a copy through a handle, an insert that shifts, and a free:
   the specification constrains every observation (no `Any`) and the model meets it *)
Definition demo : list op :=
  [OpNew 0; OpOSet 0 [107] (VLit (LScalar KI8 (-128))); OpNew 1; OpAPush 1 (VSlot 0);
   OpAPush 1 (VLit (LStr [255; 1])); OpAIns 1 0 (VLit (LScalar KU64 18446744073709551615));
   OpAGet 1 1 4; OpOGet 4 [107] 5 LUndef; OpGetN 5 KI8; OpGetN 5 KI64; OpAGet 1 0 6; OpGetN 6 KU64;
   OpAGet 1 2 7; OpGetS 7; OpFree 0; OpTy 4; OpIsUndef 0; OpFree 1].

Example demo_fully_constrained : forallb (fun r => match r with Any => false | Must _ => true end) (s_run demo) = true.
Proof. vm_compute. reflexivity. Qed.

Example demo_observations :
  nth 8 (run no_floats cfg_fixed demo) OErr = OType (mkO true (TK KI8) 1 false (PInt (-128))) /\
  nth 9 (run no_floats cfg_fixed demo) OErr = OType (mkO true (TK KI64) 8 false (PInt (-128))) /\
  nth 11 (run no_floats cfg_fixed demo) OErr = OType (mkO true (TK KU64) 8 false (PInt 18446744073709551615)) /\
  nth 13 (run no_floats cfg_fixed demo) OErr = OBytes [255; 1].
Proof. vm_compute. auto. Qed.

(* a handle below a restructured array is flagged, the handle of the array itself is not *)
Example conservative_flag :
  run no_floats cfg_fixed [OpNew 0; OpAPush 0 (VLit LNull); OpAPush 0 (VLit (LStr [97])); OpAGet 0 1 4;
                           OpAPush 0 (VLit LNull); OpGetS 4; OpASize 0] =
  [OType (mkO true TJson 8 true (PRef 0%nat [])); OUnit; OUnit;
   OType (mkO true TJson 8 false (PRef 0%nat [SI 1%nat])); OUnit; OInvalid; OInt 3].
Proof. vm_compute. reflexivity. Qed.

(* the hypothesis of created_handle_valid_until_free is satisfiable by a history that works on
   the document through other variables *)
Example quiet_example :
  quiet no_floats cfg_fixed (fst (occaCreateJson m_init 0))
        [OpOSet 0 [107] (VLit LNull); OpOGet 0 [107] 4 LUndef; OpNew 1; OpFree 1; OpCast 0 CArr] 0 0.
Proof. vm_compute. repeat split. Qed.
