(* C29 — in every state reachable by any history (with either variant of the
   repaired branches), every C variable that the model calls usable points into a live heap
   object and at an existing node: occa::c::json(value) on it dereferences valid memory of
   the model. *)
From Coq Require Import List ZArith Bool Lia Arith.
From OV.C29 Require Import Types Model ProofsTree.
Import ListNotations.
Local Open Scope Z_scope.

Definition resolves (st : mstate) (r : nat) (q : path) : Prop :=
  exists t, m_roots st r = Some t /\ alpha t q <> NAbsent.

Definition slot_fine (st : mstate) (sl : slot) : Prop :=
  (forall r q, o_val (sl_val sl) = PRef r q -> sl_ok sl = true -> resolves st r q) /\
  (o_tag (sl_val sl) = TJson -> exists r q, o_val (sl_val sl) = PRef r q).

Record inv (st : mstate) : Prop := mkInv {
  inv_slots : forall n, slot_fine st (m_tab st n);
  inv_fresh : forall r, (m_next st <= r)%nat -> m_roots st r = None }.

Lemma inv_init : inv m_init.
Proof. constructor; [|reflexivity]. intros n. split; cbn; intros; discriminate. Qed.

Lemma resolves_put_other : forall st r p c r' q, r' <> r -> resolves st r' q -> resolves (put_node st r p c) r' q.
Proof. intros st r p c r' q Hne [t [H1 H2]]. exists t. rewrite put_node_root_other by assumption. auto. Qed.

Lemma resolves_put : forall st r p c c' t q,
  m_roots st r = Some t -> node_at p t = Some c ->
  match strip_prefix p q with Some rest => alpha c' rest <> NAbsent | None => alpha t q <> NAbsent end ->
  resolves (put_node st r p c') r q.
Proof.
  intros st r p c c' t q Hm Hn H. eexists. split; [apply put_node_root_same; exact Hm|].
  rewrite (alpha_modify _ _ Hn). destruct (strip_prefix p q); exact H.
Qed.

Lemma resolves_root_unique : forall [st r q t], resolves st r q -> m_roots st r = Some t -> alpha t q <> NAbsent.
Proof. intros st r q t [t' [H1 H2]] H. rewrite H in H1. inversion H1; subst. exact H2. Qed.

(* a variable stays fine across a write through (r, p) if, when it points at or below p in the
   same heap object, the node it points at is still there in what was written *)
Lemma slot_fine_put : forall [st sl r p c] c' [t],
  slot_fine st sl -> m_roots st r = Some t -> node_at p t = Some c ->
  (forall rest, o_val (sl_val sl) = PRef r (p ++ rest) -> sl_ok sl = true ->
                alpha c rest <> NAbsent -> alpha c' rest <> NAbsent) ->
  slot_fine (put_node st r p c') sl.
Proof.
  intros st sl r p c c' t [H1 H2] Hm Hn Hkeep. split; [|exact H2].
  intros r' q Hv Hok. specialize (H1 r' q Hv Hok). destruct (Nat.eq_dec r' r) as [->|Hne].
  - eapply resolves_put; eauto. pose proof (resolves_root_unique H1 Hm) as Ha.
    destruct (strip_prefix p q) eqn:E; [|exact Ha].
    apply strip_prefix_Some in E. subst q. apply Hkeep; try assumption.
    rewrite <- (alpha_app _ Hn). exact Ha.
  - apply resolves_put_other; assumption.
Qed.

Lemma slot_fine_dead : forall [st] st' [sl], slot_fine st sl -> slot_fine st' (mkSlot (sl_val sl) false).
Proof. intros st st' sl [_ H2]. split; [discriminate | exact H2]. Qed.

Lemma fresh_put : forall st r p c r',
  (forall r, (m_next st <= r)%nat -> m_roots st r = None) ->
  (m_next (put_node st r p c) <= r')%nat -> m_roots (put_node st r p c) r' = None.
Proof.
  intros st r p c r' Hf Hr. rewrite put_node_next in Hr. unfold put_node.
  destruct (m_roots st r) eqn:Hm; [|apply Hf, Hr]. cbn.
  destruct (Nat.eqb_spec r' r) as [->|]; [|apply Hf, Hr]. rewrite (Hf r Hr) in Hm. discriminate.
Qed.

Lemma inv_put_keep : forall st r p c c' t,
  inv st -> m_roots st r = Some t -> node_at p t = Some c ->
  (forall rest, alpha c rest <> NAbsent -> alpha c' rest <> NAbsent) ->
  inv (put_node st r p c').
Proof.
  intros st r p c c' t [Hs Hf] Hm Hn Hkeep. constructor.
  - intros n. rewrite put_node_tab. apply (slot_fine_put c' (Hs n) Hm Hn). auto.
  - intros r'. apply fresh_put, Hf.
Qed.

Lemma strictly_below_app_none : forall p a q,
  strip_prefix p q = None -> strictly_below (p ++ a) q = false.
Proof. intros. unfold strictly_below. rewrite strip_prefix_app, H. reflexivity. Qed.

(* a write after which every variable pointing strictly below p ++ a is made unusable: the
   nodes that are not strictly below a have to be kept *)
Lemma inv_put_kill_below : forall st r p a c c' t,
  inv st -> m_roots st r = Some t -> node_at p t = Some c ->
  (forall rest, strictly_below a rest = false -> alpha c rest <> NAbsent -> alpha c' rest <> NAbsent) ->
  inv (kill (put_node st r p c') r (p ++ a)).
Proof.
  intros st r p a c c' t [Hs Hf] Hm Hn Hkeep. constructor; [|intros r'; apply fresh_put, Hf].
  intros n. cbn [kill set_tab m_tab]. rewrite put_node_tab. unfold kill_below; cbv zeta.
  pose proof (Hs n) as Hsl.
  destruct (o_val (sl_val (m_tab st n))) eqn:Ev; cbv beta iota;
    try (apply (slot_fine_put c' Hsl Hm Hn); intros rest Hv; rewrite Ev in Hv; discriminate Hv).
  destruct (Nat.eqb root r && strictly_below (p ++ a) p0) eqn:Eb; [eapply slot_fine_dead, Hsl|].
  apply (slot_fine_put c' Hsl Hm Hn). intros rest Hv _. rewrite Ev in Hv. inversion Hv; subst root p0.
  rewrite Nat.eqb_refl, (strictly_below_app_l _ (strip_prefix_self p rest)) in Eb. apply Hkeep, Eb.
Qed.

Lemma resolves_mono_tab : forall st T r q, resolves st r q -> resolves (set_tab st T) r q.
Proof. intros st T r q H. exact H. Qed.

Lemma inv_with_slot : forall st n sl, inv st -> slot_fine st sl -> inv (with_slot st n sl).
Proof.
  intros st n sl [Hs Hf] Hsl. constructor; [|exact Hf].
  intros m. cbn [with_slot set_tab m_tab]. unfold set_slot. destruct (Nat.eqb m n); [exact Hsl | exact (Hs m)].
Qed.

Lemma open_handle_go : forall [st n r p c],
  open_handle st n = HGo r p c ->
  exists t, m_roots st r = Some t /\ node_at p t = Some c.
Proof.
  intros st n r p c H. unfold open_handle in H.
  destruct (negb (o_magic (sl_val (m_tab st n)))); [discriminate|].
  destruct (negb (tag_eqb (o_tag (sl_val (m_tab st n))) TJson)); [discriminate|].
  destruct (negb (sl_ok (m_tab st n))); [discriminate|].
  destruct (o_val (sl_val (m_tab st n))); try discriminate.
  destruct (m_roots st root) as [t|] eqn:Em; [|discriminate].
  destruct (node_at p0 t) eqn:En; [|discriminate]. inversion H; subst. eauto.
Qed.

Lemma auto_keep : forall w c rest, alpha c rest <> NAbsent -> alpha (auto_cast w c) rest <> NAbsent.
Proof.
  intros w c rest H. destruct c; cbn [auto_cast]; try exact H.
  destruct rest as [|a rest]; [destruct w; discriminate|].
  exfalso. apply H. unfold alpha. destruct a; reflexivity.
Qed.

Lemma handle_fine : forall st r q ch nf,
  resolves st r q -> slot_fine st (mkSlot (handle_to r q ch nf) true).
Proof.
  intros st r q ch nf Hr.
  assert (E : handle_to r q ch nf = occaNull \/ handle_to r q ch nf = mkO true TJson 8 nf (PRef r q))
    by (destruct ch; auto).
  destruct E as [-> | ->]; split; cbn; intros; try discriminate; [|eauto].
  injection H as <- <-. exact Hr.
Qed.

Lemma lit_fine : forall st l, slot_fine st (mkSlot (lit_otype l) true).
Proof.
  intros st l. destruct l; cbn; split; cbn; intros; try discriminate.
  - destruct nonnull; discriminate.
Qed.

Lemma inv_create : forall st n, inv st -> inv (fst (occaCreateJson st n)).
Proof.
  intros st n [Hs Hf]. unfold occaCreateJson. cbv zeta. cbn [fst].
  apply inv_with_slot.
  - constructor.
    + intros m. cbn [m_tab]. destruct (Hs m) as [H1 H2]. split; [|exact H2].
      intros r q Hv Hok. destruct (H1 r q Hv Hok) as [t [Ht Ha]]. exists t. cbn [m_roots].
      destruct (Nat.eqb_spec r (m_next st)) as [->|]; [|auto].
      rewrite (Hf (m_next st)) in Ht by lia. discriminate.
    + intros r Hr. cbn [m_roots m_next] in *. destruct (Nat.eqb_spec r (m_next st)); [lia|]. apply Hf. lia.
  - split; cbn; intros.
    + inversion H; subst. eexists. cbn. rewrite Nat.eqb_refl. split; [reflexivity|]. discriminate.
    + eauto.
Qed.

Lemma inv_free : forall st n, inv st -> inv (fst (occaFree st n)).
Proof.
  intros st n Hi. destruct (occaFree_cases st n) as [->|[->|[root [q0 [Ev ->]]]]]; [exact Hi | |].
  { apply inv_with_slot; [exact Hi|]. destruct (inv_slots _ Hi n) as [H1 H2]. split; cbn; auto. }
  destruct Hi as [Hs Hf]. constructor.
  - intros m. cbn [with_slot set_tab m_tab set_root]. unfold set_slot. destruct (Nat.eqb m n).
    + split; cbn; intros; [discriminate|]. destruct (Hs n) as [_ H2]. apply H2. exact H.
    + unfold kill_root; cbv zeta.
      destruct (o_val (sl_val (m_tab st m))) as [| | | |root0 p0] eqn:Evm; cbv beta iota; destruct (Hs m) as [H1 H2];
        try (split; [intros r' q Hv; rewrite Evm in Hv; discriminate | exact H2]).
      destruct (Nat.eqb_spec root0 root) as [->|Hne]; [exact (slot_fine_dead _ (Hs m))|].
      split; [|exact H2]. intros r' q Hv Hok. rewrite Evm in Hv. inversion Hv; subst r' q.
      destruct (H1 _ _ Evm Hok) as [t [Ht Ha]]. exists t. cbn [m_roots set_root set_tab with_slot].
      destruct (Nat.eqb_spec root0 root); [contradiction|]. auto.
  - intros r Hr. cbn [with_slot set_tab set_root m_roots m_next] in *.
    destruct (Nat.eqb r root); [reflexivity | apply Hf; exact Hr].
Qed.

Lemma obj_set_keep : forall key jv m rest,
  strictly_below [SK key] rest = false ->
  alpha (JObj m) rest <> NAbsent -> alpha (JObj (assoc_set key jv m)) rest <> NAbsent.
Proof.
  intros key jv m rest Hb H. destruct rest as [|[k2|i2] rest].
  - discriminate.
  - rewrite alpha_obj_key, assoc_get_set in *. destruct (bytes_eqb k2 key) eqn:E; [|exact H].
    apply bytes_eqb_eq in E. subst k2. unfold strictly_below in Hb. cbn in Hb. rewrite bytes_eqb_refl in Hb.
    destruct rest; [|discriminate]. unfold alpha. cbn. apply kind_of_not_absent.
  - exact H.
Qed.

Lemma resolves_child : forall st r p t c q,
  m_roots st r = Some t -> node_at p t = Some c -> alpha c q <> NAbsent -> resolves st r (p ++ q).
Proof. intros. exists t. split; [assumption|]. rewrite (alpha_app _ H0). assumption. Qed.

Lemma cast_keeps_same : forall cj c, cast_keeps cj c = true -> cast_json cj c = c.
Proof. destruct cj, c; cbn; intros; try discriminate; reflexivity. Qed.

(* the C variable an operation assigns a handle to *)
Definition op_out (o : op) : option nat :=
  match o with OpOGet _ _ m _ | OpAGet _ _ m => Some m | _ => None end.

(* occaCreateJson and occaFree change which heap objects exist, which no step of reach does *)
Definition changes_heap (o : op) : bool :=
  match o with OpNew _ | OpFree _ => true | _ => false end.

Section Reach.
Variable W : nat -> Prop.

(* The states a function of src/c/json.cpp returns are built from st by three kinds of step:
   a write through a pointer that keeps every node that was below it; a write followed by the
   kill of the variables strictly below p ++ a, which keeps the nodes not strictly below a;
   an assignment to an output variable (one that W allows) of a value that is fine. *)
Inductive reach (st : mstate) : mstate -> Prop :=
| reach_refl : reach st st
| reach_keep : forall st' r p c c' t,
    reach st st' -> m_roots st' r = Some t -> node_at p t = Some c ->
    (forall rest, alpha c rest <> NAbsent -> alpha c' rest <> NAbsent) ->
    reach st (put_node st' r p c')
| reach_kill : forall st' r p a c c' t,
    reach st st' -> m_roots st' r = Some t -> node_at p t = Some c ->
    (forall rest, strictly_below a rest = false -> alpha c rest <> NAbsent -> alpha c' rest <> NAbsent) ->
    reach st (kill (put_node st' r p c') r (p ++ a))
| reach_slot : forall st' m sl,
    reach st st' -> W m -> slot_fine st' sl -> reach st (with_slot st' m sl).

Lemma reach_inv : forall st st', inv st -> reach st st' -> inv st'.
Proof.
  intros st st' Hi H. induction H.
  - exact Hi.
  - eapply inv_put_keep; eauto.
  - eapply inv_put_kill_below; eauto.
  - apply inv_with_slot; assumption.
Qed.

Lemma reach_kill_at : forall [st st' r p c] c' [t],
  reach st st' -> m_roots st' r = Some t -> node_at p t = Some c ->
  reach st (kill (put_node st' r p c') r p).
Proof.
  intros st st' r p c c' t H Hm Hn. pose proof (reach_kill st st' r p [] c c' t H Hm Hn) as X.
  rewrite app_nil_r in X. apply X. intros [|x rest] Hb _; [apply kind_of_not_absent | discriminate Hb].
Qed.

Lemma reach_open_auto : forall [st n r p c] w,
  open_handle st n = HGo r p c ->
  reach st (put_node st r p (auto_cast w c)) /\
  exists t1, m_roots (put_node st r p (auto_cast w c)) r = Some t1 /\ node_at p t1 = Some (auto_cast w c).
Proof.
  intros st n r p c w Eh. destruct (open_handle_go Eh) as [t [Hm Hn]]. split.
  - eapply reach_keep; [apply reach_refl | eauto ..]. apply auto_keep.
  - eexists. split; [apply put_node_root_same; exact Hm | eapply node_at_put; exact Hn].
Qed.

(* the array writers and the assignment to the empty key end the same way: the auto-initialised
   node is overwritten and everything below the pointer is killed *)
Lemma reach_open_write : forall [st n r p c] w,
  open_handle st n = HGo r p c ->
  reach st (put_node st r p (auto_cast w c)) /\
  forall c', reach st (kill (put_node (put_node st r p (auto_cast w c)) r p c') r p).
Proof.
  intros st n r p c w Eh. destruct (reach_open_auto w Eh) as [H1 [t1 [Hm1 Hn1]]].
  split; [exact H1 | intros c'; exact (reach_kill_at c' H1 Hm1 Hn1)].
Qed.

Lemma oset_reach : forall cf st n key v, reach st (fst (occaJsonObjectSet cf st n key v)).
Proof.
  intros cf st n key v. unfold occaJsonObjectSet.
  destruct (negb (key_ok key)); [apply reach_refl|].
  destruct (negb (o_magic (sl_val (m_tab st n)))); [apply reach_refl|].
  destruct (open_value st v) as [vs|]; [|apply reach_refl].
  destruct (open_handle st n) as [r p c|] eqn:Eh; [|apply reach_refl]. cbv zeta.
  destruct (reach_open_auto true Eh) as [H1 [t1 [Hm1 Hn1]]].
  destruct (auto_cast true c) eqn:Ec; try exact H1.
  destruct (inferJson cf (put_node st r p (JObj m)) vs) as [jv|]; [|exact H1].
  destruct key as [|b key]; cbn [fst].
  - exact (reach_kill_at _ H1 Hm1 Hn1).
  - eapply reach_kill; eauto. intros. apply obj_set_keep; assumption.
Qed.

Lemma oget_reach : forall st n key mth d, W mth -> reach st (fst (occaJsonObjectGet st n key mth d)).
Proof.
  intros st n key mth d HW. unfold occaJsonObjectGet.
  destruct (negb (key_ok key)); [apply reach_refl|].
  destruct (open_handle st n) as [r p c|] eqn:Eh; [|apply reach_refl]. cbv zeta.
  destruct (reach_open_auto true Eh) as [H1 [t1 [Hm1 Hn1]]].
  destruct (auto_cast true c) eqn:Ec; try exact H1. cbn [fst].
  apply reach_slot; [exact H1 | exact HW |].
  destruct key as [|b key].
  - apply handle_fine. exists t1. split; [exact Hm1|]. unfold alpha. rewrite Hn1. discriminate.
  - destruct (assoc_get (b :: key) m) as [ch|] eqn:Eg; [|apply lit_fine].
    apply handle_fine. eapply resolves_child; eauto.
    rewrite alpha_obj_key, Eg. unfold alpha. cbn. apply kind_of_not_absent.
Qed.

Lemma ohas_reach : forall st n key, reach st (fst (occaJsonObjectHas st n key)).
Proof.
  intros st n key. unfold occaJsonObjectHas.
  destruct (negb (key_ok key)); [apply reach_refl|].
  destruct (open_handle st n) as [r p c|] eqn:Eh; [|apply reach_refl]. cbv zeta.
  destruct (reach_open_auto true Eh) as [H1 _].
  destruct (auto_cast true c); exact H1.
Qed.

Lemma asize_reach : forall st n, reach st (fst (occaJsonArraySize st n)).
Proof.
  intros st n. unfold occaJsonArraySize.
  destruct (open_handle st n) as [r p c|] eqn:Eh; [|apply reach_refl]. cbv zeta.
  destruct (reach_open_auto false Eh) as [H1 _].
  destruct (auto_cast false c); exact H1.
Qed.

Lemma aget_reach : forall st n i mth, W mth -> reach st (fst (occaJsonArrayGet st n i mth)).
Proof.
  intros st n i mth HW. unfold occaJsonArrayGet.
  destruct (open_handle st n) as [r p c|] eqn:Eh; [|apply reach_refl]. cbv zeta.
  destruct (reach_open_auto false Eh) as [H1 [t1 [Hm1 Hn1]]].
  destruct (auto_cast false c) eqn:Ec; try exact H1.
  destruct (i <? 0); [exact H1|].
  destruct (nth_error l (Z.to_nat i)) as [ch|] eqn:En; cbn [fst].
  - apply reach_slot; [exact H1 | exact HW |]. apply handle_fine. eapply resolves_child; eauto.
    rewrite alpha_arr_idx, En. unfold alpha. cbn. apply kind_of_not_absent.
  - apply nth_error_None in En.
    set (l' := l ++ repeat JNull (Z.to_nat i - length l) ++ [JNone]).
    apply reach_slot; [exact (reach_kill_at (JArr l') H1 Hm1 Hn1) | exact HW |]. apply handle_fine.
    eexists. split; [apply put_node_root_same, Hm1|]. rewrite (alpha_app _ (node_at_put _ Hn1)).
    rewrite alpha_arr_idx. subst l'. rewrite nth_error_grow by exact En. discriminate.
Qed.

Lemma apush_reach : forall cf st n v, reach st (fst (occaJsonArrayPush cf st n v)).
Proof.
  intros cf st n v. unfold occaJsonArrayPush.
  destruct (negb (o_magic (sl_val (m_tab st n)))); [apply reach_refl|].
  destruct (open_value st v) as [vs|]; [|apply reach_refl].
  destruct (open_handle st n) as [r p c|] eqn:Eh; [|apply reach_refl]. cbv zeta.
  destruct (reach_open_write false Eh) as [H1 H2].
  destruct (auto_cast false c) eqn:Ec; try exact H1.
  destruct (inferJson cf (put_node st r p (JArr l)) vs) as [jv|]; [|exact H1].
  destruct jv; cbn [fst]; try exact H1; apply H2.
Qed.

Lemma apop_reach : forall st n, reach st (fst (occaJsonArrayPop st n)).
Proof.
  intros st n. unfold occaJsonArrayPop.
  destruct (open_handle st n) as [r p c|] eqn:Eh; [|apply reach_refl]. cbv zeta.
  destruct (reach_open_write false Eh) as [H1 H2].
  destruct (auto_cast false c) eqn:Ec; try exact H1.
  destruct l; cbn [fst]; [exact H1|]. apply H2.
Qed.

Lemma ains_reach : forall cf st n i v, reach st (fst (occaJsonArrayInsert cf st n i v)).
Proof.
  intros cf st n i v. unfold occaJsonArrayInsert.
  destruct (negb (o_magic (sl_val (m_tab st n)))); [apply reach_refl|].
  destruct (open_value st v) as [vs|]; [|apply reach_refl].
  destruct (open_handle st n) as [r p c|] eqn:Eh; [|apply reach_refl]. cbv zeta.
  destruct (reach_open_write false Eh) as [H1 H2].
  destruct (auto_cast false c) eqn:Ec; try exact H1.
  destruct ((0 <=? i) && (i <? Z.of_nat (length l))); [|exact H1].
  destruct (inferJson cf (put_node st r p (JArr l)) vs) as [jv|]; [|exact H1].
  cbn [fst]. apply H2.
Qed.

Lemma aclear_reach : forall st n, reach st (fst (occaJsonArrayClear st n)).
Proof.
  intros st n. unfold occaJsonArrayClear.
  destruct (open_handle st n) as [r p c|] eqn:Eh; [|apply reach_refl]. cbv zeta.
  destruct (reach_open_write false Eh) as [H1 H2].
  destruct (auto_cast false c) eqn:Ec; try exact H1.
  cbn [fst]. apply H2.
Qed.

Lemma cast_reach : forall st n cj, reach st (fst (occaJsonCastTo st n cj)).
Proof.
  intros st n cj. unfold occaJsonCastTo.
  destruct (open_handle st n) as [r p c|] eqn:Eh; [|apply reach_refl]. cbv zeta. cbn [fst].
  destruct (open_handle_go Eh) as [t [Hm Hn]]. destruct (cast_keeps cj c) eqn:Ek.
  - rewrite (cast_keeps_same _ _ Ek). eapply reach_keep; [apply reach_refl | eauto ..].
  - exact (reach_kill_at _ (reach_refl st) Hm Hn).
Qed.

Lemma reach_readonly : forall st n (f : nat -> path -> json -> mstate * obs),
  (forall r p c, fst (f r p c) = st) ->
  reach st (fst (match open_handle st n with HStop ob => (st, ob) | HGo r p c => f r p c end)).
Proof. intros st n f Hf. destruct (open_handle st n); [rewrite Hf|]; apply reach_refl. Qed.

Lemma step_reach : forall F cf st o,
  changes_heap o = false -> (forall m, op_out o = Some m -> W m) -> reach st (fst (step F cf st o)).
Proof.
  intros F cf st o Hh HW. destruct o; try discriminate Hh; cbn [step fst]; try apply reach_refl.
  - apply oset_reach.
  - apply oget_reach, HW. reflexivity.
  - apply ohas_reach.
  - apply apush_reach.
  - apply ains_reach.
  - apply aget_reach, HW. reflexivity.
  - apply apop_reach.
  - apply aclear_reach.
  - apply asize_reach.
  - apply cast_reach.
  - (* OpGetB *) apply reach_readonly. intros r p [| |[]| | |]; reflexivity.
  - (* OpGetN *) apply reach_readonly. intros r p [| |k0 v| | |]; try reflexivity.
    destruct (newOccaType_prim_typed F cf (mkP (PTK k0) v) (TK k)); reflexivity.
  - (* OpGetS *) apply reach_readonly. intros r p []; reflexivity.
  - (* OpTy *) apply reach_readonly. reflexivity.
Qed.

End Reach.

Lemma inv_readonly : forall st n (f : nat -> path -> json -> mstate * obs),
  (forall r p c, fst (f r p c) = st) ->
  inv st -> inv (fst (match open_handle st n with HStop ob => (st, ob) | HGo r p c => f r p c end)).
Proof. intros st n f Hf Hi. exact (reach_inv _ _ _ Hi (reach_readonly (fun _ => True) st n f Hf)). Qed.

Theorem step_inv : forall F cf st o, inv st -> inv (fst (step F cf st o)).
Proof.
  intros F cf st o Hi. destruct (changes_heap o) eqn:Hh.
  - destruct o; try discriminate Hh; [apply inv_create | apply inv_free]; exact Hi.
  - exact (reach_inv _ _ _ Hi (step_reach (fun _ => True) F cf st o Hh (fun _ _ => I))).
Qed.

Theorem run_inv : forall F cf ops st, inv st -> inv (fst (run_from F cf st ops)).
Proof.
  induction ops as [|o ops IH]; intros st Hi; [exact Hi|].
  rewrite run_from_cons. apply IH, step_inv, Hi.
Qed.

Lemma usable_opens : forall st n,
  inv st ->
  o_magic (sl_val (m_tab st n)) = true -> o_tag (sl_val (m_tab st n)) = TJson -> sl_ok (m_tab st n) = true ->
  exists r p c, open_handle st n = HGo r p c.
Proof.
  intros st n Hi Hmag Htag Hok. destruct (inv_slots _ Hi n) as [H1 H2].
  destruct (H2 Htag) as [r [q Hv]]. destruct (H1 r q Hv Hok) as [t [Ht Ha]].
  destruct (alpha_present Ha) as [c [Hc _]].
  exists r, q, c. unfold open_handle. rewrite Hmag, Htag, Hok, Hv, Ht, Hc. reflexivity.
Qed.
