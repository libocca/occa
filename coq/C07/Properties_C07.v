(* C07 -- editing an included header always invalidates stale cached kernels.  The general proofs are in
   Proofs.v; the refutations and examples are evaluated here.

   Vocabulary (Model.v / Spec.v):
     fsT, contents     files by number (0 = the kernel source); contents = (#include list, rest of the text)
     op                Edit p c | Delete p | Build          run v init h = the outcome of every Build of history h,
                                                            paired with the file system it ran against
     outcome           Ran s compiled (the kernel that runs was compiled from the texts s; compiled: now or cached)
                       | Failed (no binary) | Diverged (applyDependencyHash did not return)
     texp fs root s    s = the texts textual inclusion reads from fs, starting at the kernel source (Spec.v)
     apply v fuel ...  device::applyDependencyHash with fuel; variant Pinned = the snapshot (XOR of the current
                       hashes of all existing recorded dependencies), Fixed = after fixes/C07-1.patch (the next key
                       is the hash of the previous key together with every recorded dependency's name and current
                       hash-or-missing)
   Hashes are ideal (a key is a set of atoms / a term); accidental collisions are out of scope. *)
From Coq Require Import List Arith Bool.
From OV.C07 Require Import Model Spec Proofs.
Import ListNotations.

(* MAIN.  After every build of every history of edits, deletions and builds (include-graph changes and
   reverts are edits), starting from an empty cache: the kernel that runs was compiled from exactly the
   current texts of the source and of everything it includes, directly or transitively; the build never
   diverges; and it fails only when a fresh compilation of the current texts is impossible (a file is
   missing / inclusion does not end). *)
Theorem build_runs_current : forall (h : list op),
  Forall (fun fo : fsT * outcome =>
            reflects_current (fst fo) (snd fo) /\ (snd fo = Failed -> current (fst fo) = None))
         (run Fixed init h).
Proof. exact Proofs.build_runs_current. Qed.

(* the fuel argument: for EVERY cache (reachable or not), file system and key, the repaired
   applyDependencyHash returns within |cache| + 1 calls *)
Theorem apply_terminates : forall (cache : cacheT) (fs : fsT) (k : key),
  apply Fixed (length cache + 1) cache fs k <> None.
Proof. exact Proofs.apply_terminates. Qed.

(* `texp` pins the texts down: whatever a fresh expansion computes is the only snapshot satisfying it *)
Theorem current_texts_unique : forall fs n s s',
  expand n fs root = Some s -> texp fs root s' -> s = s'.
Proof.
  intros fs n s s' E. exact (proj1 (Proofs.texp_functional fs) root s (expand_sound fs n root s E) s').
Qed.

Print Assumptions build_runs_current.
Print Assumptions apply_terminates.
Print Assumptions current_texts_unique.

Definition state_after (v : variant) (h : list op) : state := fold_left (fun st o => fst (step v st o)) h init.

Lemma self_loop v cache fs k e :
  lookup k cache = Some e -> changed fs (e_deps e) = true ->
  step_key v k (dep_state fs (e_deps e)) = k ->
  forall fuel, apply v fuel cache fs k = None.
Proof. intros L Ch St. induction fuel as [|f IH]; simpl; [reflexivity|]. now rewrite L, Ch, St. Qed.

Lemma two_cycle v cache fs k k' e e' :
  lookup k cache = Some e -> changed fs (e_deps e) = true -> step_key v k (dep_state fs (e_deps e)) = k' ->
  lookup k' cache = Some e' -> changed fs (e_deps e') = true -> step_key v k' (dep_state fs (e_deps e')) = k ->
  forall fuel, apply v fuel cache fs k = None /\ apply v fuel cache fs k' = None.
Proof.
  intros L Ch St L' Ch' St'. induction fuel as [|f [IH IH']]; simpl; [split; reflexivity|].
  rewrite L, Ch, St, L', Ch', St'. split; assumption.
Qed.

Lemma one_step v cache fs k k' e :
  lookup k cache = Some e -> changed fs (e_deps e) = true -> step_key v k (dep_state fs (e_deps e)) = k' ->
  (forall fuel, apply v fuel cache fs k' = None) -> forall fuel, apply v fuel cache fs k = None.
Proof. intros L Ch St Hn [|f]; simpl; [reflexivity|]. rewrite L, Ch, St. apply Hn. Qed.

Definition F (l : list path) (v : nat) : contents := mkC l v.

(* DESIGN section 8 #12: k.okl includes a.h and b.h; after one build both headers are edited to the same text.
   The two new hashes cancel, the key does not move, and the recursion never ends: for every fuel. *)
Definition h_equal : list op :=
  [Edit 0 (F [1; 2] 7); Edit 1 (F [] 1); Edit 2 (F [] 2); Build; Edit 1 (F [] 5); Edit 2 (F [] 5)].

Theorem equal_contents_self_loop_refuted :
  let st := state_after Pinned h_equal in
  (forall fuel, apply Pinned fuel (st_cache st) (st_fs st) (key0 (F [1; 2] 7)) = None)
  /\ map snd (run Pinned init (h_equal ++ [Build])) = [Ran [(0, F [1; 2] 7); (1, F [] 1); (2, F [] 2)] true; Diverged].
Proof.
  split; [|vm_compute; reflexivity].
  eapply self_loop; vm_compute; reflexivity.
Qed.

(* the same when every recorded dependency is missing *)
Definition h_missing : list op :=
  [Edit 0 (F [1] 7); Edit 1 (F [] 1); Build; Delete 1].

Theorem all_missing_self_loop_refuted :
  let st := state_after Pinned h_missing in
  forall fuel, apply Pinned fuel (st_cache st) (st_fs st) (key0 (F [1] 7)) = None.
Proof. eapply self_loop; vm_compute; reflexivity. Qed.

(* and without any two files ever being equal: k.okl includes a.h, a.h comes to include b.h, and ordinary edits
   of a.h and b.h lead to two cache entries that send applyDependencyHash to each other for ever (every
   unchanged dependency is XORed in as well, so a step can undo the previous one) *)
Definition h_cycle : list op :=
  [Edit 0 (F [1] 7); Edit 1 (F [] 1); Build;
   Edit 1 (F [2] 2); Edit 2 (F [] 1); Build;
   Edit 2 (F [] 2); Build;
   Edit 1 (F [2] 3); Edit 2 (F [] 3); Build;
   Edit 2 (F [] 2)].

Theorem alternating_edits_two_cycle_refuted :
  let st := state_after Pinned h_cycle in
  (forall fuel, apply Pinned fuel (st_cache st) (st_fs st) (key0 (F [1] 7)) = None)
  /\ map snd (run Pinned init (h_cycle ++ [Build]))
     = [Ran [(0, F [1] 7); (1, F [] 1)] true;
        Ran [(0, F [1] 7); (1, F [2] 2); (2, F [] 1)] true;
        Ran [(0, F [1] 7); (1, F [2] 2); (2, F [] 2)] true;
        Ran [(0, F [1] 7); (1, F [2] 3); (2, F [] 3)] true;
        Diverged].
Proof.
  split; [|vm_compute; reflexivity].
  (* the first call moves from the base key to the first key of the cycle *)
  eapply one_step; [vm_compute; reflexivity | vm_compute; reflexivity | vm_compute; reflexivity |].
  intros fuel. eapply proj1. eapply two_cycle; vm_compute; reflexivity.
Qed.

Print Assumptions equal_contents_self_loop_refuted.
Print Assumptions all_missing_self_loop_refuted.
Print Assumptions alternating_edits_two_cycle_refuted.

(* the same three histories under the repaired function: every build runs the current texts; reverting to an
   earlier state loads the binary that was compiled for it *)
Example fixed_equal_contents :
  map snd (run Fixed init (h_equal ++ [Build; Edit 1 (F [] 1); Edit 2 (F [] 2); Build]))
  = [Ran [(0, F [1; 2] 7); (1, F [] 1); (2, F [] 2)] true;
     Ran [(0, F [1; 2] 7); (1, F [] 5); (2, F [] 5)] true;
     Ran [(0, F [1; 2] 7); (1, F [] 1); (2, F [] 2)] false].
Proof. vm_compute. reflexivity. Qed.

Example fixed_missing :
  map snd (run Fixed init (h_missing ++ [Build; Edit 0 (F [] 7); Build; Edit 0 (F [1] 7); Edit 1 (F [] 1); Build]))
  = [Ran [(0, F [1] 7); (1, F [] 1)] true; Failed; Ran [(0, F [] 7)] true; Ran [(0, F [1] 7); (1, F [] 1)] false].
Proof. vm_compute. reflexivity. Qed.

Example fixed_cycle :
  map snd (run Fixed init (h_cycle ++ [Build; Build]))
  = [Ran [(0, F [1] 7); (1, F [] 1)] true;
     Ran [(0, F [1] 7); (1, F [2] 2); (2, F [] 1)] true;
     Ran [(0, F [1] 7); (1, F [2] 2); (2, F [] 2)] true;
     Ran [(0, F [1] 7); (1, F [2] 3); (2, F [] 3)] true;
     Ran [(0, F [1] 7); (1, F [2] 3); (2, F [] 2)] true;
     Ran [(0, F [1] 7); (1, F [2] 3); (2, F [] 2)] false].
Proof. vm_compute. reflexivity. Qed.
