(* C07 -- proofs about the repaired applyDependencyHash (variant Fixed): termination within
   |cache|+1 steps for every cache, and, by an invariant over all histories, every build runs code
   compiled from the current texts. *)
From Coq Require Import List Arith Bool PeanoNat Lia.
From OV.C07 Require Import Model Spec.
Import ListNotations.

Lemma list_nat_eqb_eq a b : list_nat_eqb a b = true <-> a = b.
Proof.
  revert b. induction a as [|x a IH]; intros [|y b]; simpl; try (split; discriminate); try (split; reflexivity).
  rewrite andb_true_iff, Nat.eqb_eq, IH. split; [now intros [-> ->] | now intros [= -> ->]].
Qed.

Lemma contents_eqb_eq a b : contents_eqb a b = true <-> a = b.
Proof.
  destruct a as [ia va], b as [ib vb]. unfold contents_eqb. simpl.
  rewrite andb_true_iff, Nat.eqb_eq, list_nat_eqb_eq. split; [now intros [-> ->] | now intros [= -> ->]].
Qed.

Lemma list_nat_cmp_eq a b : list_nat_cmp a b = Eq <-> a = b.
Proof.
  revert b. induction a as [|x a IH]; intros [|y b]; simpl; try (split; discriminate); try (split; reflexivity).
  destruct (Nat.compare_spec x y) as [->|Hlt|Hlt];
    [| split; [discriminate | intros [= -> _]; destruct (Nat.lt_irrefl _ Hlt)] ..].
  rewrite IH. split; [now intros -> | now intros [= ->]].
Qed.

Lemma contents_cmp_eq a b : contents_cmp a b = Eq <-> a = b.
Proof.
  destruct a as [ia va], b as [ib vb]. unfold contents_cmp. simpl.
  destruct (Nat.compare_spec va vb) as [->|Hlt|Hlt];
    [| split; [discriminate | intros [= _ ->]; destruct (Nat.lt_irrefl _ Hlt)] ..].
  rewrite list_nat_cmp_eq. split; [now intros -> | now intros [= ->]].
Qed.

Lemma hatom_cmp_eq a b : hatom_cmp a b = Eq <-> a = b.
Proof.
  destruct a as [|x|x], b as [|y|y]; simpl; try (split; discriminate); try (split; reflexivity);
    rewrite contents_cmp_eq; (split; [now intros -> | now intros [= ->]]).
Qed.

Lemma hatoms_eqb_eq a b : hatoms_eqb a b = true <-> a = b.
Proof.
  revert b. induction a as [|x a IH]; intros [|y b]; simpl; try (split; discriminate); try (split; reflexivity).
  assert (H : (match hatom_cmp x y with Eq => true | _ => false end) = true <-> x = y)
    by (rewrite <- hatom_cmp_eq; now destruct (hatom_cmp x y)).
  rewrite andb_true_iff, IH, H. split; [now intros [-> ->] | now intros [= -> ->]].
Qed.

Lemma ocontents_eqb_eq a b : ocontents_eqb a b = true <-> a = b.
Proof.
  destruct a as [x|], b as [y|]; simpl; try (split; discriminate); try (split; reflexivity).
  rewrite contents_eqb_eq. split; [now intros -> | now intros [= ->]].
Qed.

Lemma dstate_eqb_eq a b : dstate_eqb a b = true <-> a = b.
Proof.
  revert b. induction a as [|[p x] a IH]; intros [|[q y] b]; simpl; try (split; discriminate); try (split; reflexivity).
  rewrite !andb_true_iff, Nat.eqb_eq, ocontents_eqb_eq, IH.
  split; [now intros [[-> ->] ->] | now intros [= -> -> ->]].
Qed.

Lemma key_eqb_eq a b : key_eqb a b = true <-> a = b.
Proof.
  revert b. induction a as [s|k IH ds]; intros [s'|k' ds']; simpl; try (split; discriminate); try (split; reflexivity).
  - rewrite hatoms_eqb_eq. split; [now intros -> | now intros [= ->]].
  - rewrite andb_true_iff, IH, dstate_eqb_eq. split; [now intros [-> ->] | now intros [= -> ->]].
Qed.

Lemma lookup_some k cache e : lookup k cache = Some e -> In e cache /\ e_key e = k.
Proof.
  induction cache as [|e0 cache IH]; simpl; [discriminate|].
  destruct (key_eqb k (e_key e0)) eqn:E.
  - intros H. injection H as <-. apply key_eqb_eq in E. split; [now left | now symmetry].
  - intros H. destruct (IH H) as [Hin Hk]. split; [now right | assumption].
Qed.

Fixpoint kdepth (k : key) : nat :=
  match k with KSet _ => 0 | KChain k' _ => S (kdepth k') end.

(* The measure of termination: the entries whose key is a chain at least n deep.  Each call of `apply`
   moves to a key one deeper than the entry it found, so that entry stops being counted. *)
Definition above (n : nat) (cache : cacheT) : nat :=
  length (filter (fun e => Nat.leb n (kdepth (e_key e))) cache).

(* the first inequality is there for the induction *)
Lemma above_step n cache :
  above (S n) cache <= above n cache <= length cache /\
  (forall e, In e cache -> kdepth (e_key e) = n -> above (S n) cache < above n cache).
Proof.
  unfold above. induction cache as [|e0 cache [IH1 IH2]]; cbn [filter].
  - split; [cbn [length]; lia | intros e []].
  - (* e0 is counted for S n, for n only, or for neither *)
    destruct (Nat.leb_spec (S n) (kdepth (e_key e0))), (Nat.leb_spec n (kdepth (e_key e0)));
      cbn [length]; try lia; (split; [lia|]).
    all: intros e [<-|Hin] Hk; try lia; specialize (IH2 e Hin Hk); lia.
Qed.

Lemma apply_fuel cache fs : forall fuel k,
  above (kdepth k) cache < fuel -> apply Fixed fuel cache fs k <> None.
Proof.
  induction fuel as [|f IH]; intros k Hlt; [lia|].
  simpl. destruct (lookup k cache) as [e|] eqn:L; [|discriminate].
  destruct (changed fs (e_deps e)); [|discriminate].
  apply IH. simpl. destruct (lookup_some _ _ _ L) as [Hin Hk].
  pose proof (proj2 (above_step (kdepth k) cache) e Hin (f_equal kdepth Hk)). lia.
Qed.

Theorem apply_terminates cache fs k : apply Fixed (length cache + 1) cache fs k <> None.
Proof. apply apply_fuel. pose proof (proj1 (above_step (kdepth k) cache)). lia. Qed.

Fixpoint root_of (k : key) : option contents :=
  match k with
  | KSet [ABase; ARoot r] => Some r
  | KSet _ => None
  | KChain k' _ => root_of k'
  end.

Lemma root_of_key0 r : root_of (key0 r) = Some r.
Proof. reflexivity. Qed.

Lemma apply_result cache fs : forall fuel k k',
  apply Fixed fuel cache fs k = Some k' ->
  root_of k' = root_of k /\ (forall e, lookup k' cache = Some e -> changed fs (e_deps e) = false).
Proof.
  induction fuel as [|f IH]; intros k k'; simpl; [discriminate|].
  destruct (lookup k cache) as [e|] eqn:L.
  - destruct (changed fs (e_deps e)) eqn:Ch.
    + intros H. destruct (IH _ _ H) as [Hr Hc]. split; [simpl in Hr; assumption | assumption].
    + intros H. injection H as <-. split; [reflexivity|]. intros e' L'. rewrite L in L'. now injection L' as <-.
  - intros H. injection H as <-. split; [reflexivity|]. intros e' L'. rewrite L in L'. discriminate.
Qed.

Lemma changed_false fs deps :
  changed fs deps = false -> forall d c, In (d, c) deps -> fs_get fs d = Some c.
Proof.
  unfold changed. induction deps as [|[d0 c0] deps IH]; simpl; intros H d c Hin; [destruct Hin|].
  apply orb_false_iff in H as [H0 H1]. destruct Hin as [E|Hin]; [|exact (IH H1 d c Hin)].
  injection E as <- <-. destruct (fs_get fs d0) as [c1|]; [|discriminate].
  apply negb_false_iff, contents_eqb_eq in H0. now subst.
Qed.

Scheme texp_mut := Minimality for texp Sort Prop
  with texps_mut := Minimality for texps Sort Prop.
Combined Scheme texp_texps_ind from texp_mut, texps_mut.

Definition holds (fs : fsT) (qc : path * contents) : Prop := fs_get fs (fst qc) = Some (snd qc).

Lemma texp_holds fs :
  (forall p s, texp fs p s -> Forall (holds fs) s) /\ (forall l ss, texps fs l ss -> Forall (holds fs) ss).
Proof.
  apply texp_texps_ind.
  - intros p c ss G _ IH. now constructor.
  - constructor.
  - intros q l s ss _ IH1 _ IH2. apply Forall_app. now split.
Qed.

(* the expansion reads nothing but the files it lists: a file system that holds them gives the same *)
Lemma texp_stable fs fs' :
  (forall p s, texp fs p s -> Forall (holds fs') s -> texp fs' p s) /\
  (forall l ss, texps fs l ss -> Forall (holds fs') ss -> texps fs' l ss).
Proof.
  apply texp_texps_ind.
  - intros p c ss _ _ IH HF. inversion HF; subst. constructor; auto.
  - constructor.
  - intros q l s ss _ IH1 _ IH2 HF. apply Forall_app in HF as [H1 H2]. constructor; auto.
Qed.

Lemma texp_functional fs :
  (forall p s, texp fs p s -> forall s', texp fs p s' -> s = s') /\
  (forall l ss, texps fs l ss -> forall ss', texps fs l ss' -> ss = ss').
Proof.
  apply texp_texps_ind.
  - intros p c ss G _ IH s' T. inversion T as [p' c' ss' G' Ts]; subst.
    rewrite G in G'. injection G' as <-. f_equal. now apply IH.
  - intros ss' T. now inversion T.
  - intros q l s ss _ IH1 _ IH2 ss' T. inversion T; subst. f_equal; auto.
Qed.

Lemma expand_list_sound fs (f : path -> option snapshot) l :
  (forall q s, f q = Some s -> texp fs q s) ->
  forall ss, expand_list f l = Some ss -> texps fs l ss.
Proof.
  intros Hf. induction l as [|q l IH]; simpl; intros ss.
  - intros H. injection H as <-. constructor.
  - destruct (f q) as [s|] eqn:Fq; [|discriminate].
    destruct (expand_list f l) as [ss'|] eqn:El; [|discriminate].
    intros H. injection H as <-. constructor; [now apply Hf | now apply IH].
Qed.

Lemma expand_sound fs : forall n p s, expand n fs p = Some s -> texp fs p s.
Proof.
  induction n as [|n IH]; intros p s; simpl; [discriminate|].
  destruct (fs_get fs p) as [c|] eqn:G; [|discriminate].
  destruct (expand_list (expand n fs) (incs c)) as [ss|] eqn:El; [|discriminate].
  intros H. injection H as <-. constructor; [exact G|].
  exact (expand_list_sound fs (expand n fs) (incs c) (IH) ss El).
Qed.

Lemma dedupe_sub l : forall seen x, In x (dedupe l seen) -> In x l.
Proof.
  induction l as [|[p c] l IH]; simpl; intros seen x; [auto|].
  destruct (memp p seen).
  - intros H. right. exact (IH _ _ H).
  - intros [<-|H]; [now left | right; exact (IH _ _ H)].
Qed.

Lemma memp_In p l : memp p l = true <-> In p l.
Proof.
  unfold memp. rewrite existsb_exists. split.
  - intros [x [Hin E]]. apply Nat.eqb_eq in E. now subst.
  - intros Hin. exists p. split; [assumption | apply Nat.eqb_refl].
Qed.

Lemma dedupe_in l : forall seen q c,
  In (q, c) l -> memp q seen = false -> exists c', In (q, c') (dedupe l seen).
Proof.
  induction l as [|[p c0] l IH]; simpl; intros seen q c; [intros []|].
  intros [E|Hin] Hs.
  - injection E as -> ->. rewrite Hs. exists c. now left.
  - destruct (memp p seen) eqn:Mp.
    + exact (IH seen q c Hin Hs).
    + destruct (Nat.eq_dec q p) as [->|Hne].
      * exists c0. now left.
      * destruct (IH (p :: seen) q c Hin) as [c' Hc'].
        { unfold memp in *. simpl. rewrite Hs. rewrite (proj2 (Nat.eqb_neq q p) Hne). reflexivity. }
        exists c'. now right.
Qed.

Definition snap_root (s : snapshot) : option contents :=
  match s with (_, c) :: _ => Some c | [] => None end.

(* a snapshot remains the expansion while the source and the recorded dependencies are unchanged:
   every file it lists below the source is a recorded dependency *)
Lemma texp_unchanged fs0 fs s r :
  texp fs0 root s -> snap_root s = Some r -> fs_get fs root = Some r ->
  changed fs (deps_of s) = false -> texp fs root s.
Proof.
  intros T Hs Hr Hun. apply (proj1 (texp_stable fs0 fs) _ _ T).
  pose proof (proj1 (texp_holds fs0) _ _ T) as Hp0. rewrite Forall_forall in Hp0.
  destruct T as [p c ss _ _]. injection Hs as ->.
  constructor; [exact Hr|]. apply Forall_forall. intros [q cq] Hq.
  destruct (dedupe_in ss [] q cq Hq eq_refl) as [c' Hc'].
  pose proof (Hp0 _ (or_intror (dedupe_sub _ _ _ Hc'))) as A. pose proof (Hp0 _ (or_intror Hq)) as B.
  unfold holds in *. simpl in A, B |- *. rewrite A in B. injection B as <-.
  exact (changed_false _ _ Hun q c' Hc').
Qed.

(* what the cache keeps of every build: the dependencies recorded are those of the snapshot, the snapshot
   was an expansion, and the key remembers the source text it started from *)
Definition entry_ok (e : entry) : Prop :=
  e_deps e = deps_of (e_snap e)
  /\ (exists fs0, texp fs0 root (e_snap e))
  /\ root_of (e_key e) = snap_root (e_snap e).

Definition cache_ok (cache : cacheT) : Prop := Forall entry_ok cache.

Lemma reuse_current cache fs r k e :
  cache_ok cache -> fs_get fs root = Some r ->
  apply Fixed (length cache + 1) cache fs (key0 r) = Some k ->
  lookup k cache = Some e ->
  texp fs root (e_snap e).
Proof.
  intros Hok Hr Hap Hl.
  destruct (apply_result _ _ _ _ _ Hap) as [Hroot Hunch].
  specialize (Hunch e Hl). rewrite root_of_key0 in Hroot.
  destruct (lookup_some _ _ _ Hl) as [Hin Hk].
  destruct (proj1 (Forall_forall _ _) Hok e Hin) as (Hdeps & (fs0 & Hexp) & Hs0).
  rewrite Hk, Hroot in Hs0. rewrite Hdeps in Hunch.
  exact (texp_unchanged fs0 fs _ r Hexp (eq_sym Hs0) Hr Hunch).
Qed.

Lemma build_ok cache fs cache' o :
  cache_ok cache -> build Fixed cache fs = (cache', o) ->
  cache_ok cache' /\ reflects_current fs o /\ (o = Failed -> current fs = None).
Proof.
  intros Hok. unfold build, current.
  destruct (fs_get fs root) as [r|] eqn:Hr.
  2:{ intros [= <- <-]. split; [assumption|]. split; [exact I|]. intros _.
      rewrite Nat.add_1_r. simpl. now rewrite Hr. }
  destruct (apply Fixed (length cache + 1) cache fs (key0 r)) as [k|] eqn:Hap;
    [|destruct (apply_terminates _ _ _ Hap)].
  destruct (lookup k cache) as [e|] eqn:Hl.
  - intros [= <- <-]. split; [assumption|]. split; [|discriminate].
    exact (reuse_current cache fs r k e Hok Hr Hap Hl).
  - destruct (expand (length fs + 1) fs root) as [s|] eqn:Hexp; intros [= <- <-].
    + pose proof (expand_sound fs _ _ _ Hexp) as T. split; [|split; [exact T | discriminate]].
      constructor; [|assumption]. split; [reflexivity|]. split; [now exists fs|]. simpl.
      destruct (apply_result _ _ _ _ _ Hap) as [-> _]. rewrite root_of_key0.
      destruct T as [p c ss Gc _]. simpl. congruence.
    + split; [assumption|]. split; [exact I | reflexivity].
Qed.

Lemma run_ok : forall h st,
  cache_ok (st_cache st) ->
  Forall (fun fo => reflects_current (fst fo) (snd fo) /\ (snd fo = Failed -> current (fst fo) = None))
         (run Fixed st h).
Proof.
  induction h as [|o h IH]; intros st Hok; simpl; [constructor|].
  destruct o as [p c|p|]; simpl.
  - apply IH. exact Hok.
  - apply IH. exact Hok.
  - destruct (build Fixed (st_cache st) (st_fs st)) as [cache' out] eqn:B.
    destruct (build_ok _ _ _ _ Hok B) as (Hok' & Hr & Hf).
    constructor; [split; assumption|]. apply IH. exact Hok'.
Qed.

Theorem build_runs_current h :
  Forall (fun fo => reflects_current (fst fo) (snd fo) /\ (snd fo = Failed -> current (fst fo) = None))
         (run Fixed init h).
Proof. apply run_ok. constructor. Qed.
