(* C09 — concurrent builds of the same kernel all succeed and agree.
   The model is C08's (coq/C08/Model.v): N processes over one file system, any interleaving of
   their micro-steps.  Statements and examples; proofs in coq/C08/Proofs.v.  The
   model has no file contents: "agree" is left to the real runs.  Theorems 1 and 5 are C08's. *)
From Coq Require Import List NArith Bool Arith.
From OV.C08 Require Import Model Statements Proofs.
Import ListNotations.
Local Open Scope N_scope.

(* Under every schedule, no completion-tested path ever holds a partial file: whatever a reader
   opens under a final name is a complete file or does not exist. *)
Theorem every_reader_sees_complete_or_absent : forall owner cfgs s0 sched,
  finals_ok s0 -> fresh_temps owner cfgs s0 ->
  finals_ok (s_fs (sys_run {| s_fs := s0; s_procs := init_procs cfgs |} sched)).
Proof. exact Proofs.no_partial_final_any_schedule. Qed.
Print Assumptions every_reader_sees_complete_or_absent.

(* Whenever a process is about to load (dlopen) the binary, the binary is complete. *)
Theorem load_sees_complete : forall owner cfgs s0 sched i c b,
  finals_ok s0 -> fresh_temps owner cfgs s0 -> stages_bin cfgs ->
  let st := sys_run {| s_fs := s0; s_procs := init_procs cfgs |} sched in
  nth_error cfgs i = Some c ->
  nth_error (s_procs st) i = Some (PLoad b) ->
  lookup (F b) (s_fs st) = Complete.
Proof. exact Proofs.load_sees_complete. Qed.
Print Assumptions load_sees_complete.

(* Every process that gets scheduled fuel_for times finishes with a complete binary, for any
   number of processes and whatever the others do in between (no process fails or waits because
   of another process's in-progress build). *)
Theorem all_succeed : forall owner cfgs s0 sched j c,
  finals_ok s0 -> fresh_temps owner cfgs s0 -> stages_bin cfgs ->
  nth_error cfgs j = Some c ->
  (fuel_for (fst c) <= count_occ Nat.eq_dec sched j)%nat ->
  let st := sys_run {| s_fs := s0; s_procs := init_procs cfgs |} sched in
  nth_error (s_procs st) j = Some PDone /\ lookup (F (snd c)) (s_fs st) = Complete.
Proof. exact Proofs.all_succeed. Qed.
Print Assumptions all_succeed.

(* A build alone that finds the binary complete only reads it: the cache is reused. *)
Theorem cache_reused : forall s st bin,
  lookup (F bin) s = Complete -> emitted s st bin = [ORead (F bin)].
Proof. exact Proofs.cache_reused. Qed.
Print Assumptions cache_reused.

Theorem binary_has_metadata : forall owner json bin cfgs s0 sched,
  finals_ok s0 -> fresh_temps owner cfgs s0 -> json_before_bin json bin cfgs ->
  (lookup (F bin) s0 = Complete -> lookup (F json) s0 = Complete) ->
  let st := sys_run {| s_fs := s0; s_procs := init_procs cfgs |} sched in
  lookup (F bin) (s_fs st) = Complete -> lookup (F json) (s_fs st) = Complete.
Proof. exact Proofs.binary_implies_metadata. Qed.
Print Assumptions binary_has_metadata.

(* A protocol with a shared (constant) temp name is NOT safe: two processes interleaved so that
   one renames the temp the other is still writing expose a partial final file.  (This is what
   hypothesis fresh_temps excludes; see DESIGN 9.1 "constant temp-file prefix".) *)
Definition shared_temp : list cfg := [([(5, 7)], 5); ([(5, 7)], 5)].
Theorem shared_temp_refuted :
  exists sched, lookup (F 5) (s_fs (sys_run {| s_fs := []; s_procs := init_procs shared_temp |} sched)) = Partial.
Proof.
  (* p0: start, check, create, write, close; p1: start, check, create (truncates p0's closed temp);
     p0: rename -> the final is the file p1 is still writing *)
  exists [0; 0; 0; 0; 0; 1; 1; 1; 0]%nat. vm_compute. reflexivity.
Qed.
Print Assumptions shared_temp_refuted.

Definition kcfg (t0 : N) : cfg := ([(2, t0); (3, t0 + 1); (4, t0 + 2); (5, t0 + 3)], 5).
Definition three : list cfg := [kcfg 100; kcfg 200; kcfg 300].
Definition own (k : N) : nat := if k <? 200 then 0%nat else if k <? 300 then 1%nat else 2%nat.

Example fresh_three : fresh_temps own three [].
Proof.
  intros i c H. destruct i as [|[|[|i]]]; cbn in H; [| | |destruct i; discriminate];
    injection H as <-; (split; [apply NoDup4; discriminate|]);
    intros k [<-|[<-|[<-|[<-|[]]]]]; split; reflexivity.
Qed.

(* round-robin of three builders: all finish, binary and build.json complete *)
Fixpoint round_robin (n : nat) : list nat :=
  match n with O => [] | S n' => [0; 1; 2]%nat ++ round_robin n' end.

Example three_round_robin :
  let st := sys_run {| s_fs := []; s_procs := init_procs three |} (round_robin 23) in
  s_procs st = [PDone; PDone; PDone] /\
  lookup (F 5) (s_fs st) = Complete /\ lookup (F 4) (s_fs st) = Complete.
Proof. vm_compute. repeat split. Qed.
