(* C12: round trips.  For every operator table with `rt_table_ok` (Table.v checks it for the generated one), every
   good token t (Spec.good) inside the guard (Spec.guard) and every continuation `rest` that is the end of input or
   starts with a blank,
       getToken fixed ops (printToken fixed t ++ rest) = Ok (Some t, rest)   (lex_good),
   hence a blank-separated printed sequence tokenizes to itself (tokenize_seq); a line comment is read up to its
   newline (lex_line_comment). *)
From Coq Require Import List ZArith Bool Lia.
From OV.C12 Require Import OpDefs Model Spec ProofsSafety ProofsSafety2.
Import ListNotations.
Local Open Scope Z_scope.

Definition blank_or_end (rest : list Z) : Prop :=
  rest = [0] \/ exists r, rest = 32 :: r.

(* what follows a printed token: the NUL or a blank *)
Definition stop (h : Z) : Prop := h = 0 \/ h = 32.

Lemma boe_inv : forall rest, blank_or_end rest -> exists h t, rest = h :: t /\ stop h.
Proof. intros rest [->|[r ->]]; eexists _, _; split; unfold stop; eauto. Qed.

Lemma nonzero_Forall : forall v, nonzero v = true -> nonz v.
Proof.
  intros v H. apply Forall_forall. intros x I. unfold nonzero in H. rewrite forallb_forall in H.
  apply Z.eqb_neq, negb_true_iff, H, I.
Qed.

Definition word_end (h : Z) : Prop := identChar h = false /\ h <> 92.

Lemma stop_word_end : forall h, stop h -> word_end h.
Proof. intros h [->| ->]; split; [reflexivity|lia|reflexivity|lia]. Qed.

(* a byte at which a token can start: skipWhitespace does not move over it *)
Definition tokstart (c : Z) : bool := negb (c =? 0) && negb (c =? 92) && negb (inb c wsNoNl).

Lemma skipWhitespace_tokstart : forall c s, tokstart c = true -> skipWhitespace (c :: s) = Ok (c :: s).
Proof.
  intros c s H. unfold tokstart in H. apply andb_true_iff in H. destruct H as [H H3].
  apply andb_true_iff in H. destruct H as [H1 H2].
  apply negb_true_iff in H1, H2, H3. unfold skipWhitespace. cbn [skipFrom]. rewrite H1, H2, H3. reflexivity.
Qed.

Lemma tokstart_nonzero : forall c, tokstart c = true -> (c =? 0) = false.
Proof.
  intros c H. unfold tokstart in H. apply andb_true_iff in H. destruct H as [H _].
  apply andb_true_iff in H. destruct H as [H _]. apply negb_true_iff in H. exact H.
Qed.

(* the first bytes at which load without a sign can succeed: digit . t f *)
Definition numstart (c : Z) : bool := is_digit c || (c =? 46) || (c =? 116) || (c =? 102).

Lemma load_none : forall f c s, is_digit c = false -> c <> 46 ->
  is_prefix str_true (c :: s) = false -> is_prefix str_false (c :: s) = false ->
  load (S f) false (c :: s) = Ok None.
Proof.
  intros f c s D N46 PT PF. cbn [load rd bind]. rewrite PT, PF.
  destruct ((c =? 43) || (c =? 45)); cbn [andb negb bind]; [reflexivity|]. unfold loadNum. cbn [rd bind].
  destruct (Z.eqb_spec c 48) as [->|_]; [discriminate D|]. cbn [bind digitsDots].
  rewrite D, (proj2 (Z.eqb_neq c 46) N46). reflexivity.
Qed.

Lemma load_none_start : forall f c s, numstart c = false -> load (S f) false (c :: s) = Ok None.
Proof.
  intros f c s H. unfold numstart in H.
  apply orb_false_iff in H. destruct H as [H Hf]. apply orb_false_iff in H. destruct H as [H Ht].
  apply orb_false_iff in H. destruct H as [Hd Hdot].
  apply load_none; auto; [apply Z.eqb_neq; auto|..]; unfold str_true, str_false; cbn [is_prefix];
    rewrite Z.eqb_sym; [rewrite Ht|rewrite Hf]; reflexivity.
Qed.

Lemma digitsDots_dots : forall n d r, is_digit d = false -> (d =? 46) = false ->
  digitsDots (repeat 46 n ++ d :: r) false = Ok (d :: r, false).
Proof.
  induction n; intros d r Hd H46; cbn [repeat app digitsDots].
  - rewrite Hd, H46. reflexivity.
  - change (is_digit 46) with false. cbn [Z.eqb Pos.eqb]. apply IHn; auto.
Qed.

Lemma load_none_dots : forall f n d r, is_digit d = false -> (d =? 46) = false ->
  load (S f) false (repeat 46 (S n) ++ d :: r) = Ok None.
Proof.
  intros f n d r Hd H46. cbn [repeat app load rd bind]. unfold str_true, str_false. cbn [is_prefix Z.eqb Pos.eqb andb orb negb bind].
  unfold loadNum. cbn [rd bind Z.eqb Pos.eqb].
  change (46 :: repeat 46 n ++ d :: r) with (repeat 46 (S n) ++ d :: r).
  rewrite digitsDots_dots; auto.
Qed.

Lemma identChar_lc : forall x, identChar x = true -> lc x.
Proof. intros x H. split; intros ->; discriminate H. Qed.

Lemma skipFrom_ident : forall r h t, forallb identChar r = true -> word_end h ->
  skipFrom identChar (r ++ h :: t) = Ok (h :: t).
Proof.
  intros r h t F [Hh H92]. induction r as [|x r IH]; cbn [app skipFrom].
  - rewrite Hh, (proj2 (Z.eqb_neq h 92) H92). destruct (h =? 0); reflexivity.
  - cbn [forallb] in F. apply andb_true_iff in F. destruct F as [Fx F]. rewrite Fx.
    destruct (identChar_lc x Fx) as [X0 X92].
    rewrite (proj2 (Z.eqb_neq x 0) X0), (proj2 (Z.eqb_neq x 92) X92). auto.
Qed.

Lemma skipTo_raw : forall q raw tail, q <> 0 -> q <> 92 -> raw_ok q raw = true ->
  skipTo [q; 10] (raw ++ q :: tail) = Ok (q :: tail).
Proof.
  intros q raw tail Q0 Q92.
  assert (G : forall n raw, (length raw <= n)%nat -> raw_ok q raw = true ->
            skipTo [q; 10] (raw ++ q :: tail) = Ok (q :: tail)).
  { assert (B : skipTo [q; 10] ([] ++ q :: tail) = Ok (q :: tail)).
    { cbn [app skipTo inb existsb]. rewrite (proj2 (Z.eqb_neq q 0) Q0), (proj2 (Z.eqb_neq q 92) Q92), Z.eqb_refl. reflexivity. }
    induction n; intros [|c r1] L R; simpl in L; try lia; try exact B.
    cbn [raw_ok] in R. cbn [app skipTo].
    destruct (c =? 92) eqn:E92.
    - destruct r1 as [|c1 r2]; [discriminate|]. apply andb_true_iff in R. destruct R as [R1 R2].
      apply negb_true_iff in R1. apply Z.eqb_eq in E92. subst c. cbn [Z.eqb app]. rewrite R1.
      apply IHn; auto. simpl in L. lia.
    - apply andb_true_iff in R. destruct R as [R R4]. apply andb_true_iff in R. destruct R as [R R3].
      apply andb_true_iff in R. destruct R as [R1 R2]. apply negb_true_iff in R1, R2, R3.
      rewrite R1. cbn [inb existsb]. rewrite R2, R3. cbn [orb]. apply IHn; auto. lia. }
  intros R. apply (G (length raw)); auto.
Qed.

Lemma blockComment_body : forall r rest, ends_at_first_star_slash r = true ->
  Forall lc r ->
  blockComment (r ++ rest) = Ok rest.
Proof.
  induction r as [|c r1 IH]; intros rest E F; [discriminate|].
  inversion F as [|? ? [C0 C92] F1]; subst. cbn [ends_at_first_star_slash] in E. cbn [app blockComment].
  apply Z.eqb_neq in C0, C92. rewrite C0, C92.
  destruct (c =? 42) eqn:E42.
  - destruct r1 as [|c1 r2]; [discriminate|]. cbn [app]. destruct (c1 =? 47) eqn:E47.
    + destruct r2; [reflexivity|discriminate].
    + apply IH; auto.
  - apply IH; auto.
Qed.

Lemma escape_fixed_spec : forall b q v, escape_from fixed b q v = spec_escape q v.
Proof.
  intros b q v. revert b. induction v as [|c r IH]; intro b; cbn [escape_from spec_escape]; auto.
  rewrite IH. destruct (c =? q); cbn [fx_esc0 fixed negb andb app]; [|reflexivity].
  rewrite andb_false_r. reflexivity.
Qed.

Lemma spec_escape_hd : forall q r, q <> 92 ->
  match spec_escape q r with c1 :: _ => c1 =? q | [] => false end = false.
Proof.
  intros q r Hq. destruct r as [|c r]; cbn [spec_escape]; auto.
  destruct (c =? q) eqn:E; [apply Z.eqb_neq; lia|auto].
Qed.

Lemma unescape_spec_escape : forall q v, q <> 92 -> unescape q (spec_escape q v) = v.
Proof.
  intros q v Hq. induction v as [|c r IH]; cbn [spec_escape unescape]; auto.
  destruct (c =? q) eqn:E.
  - apply Z.eqb_eq in E. subst c. assert (q =? 92 = false) by (apply Z.eqb_neq; auto).
    cbn [unescape]. rewrite !Z.eqb_refl. rewrite H. cbn [andb]. rewrite IH. reflexivity.
  - cbn [unescape]. rewrite (spec_escape_hd q r Hq). rewrite andb_false_r. rewrite IH. reflexivity.
Qed.

Lemma prefix_of_longer : forall a b s, is_prefix a s = true -> is_prefix b s = true ->
  (length a <= length b)%nat -> is_prefix a b = true.
Proof.
  induction a as [|x a IH]; intros [|y b] [|c s] P Q L; simpl in *; try discriminate; try lia; auto.
  apply andb_true_iff in P. destruct P as [P1 P2]. apply andb_true_iff in Q. destruct Q as [Q1 Q2].
  apply Z.eqb_eq in P1, Q1. subst. rewrite Z.eqb_refl, (IH b s); auto. lia.
Qed.

Lemma prefix_same_len : forall a b s, is_prefix a s = true -> is_prefix b s = true -> length a = length b -> a = b.
Proof.
  induction a as [|x a IH]; destruct b as [|y b]; intros s P Q L; simpl in *; try discriminate; auto.
  destruct s as [|c s]; [discriminate|].
  apply andb_true_iff in P. destruct P as [P1 P2]. apply andb_true_iff in Q. destruct Q as [Q1 Q2].
  apply Z.eqb_eq in P1, Q1. subst. f_equal. eapply IH; eauto.
Qed.

Lemma sym_inj : forall ops a b, NoDup (map op_sym ops) -> In a ops -> In b ops -> op_sym a = op_sym b -> a = b.
Proof.
  induction ops as [|x ops IH]; intros a b ND Ia Ib E; [destruct Ia|]. inversion ND as [|? ? NI ND']; subst.
  destruct Ia as [->|Ia], Ib as [->|Ib]; auto; exfalso; apply NI; [rewrite E|rewrite <- E]; apply in_map; auto.
Qed.

Lemma getLongest_exact : forall ops o s,
  In o ops -> NoDup (map op_sym ops) -> is_prefix (op_sym o) s = true ->
  (forall o', In o' ops -> is_prefix (op_sym o') s = true -> (length (op_sym o') <= length (op_sym o))%nat) ->
  getLongest ops s = Some o.
Proof.
  intros ops o s I ND P MAX. unfold getLongest. destruct (longest_op ops s None) as [o'|] eqn:E.
  - destruct (longest_op_some _ _ _ _ E) as [P' [X|I']]; [intros b X; discriminate X|discriminate X|].
    destruct (longest_op_max _ _ _ _ E) as [_ M].
    f_equal. apply (sym_inj ops); auto. apply (prefix_same_len _ _ s); auto.
    apply Nat.le_antisymm; auto.
  - destruct (longest_op_none _ _ _ E) as [_ F]. rewrite (F o I) in P. discriminate P.
Qed.

Lemma is_prefix_len : forall p s, is_prefix p s = true -> (length p <= length s)%nat.
Proof.
  induction p as [|a p IH]; intros s H; simpl; [lia|]. destruct s; [discriminate|].
  simpl in H. apply andb_true_iff in H. destruct H. simpl. apply IH in H0. lia.
Qed.

Lemma is_prefix_nth : forall p s, is_prefix p s = true -> forall x, In x p -> In x (firstn (length p) s).
Proof.
  induction p as [|a p IH]; intros s H x Hx; [destruct Hx|]. destruct s as [|b s]; [discriminate|].
  simpl in H. apply andb_true_iff in H. destruct H as [E H]. apply Z.eqb_eq in E. subst b.
  simpl. destruct Hx as [->|Hx]; auto.
Qed.

Lemma is_prefix_app_tail : forall m p h t, is_prefix m (p ++ h :: t) = true -> ~ In h m -> is_prefix m p = true.
Proof.
  induction m as [|x m IH]; intros p h t P NI; [reflexivity|].
  destruct p as [|a p]; cbn [app is_prefix] in *.
  - apply andb_true_iff in P. destruct P as [E _]. apply Z.eqb_eq in E. subst. exfalso. apply NI. left; auto.
  - apply andb_true_iff in P. destruct P as [E P]. rewrite E. cbn [andb]. eapply IH; eauto. intro X. apply NI. right; auto.
Qed.

Lemma getLongest_sym : forall ops o h t,
  In o ops -> NoDup (map op_sym ops) ->
  (forall o', In o' ops -> ~ In h (op_sym o')) ->
  getLongest ops (op_sym o ++ h :: t) = Some o.
Proof.
  intros ops o h t I ND NH. apply getLongest_exact; auto using is_prefix_app.
  intros o' I' P'. apply is_prefix_len, (is_prefix_app_tail _ _ h t P'), NH, I'.
Qed.

Lemma ot_eqb_eq : forall a b, ot_eqb a b = true -> a = b.
Proof.
  intros [a1 a2] [b1 b2] H. unfold ot_eqb in H. cbn [fst snd] in H.
  apply andb_true_iff in H. destruct H as [A B]. apply Z.eqb_eq in A, B. subst. reflexivity.
Qed.

Lemma oper_eqb_refl : forall o, oper_eqb o o = true.
Proof. intro o. unfold oper_eqb, ot_eqb. rewrite !list_eqb_refl, !Z.eqb_refl. reflexivity. Qed.

Lemma oper_eqb_eq : forall a b, oper_eqb a b = true -> a = b.
Proof.
  intros a b E. unfold oper_eqb in E. repeat (apply andb_true_iff in E; destruct E as [E ?]).
  apply list_eqb_eq in E, H. apply Z.eqb_eq in H0, H1. apply ot_eqb_eq in H2.
  destruct a, b. simpl in *. subst. reflexivity.
Qed.

Lemma sym_charcode : forall ops o c r, In o ops -> op_sym o = c :: r -> identStart c = false ->
  inb c (operatorCharcodes ops) = true.
Proof.
  intros ops o c r I ES IS. unfold operatorCharcodes, inb. apply existsb_exists. exists c. split; [|apply Z.eqb_refl].
  apply in_flat_map. exists o. split; auto. rewrite ES, IS. left; auto.
Qed.

Definition sym_free (ops : list oper) (h : Z) : bool :=
  forallb (fun o => negb (inb h (op_sym o))) ops.

Fixpoint nodupb (l : list (list Z)) : bool :=
  match l with
  | [] => true
  | x :: r => negb (existsb (list_eqb x) r) && nodupb r
  end.

Lemma nodupb_NoDup : forall l, nodupb l = true -> NoDup l.
Proof.
  induction l as [|x r IH]; intro H; constructor; simpl in H; apply andb_true_iff in H; destruct H as [H1 H2]; auto.
  intro I. apply negb_true_iff in H1. assert (existsb (list_eqb x) r = true).
  { apply existsb_exists. exists x. split; auto. apply list_eqb_refl. }
  congruence.
Qed.

Lemma sym_free_in : forall ops h, sym_free ops h = true -> forall o, In o ops -> ~ In h (op_sym o).
Proof.
  intros ops h H o I. unfold sym_free in H. rewrite forallb_forall in H. specialize (H o I).
  apply inb_false, negb_true_iff, H.
Qed.

(* after the leading dots of a symbol (member access, ellipsis) no digit follows: `.5` would be a number *)
Fixpoint after_dots_ok (s : list Z) : bool :=
  match s with
  | [] => true
  | c :: r => if c =? 46 then after_dots_ok r else negb (is_digit c)
  end.
Fixpoint span_ident (r : list Z) : list Z * list Z :=
  match r with
  | [] => ([], [])
  | x :: r' => if identChar x then (x :: fst (span_ident r'), snd (span_ident r')) else ([], r)
  end.

Lemma span_ident_spec : forall r, r = fst (span_ident r) ++ snd (span_ident r) /\
  forallb identChar (fst (span_ident r)) = true /\
  match snd (span_ident r) with [] => True | x :: _ => identChar x = false end.
Proof.
  induction r as [|x r IH]; cbn [span_ident]; [repeat split; auto|].
  destruct (identChar x) eqn:E; cbn [fst snd app forallb].
  - destruct IH as (A & B & C). rewrite E, B. repeat split; auto. f_equal; auto.
  - repeat split; auto.
Qed.

(* shape of one operator: a word (sizeof, new, ...) or a symbol that cannot start a number.
   A word operator is a word that is itself in the table, possibly followed by more symbol bytes
   (sizeof...): the identifier scan finds the word, getLongest the whole symbol *)
Definition op_shape (ops : list oper) (o : oper) : bool :=
  match op_sym o with
  | [] => false
  | c :: r =>
    if identStart c
    then has_op ops (c :: fst (span_ident r))
         && match snd (span_ident r) with [] => true | x :: _ => negb (x =? 92) end
         && negb (is_prefix str_true (op_sym o)) && negb (is_prefix str_false (op_sym o))
    else tokstart c && negb (is_digit c) && after_dots_ok (op_sym o) && negb (c =? 116) && negb (c =? 102)
  end.

Definition rt_table_ok (ops : list oper) : bool :=
  table_ok ops && nodupb (map op_sym ops) && sym_free ops 0 && sym_free ops 32
  && forallb (op_shape ops) ops
  && negb (inb 10 (operatorCharcodes ops)) && negb (inb 34 (operatorCharcodes ops)) && negb (inb 39 (operatorCharcodes ops))
  && negb (has_op ops [117; 56]) && negb (has_op ops [117]) && negb (has_op ops [85]) && negb (has_op ops [76])
  (* the only symbol that starts with slash star is the block comment opener *)
  && forallb (fun o => if is_prefix [47; 42] (op_sym o)
                       then list_eqb (op_sym o) [47; 42] && ot_eqb (op_type o) ot_blockCommentStart
                       else true) ops
  && existsb (fun o => list_eqb (op_sym o) [47; 42]) ops
  (* and the only one that starts with slash slash is the line comment opener *)
  && forallb (fun o => if is_prefix [47; 47] (op_sym o)
                       then list_eqb (op_sym o) [47; 47] && ot_eqb (op_type o) ot_lineComment
                       else true) ops
  && existsb (fun o => list_eqb (op_sym o) [47; 47]) ops.

(* sym is stored with type ty, and no other stored symbol begins with it: rt_table_ok's last four conjuncts say this
   of the two comment openers *)
Definition sole_opener (ops : list oper) (sym : list Z) (ty : optype) : bool :=
  forallb (fun o => if is_prefix sym (op_sym o) then list_eqb (op_sym o) sym && ot_eqb (op_type o) ty else true) ops
  && existsb (fun o => list_eqb (op_sym o) sym) ops.


Lemma op_shape_word : forall ops o c r, op_shape ops o = true -> op_sym o = c :: r -> identStart c = true ->
  has_op ops (c :: fst (span_ident r)) = true /\
  match snd (span_ident r) with [] => true | x :: _ => negb (x =? 92) end = true /\
  is_prefix str_true (c :: r) = false /\ is_prefix str_false (c :: r) = false.
Proof.
  intros ops o c r SH ES IS. unfold op_shape in SH. rewrite ES, IS in SH.
  apply andb_prop in SH. destruct SH as [SH NF]. apply andb_prop in SH. destruct SH as [SH NT].
  apply andb_prop in SH. destruct SH as [HO TL]. apply negb_true_iff in NT, NF. auto.
Qed.

Lemma op_shape_symbol : forall ops o c r, op_shape ops o = true -> op_sym o = c :: r -> identStart c = false ->
  tokstart c = true /\ is_digit c = false /\ after_dots_ok (c :: r) = true /\ (c =? 116) = false /\ (c =? 102) = false.
Proof.
  intros ops o c r SH ES IS. unfold op_shape in SH. rewrite ES, IS in SH.
  apply andb_prop in SH. destruct SH as [SH N102]. apply andb_prop in SH. destruct SH as [SH N116].
  apply andb_prop in SH. destruct SH as [SH AD]. apply andb_prop in SH. destruct SH as [TS ND].
  apply negb_true_iff in ND, N116, N102. auto.
Qed.

Lemma spec_unknown_inv : forall ops c, spec_unknown ops c = true ->
  (c =? 0) = false /\ (c =? 92) = false /\ inb c wsAll = false /\ identStart c = false /\ is_digit c = false /\
  inb c (operatorCharcodes ops) = false /\ (c =? 34) = false /\ (c =? 39) = false /\ (c =? 46) = false.
Proof.
  intros ops c SU. unfold spec_unknown in SU. repeat (apply andb_prop in SU; destruct SU as [SU ?]).
  repeat split; apply negb_true_iff; assumption.
Qed.

(* the `match` of getToken as a function of the kind peek reports *)
Definition dispatch (fx : fixes) (ops : list oper) (ty : pk) (s : list Z) : res (option token * list Z) :=
  match ty with
  | KIdent => c <- rd s ;; if negb (identStart c) then Ok (None, s)
                           else g <- getIdentifier s ;; Ok (Some (TIdent (fst g)), snd g)
  | KPrim => p <- load (length s) true s ;;
             match p with
             | None => Ok (None, s)
             | Some s1 => let txt := str_between s s1 in _ <- countSkippedLines txt s1 ;; Ok (Some (TPrim txt), s1)
             end
  | KOp => getOperatorToken ops s
  | KNewline => Ok (Some TNewline, tl s)
  | KChar enc => getCharToken fx enc s
  | KString enc => getStringToken fx enc s
  | KNone => c <- rd s ;; Ok (Some (TUnknown c), tl s)
  end.

Lemma getToken_at : forall fx ops c s, tokstart c = true ->
  getToken fx ops (c :: s) = r <- peek fx ops (c :: s) ;; dispatch fx ops (fst r) (snd r).
Proof.
  intros fx ops c s TS. unfold getToken. cbn [rd bind]. rewrite skipWhitespace_tokstart; auto. cbn [rd bind].
  rewrite (tokstart_nonzero c TS). destruct (peek fx ops (c :: s)) as [[ty s1]| |]; reflexivity.
Qed.

Lemma getIdentifier_word : forall c w h t, identStart c = true -> forallb identChar w = true -> word_end h ->
  getIdentifier (c :: w ++ h :: t) = Ok (c :: w, h :: t).
Proof.
  intros c w h t IS IC WE. unfold getIdentifier. cbn [rd bind tl]. rewrite IS. cbn [negb].
  rewrite skipFrom_ident; auto. cbn [bind]. change (c :: w ++ h :: t) with ((c :: w) ++ h :: t).
  rewrite str_between_app. reflexivity.
Qed.

(* fx_prefix: peekForIdentifier looks only at the byte after the word *)
Lemma peekForIdentifier_word : forall ops c w h t, forallb identChar w = true -> word_end h ->
  peekForIdentifier fixed ops (c :: w ++ h :: t) =
  if has_op ops (c :: w) then Ok KOp
  else if h =? 34 then Ok (let e := getStringEncoding (c :: w) in if e =? 0 then KIdent else KString e)
  else if h =? 39 then Ok (let e := getCharacterEncoding (c :: w) in if e =? 0 then KIdent else KChar e)
  else Ok KIdent.
Proof.
  intros ops c w h t IC WE. unfold peekForIdentifier. cbn [tl]. rewrite skipFrom_ident; auto.
  cbn [bind fx_prefix fixed rd]. change (c :: w ++ h :: t) with ((c :: w) ++ h :: t). rewrite str_between_app.
  destruct (has_op ops (c :: w)); [reflexivity|]. destruct (h =? 34); [reflexivity|]. destruct (h =? 39); reflexivity.
Qed.

Lemma identStart_tokstart : forall c, identStart c = true -> tokstart c = true.
Proof.
  intros c H. unfold identStart, is_lower, is_upper in H. unfold tokstart.
  destruct (c =? 0) eqn:A; [apply Z.eqb_eq in A; subst; discriminate|].
  destruct (c =? 92) eqn:B; [apply Z.eqb_eq in B; subst; discriminate|].
  destruct (inb c wsNoNl) eqn:C; auto. unfold inb, wsNoNl in C. cbn [existsb] in C.
  repeat (apply orb_true_iff in C; destruct C as [C|C]; [apply Z.eqb_eq in C; subst; discriminate|]).
  discriminate.
Qed.

Lemma identStart_nonnum : forall c, identStart c = true -> is_digit c = false /\ c <> 46.
Proof.
  intros c IS. split; [|intros ->; discriminate IS].
  unfold identStart, is_lower, is_upper in IS. unfold is_digit.
  destruct ((48 <=? c) && (c <=? 57)) eqn:D; auto.
  apply andb_true_iff in D. destruct D as [D1 D2]. apply Z.leb_le in D1, D2.
  repeat (apply orb_true_iff in IS; destruct IS as [IS|IS]);
    try (apply andb_true_iff in IS; destruct IS as [H1 H2]; apply Z.leb_le in H1, H2; lia).
  apply Z.eqb_eq in IS. lia.
Qed.

Lemma identStart_numstart : forall c, identStart c = true -> c <> 116 -> c <> 102 -> numstart c = false.
Proof.
  intros c H A B. unfold numstart. destruct (identStart_nonnum c H) as [D N].
  rewrite D, (proj2 (Z.eqb_neq c 46) N), (proj2 (Z.eqb_neq c 116) A), (proj2 (Z.eqb_neq c 102) B). reflexivity.
Qed.

(* a keyword (true, false) in front of more identifier bytes: load stops inside the word *)
Lemma keyword_inside : forall kw v h t, is_prefix kw (v ++ h :: t) = true -> ~ In h kw ->
  list_eqb v kw = false -> forallb identChar v = true ->
  exists c' pos', skipn (length kw) (v ++ h :: t) = c' :: pos' /\ identChar c' = true.
Proof.
  induction kw as [|k kw IH]; intros [|x v] h t P NI NE IC; cbn [app is_prefix list_eqb forallb skipn length] in *;
    try discriminate.
  - apply andb_true_iff in IC. destruct IC as [IC _]. eauto.
  - apply andb_true_iff in P. destruct P as [P _]. apply Z.eqb_eq in P. exfalso. apply NI. left. exact P.
  - apply andb_true_iff in P. destruct P as [P1 P]. apply andb_true_iff in IC. destruct IC as [_ IC].
    apply (IH v h t); auto; [intro X; apply NI; right; exact X|].
    apply Z.eqb_eq in P1. subst x. rewrite Z.eqb_refl in NE. exact NE.
Qed.

(* a result of load(false) that does not make shallowPeek answer KPrim: none, or a literal that runs into an
   identifier byte (true1, with the repair of C12-4) *)
Definition not_number (p : option (list Z)) : Prop :=
  p = None \/ exists c' pos', p = Some (c' :: pos') /\ identChar c' = true.

Lemma load_word : forall f v rest,
  (exists c r, v = c :: r /\ identStart c = true /\ forallb identChar r = true) ->
  list_eqb v str_true = false -> list_eqb v str_false = false ->
  blank_or_end rest ->
  exists p, load (S f) false (v ++ rest) = Ok p /\
            not_number p.
Proof.
  intros f v rest (c & r & -> & IS & IC) NT NF B.
  destruct (boe_inv rest B) as (h & t & -> & Hh). unfold stop in Hh.
  assert (ICv : forallb identChar (c :: r) = true) by (cbn [forallb]; rewrite IC; unfold identChar; rewrite IS; reflexivity).
  assert (NIt : ~ In h str_true) by (cbn [In str_true]; lia).
  assert (NIf : ~ In h str_false) by (cbn [In str_false]; lia).
  cbn [app].
  destruct (is_prefix str_true (c :: r ++ h :: t)) eqn:PT.
  { destruct (keyword_inside str_true (c :: r) h t PT NIt NT ICv) as (c' & pos' & E & K).
    exists (Some (c' :: pos')). split; [|right; eauto]. cbn [load rd bind]. rewrite PT. f_equal. f_equal. exact E. }
  destruct (is_prefix str_false (c :: r ++ h :: t)) eqn:PF.
  { destruct (keyword_inside str_false (c :: r) h t PF NIf NF ICv) as (c' & pos' & E & K).
    exists (Some (c' :: pos')). split; [|right; eauto]. cbn [load rd bind]. rewrite PT, PF. f_equal. f_equal. exact E. }
  exists None. split; [|left; reflexivity]. destruct (identStart_nonnum c IS). apply load_none; auto.
Qed.

Lemma after_dots_split : forall s, after_dots_ok s = true ->
  exists n sym_rest, s = repeat 46 n ++ sym_rest /\ match sym_rest with [] => True | d :: _ => is_digit d = false /\ (d =? 46) = false end.
Proof.
  induction s as [|c r IH]; intro H.
  - exists O, []. split; auto.
  - cbn [after_dots_ok] in H. destruct (c =? 46) eqn:E.
    + apply Z.eqb_eq in E. subst c. destruct (IH H) as (n & t & -> & P). exists (S n), t. split; auto.
    + exists O, (c :: r). split; auto. split; auto. apply negb_true_iff; auto.
Qed.

Lemma getUdf_spec : forall u rest, spec_udf u = true -> blank_or_end rest -> getUdf (u ++ rest) = Ok (u, rest).
Proof.
  intros u rest SU B. unfold getUdf. destruct u as [|c r].
  - destruct (boe_inv rest B) as (h & t & -> & [->| ->]); reflexivity.
  - cbn [spec_udf] in SU. apply andb_true_iff in SU. destruct SU as [S1 S2]. apply Z.eqb_eq in S1. subst c.
    destruct (boe_inv rest B) as (h & t & -> & Hs).
    cbn [app rd bind Z.eqb Pos.eqb]. apply getIdentifier_word; auto using stop_word_end.
Qed.

Lemma getString_body : forall e v tail, Z.land e encR = 0 -> spec_litvalue 34 v = true ->
  getString fixed e (34 :: spec_escape 34 v ++ 34 :: tail) = Ok (Some v, tail).
Proof.
  intros e v tail EV LV. unfold getString. rewrite EV. cbn [Z.eqb negb rd bind tl].
  unfold spec_litvalue in LV.
  rewrite (skipTo_raw 34 _ tail) by (auto; lia). cbn [bind rd fx_nul fixed Z.eqb Pos.eqb negb tl].
  change (spec_escape 34 v ++ 34 :: tail) with (spec_escape 34 v ++ (34 :: tail)). rewrite str_between_app.
  rewrite unescape_spec_escape; [reflexivity|lia].
Qed.

Definition prefix_of (e : Z) : list Z := spec_prefix e.

Lemma land_even : forall e, existsb (Z.eqb e) [0; 2; 4; 8; 16] = true -> Z.land e encR = 0.
Proof.
  intros e H. cbn [existsb] in H.
  repeat (apply orb_true_iff in H; destruct H as [H|H]; [apply Z.eqb_eq in H; subst; reflexivity|]).
  discriminate.
Qed.

(* pre is the spelling of encoding e in front of a string (str) or char literal: nothing for 0, else one of
   u8 u U L, which getEncodingType reads back as e *)
Definition enc_prefix (str : bool) (e : Z) (pre : list Z) : Prop :=
  e = 0 /\ pre = [] \/
  e <> 0 /\ In pre [[117; 56]; [117]; [85]; [76]] /\
  (if str then getStringEncoding pre else getCharacterEncoding pre) = e.

Lemma prefix_cases : forall (str : bool) e,
  existsb (Z.eqb e) (if str then [0; 2; 4; 8; 16] else [0; 4; 8; 16]) = true ->
  enc_prefix str e (printEncoding str e).
Proof.
  unfold enc_prefix. intros [] e H; cbn [existsb] in H;
    repeat (apply orb_true_iff in H; destruct H as [H|H]; [apply Z.eqb_eq in H; subst e|]); try discriminate;
    (left; split; reflexivity) || (right; repeat split; [lia|cbn; auto 6]).
Qed.

(* getCharToken from the byte after the opening quote on *)
Lemma getChar_body : forall e v u rest, spec_litvalue 39 v = true -> spec_udf u = true -> blank_or_end rest ->
  (s3 <- skipTo [39; 10] (spec_escape 39 v ++ 39 :: u ++ rest) ;;
   c3 <- rd s3 ;;
   if (if fx_nul fixed then negb (c3 =? 39) else c3 =? 10) then Ok (None, spec_escape 39 v ++ 39 :: u ++ rest)
   else let v' := unescape 39 (str_between (spec_escape 39 v ++ 39 :: u ++ rest) s3) in
        g <- getUdf (tl s3) ;; Ok (Some (TChar e v' (fst g)), snd g)) = Ok (Some (TChar e v u), rest).
Proof.
  intros e v u rest LV SU B. unfold spec_litvalue in LV.
  rewrite (skipTo_raw 39 _ (u ++ rest)) by (auto; lia).
  cbn [bind rd fx_nul fixed Z.eqb Pos.eqb negb tl].
  change (spec_escape 39 v ++ 39 :: u ++ rest) with (spec_escape 39 v ++ (39 :: u ++ rest)). rewrite str_between_app.
  rewrite unescape_spec_escape; [|lia]. rewrite (getUdf_spec u rest SU B). reflexivity.
Qed.

(* For any operator table: at a token start that primitive::load does not take for a number, getToken goes by shallowPeek's
   classification of the first byte. *)
Section AnyTable.
Variable ops : list oper.

Definition lex_from (c : Z) (s : list Z) : res (option token * list Z) :=
  match classify ops c with
  | KIdent => k <- peekForIdentifier fixed ops (c :: s) ;; dispatch fixed ops k (c :: s)
  | KOp => dispatch fixed ops (peekForOperator ops (c :: s)) (c :: s)
  | k => dispatch fixed ops k (c :: s)
  end.

Lemma getToken_classify : forall c s p, tokstart c = true ->
  load (length (c :: s)) false (c :: s) = Ok p ->
  not_number p ->
  getToken fixed ops (c :: s) = lex_from c s.
Proof.
  intros c s p TS EL HP. rewrite getToken_at; auto. unfold peek. rewrite shallowPeek_eq, skipWhitespace_tokstart; auto.
  cbn [bind rd]. rewrite (tokstart_nonzero c TS), EL. cbn [bind].
  assert (IP : match p with
               | None => Ok false
               | Some pos => c' <- rd pos ;; Ok (negb (if fx_trueid fixed then identChar c' else identStart c'))
               end = Ok false).
  { destruct HP as [->|(c' & pos' & -> & IC)]; [reflexivity|]. cbn [rd bind fx_trueid fixed]. rewrite IC. reflexivity. }
  rewrite IP. cbn [bind]. unfold lex_from. destruct (classify ops c); cbn [bind fst snd]; try reflexivity.
  destruct (peekForIdentifier fixed ops (c :: s)); reflexivity.
Qed.

Lemma getToken_nonnum : forall c s, tokstart c = true -> numstart c = false ->
  getToken fixed ops (c :: s) = lex_from c s.
Proof.
  intros c s TS NS. apply (getToken_classify c s None); [exact TS|apply load_none_start; exact NS|left; reflexivity].
Qed.

Theorem lex_ident : forall v rest, spec_ident ops v = true -> blank_or_end rest ->
  getToken fixed ops (v ++ rest) = Ok (Some (TIdent v), rest).
Proof.
  intros v rest SI B. unfold spec_ident in SI. destruct v as [|c r]; [discriminate|].
  apply andb_prop in SI. destruct SI as [SI NF]. apply andb_prop in SI. destruct SI as [SI NT].
  apply andb_prop in SI. destruct SI as [SI NOP]. apply andb_prop in SI. destruct SI as [SI IC].
  apply negb_true_iff in NOP, NT, NF.
  destruct (load_word (length (r ++ rest)) (c :: r) rest) as (p & EL & HP); eauto.
  cbn [app] in *. rewrite (getToken_classify c (r ++ rest) p (identStart_tokstart c SI) EL HP).
  unfold lex_from, classify. rewrite SI.
  destruct (boe_inv rest B) as (h & t & -> & Hs).
  rewrite peekForIdentifier_word, NOP; auto using stop_word_end.
  replace (h =? 34) with false by (destruct Hs; subst; reflexivity).
  replace (h =? 39) with false by (destruct Hs; subst; reflexivity).
  cbn [bind dispatch rd]. rewrite SI. cbn [negb]. rewrite getIdentifier_word; auto using stop_word_end.
Qed.

Theorem lex_unknown : forall c rest, spec_unknown ops c = true -> blank_or_end rest ->
  getToken fixed ops (c :: rest) = Ok (Some (TUnknown c), rest).
Proof.
  intros c rest SU B. destruct (spec_unknown_inv ops c SU) as (N0 & N92 & WS & IS & ND & OC & N34 & N39 & N46).
  (* the blank classes: wsNoNl is wsAll without the newline *)
  assert (N10 : (c =? 10) = false) by (destruct (Z.eqb_spec c 10) as [->|]; [discriminate WS|reflexivity]).
  assert (TS : tokstart c = true).
  { unfold tokstart. rewrite N0, N92. unfold inb, wsAll, wsNoNl in *. cbn [existsb negb andb] in *.
    repeat (apply orb_false_iff in WS; destruct WS as [? WS]). apply negb_true_iff.
    repeat (apply orb_false_iff; split; auto). }
  assert (NS : numstart c = false).
  { unfold numstart. rewrite ND, N46.
    destruct (Z.eqb_spec c 116) as [->|_]; [discriminate IS|]. destruct (Z.eqb_spec c 102) as [->|_]; [discriminate IS|].
    reflexivity. }
  rewrite getToken_nonnum; auto. unfold lex_from, classify. rewrite IS, OC, N10, N34, N39. reflexivity.
Qed.

End AnyTable.

(* Numeric literals: primitive::load does not look beyond the first byte after the literal, except after a sign (where it
   skips white space): if load consumes all of p when p is followed by the NUL, it consumes exactly p when
   p is followed by a blank.  The lemmas named `_two` say that a loop run on `a ++ [0]` and on `a ++ h :: t` (h the NUL
   or a blank) stops at the same place. *)

Lemma app_unit_nil : forall (u : list Z) x, u ++ [x] = [x] -> u = [].
Proof. intros [|a u] x H; auto. destruct u; discriminate. Qed.

Lemma eqb_len_app : forall (u a t : list Z), (length (u ++ t) =? length (a ++ t))%nat = (length u =? length a)%nat.
Proof.
  intros. rewrite !app_length. destruct (length u =? length a)%nat eqn:E.
  - apply Nat.eqb_eq in E. apply Nat.eqb_eq. lia.
  - apply Nat.eqb_neq in E. apply Nat.eqb_neq. lia.
Qed.

Lemma while_two : forall (P : Z -> bool) (f : list Z -> res (list Z)),
  (forall c s, f (c :: s) = if P c then f s else Ok (c :: s)) -> P 0 = false ->
  forall a h t, P h = false ->
  exists u, sfx u a /\ f (a ++ [0]) = Ok (u ++ [0]) /\ f (a ++ h :: t) = Ok (u ++ h :: t).
Proof.
  intros P f Hf P0 a h t Ph. induction a as [|c a IH]; cbn [app]; rewrite !Hf.
  - rewrite P0, Ph. exists []. auto using sfx_refl.
  - destruct (P c); [|exists (c :: a); auto using sfx_refl].
    destruct IH as (u & S & E1 & E2). exists u. auto using sfx_cons.
Qed.

Lemma radix_digits_two : forall C dg a h t, radix_digits C = Some dg -> stop h ->
  exists u, sfx u a /\ dg (a ++ [0]) = Ok (u ++ [0]) /\ dg (a ++ h :: t) = Ok (u ++ h :: t).
Proof.
  unfold radix_digits. intros C dg a h t E Hs. destruct (C =? 66).
  - injection E as <-. apply (while_two (fun c => (c =? 48) || (c =? 49))); auto. destruct Hs; subst; reflexivity.
  - destruct (C =? 88); [|discriminate]. injection E as <-.
    apply (while_two is_hex); auto. destruct Hs; subst; reflexivity.
Qed.

Lemma digitsDots_two : forall a seen h t, stop h ->
  exists u b, sfx u a /\ digitsDots (a ++ [0]) seen = Ok (u ++ [0], b) /\
              digitsDots (a ++ h :: t) seen = Ok (u ++ h :: t, b).
Proof.
  induction a as [|c a IH]; intros seen h t Hs.
  - exists [], seen. repeat split; auto using sfx_refl. cbn [app digitsDots]. destruct Hs; subst; reflexivity.
  - cbn [app digitsDots]. destruct (is_digit c).
    + destruct (IH true h t Hs) as (u & b & S & E1 & E2). exists u, b. auto using sfx_cons.
    + destruct (c =? 46).
      * destruct (IH seen h t Hs) as (u & b & S & E1 & E2). exists u, b. auto using sfx_cons.
      * exists (c :: a), seen. auto using sfx_refl.
Qed.

Lemma lexSkipWs_two : forall a h t,
  exists q, sfx q a /\ lexSkipWs (a ++ [0]) = Ok (q ++ [0]) /\
            (q <> [] -> lexSkipWs (a ++ h :: t) = Ok (q ++ h :: t)).
Proof.
  induction a as [|c a IH]; intros h t.
  - exists []. repeat split; auto using sfx_refl. intro X; contradiction.
  - cbn [app lexSkipWs]. destruct (c =? 0).
    + exists (c :: a). repeat split; auto using sfx_refl.
    + destruct (inb c wsAll).
      * destruct (IH h t) as (q & S & E1 & E2). exists q. auto using sfx_cons.
      * exists (c :: a). repeat split; auto using sfx_refl.
Qed.

Lemma is_prefix_two : forall m p h t, (forall x, In x m -> x <> 0 /\ x <> h) ->
  is_prefix m (p ++ [0]) = is_prefix m (p ++ h :: t).
Proof.
  induction m as [|x m IH]; intros p h t H; [reflexivity|].
  destruct p as [|c p]; cbn [app is_prefix].
  - destruct (H x (or_introl eq_refl)) as [A B]. apply Z.eqb_neq in A, B. rewrite A, B. reflexivity.
  - rewrite (IH p h t); auto. intros y Hy. apply H. right; auto.
Qed.

Lemma sfx_nonz : forall u a, sfx u a -> nonz a -> nonz u.
Proof. intros u a [p ->] N. apply Forall_app in N. tauto. Qed.

Lemma load_nul_not_some : forall f b x, load f b [0] = Ok (Some x) -> False.
Proof.
  intros [|f] b x H; [discriminate|]. cbn in H. discriminate.
Qed.

Lemma load_stop_none : forall f b h t, stop h -> load (S f) b (h :: t) = Ok None.
Proof. intros f b h t [->| ->]; reflexivity. Qed.

(* what the `_two` lemmas ask of the recursive call: ld before the NUL and ld' before the stop byte h agree where
   ld consumes everything, and where it refuses the NUL *)
Definition agrees (ld ld' : list Z -> res (option (list Z))) (h : Z) (t : list Z) : Prop :=
  (forall p, nonz p -> ld (p ++ [0]) = Ok (Some [0]) -> ld' (p ++ h :: t) = Ok (Some (h :: t))) /\
  (ld [0] = Ok None -> ld' (h :: t) = Ok None).

Lemma suffixLoop_two : forall ld ld' fmt h t, stop h ->
  agrees ld ld' h t ->
  forall u, nonz u ->
    suffixLoop ld fmt (u ++ [0]) = Ok [0] -> suffixLoop ld' fmt (u ++ h :: t) = Ok (h :: t).
Proof.
  intros ld ld' fmt h t Hs [Hld H0]. induction u as [|c u IH]; intros N E.
  - cbn [app suffixLoop]. destruct Hs as [->| ->]; [reflexivity|].
    cbn. destruct fmt; reflexivity.
  - inversion N as [|? ? C0 N']; subst. cbn [app suffixLoop] in *. apply Z.eqb_neq in C0. rewrite C0 in *.
    destruct (upper c =? 76); [apply IH; auto|].
    destruct (upper c =? 85); [apply IH; auto|].
    destruct fmt; [exfalso; inversion E; destruct u; discriminate|].
    destruct (upper c =? 69).
    + destruct (ld (u ++ [0])) as [[s2|]| |] eqn:El; cbn [bind] in E; try discriminate; inversion E; subst.
      * rewrite (Hld u); auto.
      * apply app_unit_nil in H1. subst u. cbn [app] in *. rewrite H0; auto.
    + destruct (upper c =? 70); [apply IH; auto|].
      exfalso. inversion E. destruct u; discriminate.
Qed.

Lemma loadNum_two : forall ld ld' h t, stop h ->
  agrees ld ld' h t ->
  forall q, nonz q ->
    loadNum ld (q ++ [0]) = Ok (Some [0]) -> loadNum ld' (q ++ h :: t) = Ok (Some (h :: t)).
Proof.
  intros ld ld' h t Hs A q N E.
  destruct q as [|c1 q']; [rewrite loadNum_eq in E; discriminate E|]. inversion N as [|? ? C10 N']; subst.
  rewrite loadNum_eq in *. cbn [app rd bind] in *.
  assert (SUF : forall fmt u a, sfx u a -> nonz a ->
            (s5 <- suffixLoop ld fmt (u ++ [0]) ;; Ok (Some s5)) = Ok (Some [0]) ->
            (s5 <- suffixLoop ld' fmt (u ++ h :: t) ;; Ok (Some s5)) = Ok (Some (h :: t))).
  { intros fmt u a Su Na Ea.
    destruct (suffixLoop ld fmt (u ++ [0])) as [s5| |] eqn:E5; cbn [bind] in Ea; try discriminate.
    injection Ea as ->. rewrite (suffixLoop_two ld ld' fmt h t Hs A u); auto.
    eapply sfx_nonz; eauto. }
  assert (UNF : forall a, nonz a ->
            unformatted ld (a ++ [0]) = Ok (Some [0]) -> unformatted ld' (a ++ h :: t) = Ok (Some (h :: t))).
  { intros a Na Ea. unfold unformatted in *. destruct (digitsDots_two a false h t Hs) as (u & b & Su & E1 & E2).
    rewrite E1 in Ea. rewrite E2. cbn [bind snd fst] in *. destruct b; cbn [negb] in *; [|discriminate].
    apply (SUF false u a); auto. }
  destruct (c1 =? 48) eqn:E48; [|apply (UNF (c1 :: q')); auto].
  apply Z.eqb_eq in E48. subst c1. unfold rd1 in *. cbn [tl] in *.
  destruct q' as [|c2 q2].
  - (* "0" alone: neither stop byte is a radix letter *)
    cbn [app rd bind] in *. replace (radix_digits (upper h)) with (@None (list Z -> res (list Z))) by (destruct Hs; subst; reflexivity).
    apply (UNF [48]); auto.
  - inversion N' as [|? ? C20 N2]; subst. cbn [app rd bind tl] in *.
    destruct (radix_digits (upper c2)) as [dg|] eqn:ER; [|apply (UNF (48 :: c2 :: q2)); auto].
    pose proof (radix_digits_two _ _ q2 h t ER Hs) as TWO.
    destruct TWO as (u & Su & E1 & E2). rewrite E1 in E. rewrite E2. cbn [bind] in *.
    rewrite eqb_len_app in *. destruct (length u =? length q2)%nat; [discriminate|].
    apply (SUF true u q2); auto.
Qed.

(* The run before the blank repeats the recursion of the run before the NUL, so as much fuel suffices. *)
Lemma load_two : forall f f' b p h t, stop h -> nonz p -> (f <= f')%nat ->
  load f b (p ++ [0]) = Ok (Some [0]) -> load f' b (p ++ h :: t) = Ok (Some (h :: t)).
Proof.
  induction f as [|f IH]; intros f' b p h t Hs N L E; [discriminate|].
  destruct f' as [|f']; [lia|].
  destruct p as [|c p']; [destruct (load_nul_not_some _ _ _ E)|]. inversion N as [|? ? C0 N']; subst.
  assert (HT : forall x, In x str_true -> x <> 0 /\ x <> h).
  { intros x Hx. unfold str_true in Hx. cbn [In] in Hx. destruct Hs; subst; intuition lia. }
  assert (HF : forall x, In x str_false -> x <> 0 /\ x <> h).
  { intros x Hx. unfold str_false in Hx. cbn [In] in Hx. destruct Hs; subst; intuition lia. }
  cbn [load] in *. change (rd ((c :: p') ++ [0])) with (Ok c) in E. change (rd ((c :: p') ++ h :: t)) with (Ok c).
  cbn [bind] in *.
  rewrite <- (is_prefix_two str_true (c :: p') h t HT). rewrite <- (is_prefix_two str_false (c :: p') h t HF).
  (* true / false: the keyword is the whole of p *)
  assert (KW : forall pp kw, is_prefix kw (pp ++ [0]) = true -> skipn (length kw) (pp ++ [0]) = [0] ->
            skipn (length kw) (pp ++ h :: t) = h :: t).
  { intros pp kw P E'. pose proof (is_prefix_split _ _ P) as SP. rewrite E' in SP.
    apply app_inv_tail in SP. subst pp. apply skipn_length_app. }
  destruct (is_prefix str_true ((c :: p') ++ [0])) eqn:PT.
  { injection E as E'. f_equal. f_equal. exact (KW (c :: p') str_true PT E'). }
  destruct (is_prefix str_false ((c :: p') ++ [0])) eqn:PF.
  { injection E as E'. f_equal. f_equal. exact (KW (c :: p') str_false PF E'). }
  assert (LN : forall q, nonz q ->
            loadNum (load f true) (q ++ [0]) = Ok (Some [0]) ->
            loadNum (load f' true) (q ++ h :: t) = Ok (Some (h :: t))).
  { apply loadNum_two; auto. split.
    - intros p0 N0 E0. apply (IH f' true p0 h t); auto. lia.
    - intros E0. destruct f; [discriminate|]. destruct f'; [lia|]. apply load_stop_none; auto. }
  destruct ((c =? 43) || (c =? 45)) eqn:SG; cbn [andb] in *.
  - destruct (negb b); [discriminate|]. cbn [app tl] in *.
    destruct (lexSkipWs_two p' h t) as (q & Sq & E1 & E2). rewrite E1 in E. cbn [bind] in E.
    destruct q as [|x q'].
    + exfalso. cbn [app] in E. unfold loadNum in E. cbn in E. discriminate.
    + rewrite E2; [|discriminate]. cbn [bind]. apply LN; auto. eapply sfx_nonz; eauto.
  - cbn [bind] in *. apply LN; auto.
Qed.

Lemma numstart_tokstart : forall c, numstart c = true -> tokstart c = true.
Proof.
  intros c H. unfold numstart, is_digit in H. unfold tokstart, inb, wsNoNl. cbn [existsb].
  assert (c = 46 \/ c = 116 \/ c = 102 \/ (48 <= c <= 57)).
  { repeat (apply orb_true_iff in H; destruct H as [H|H]); try (apply Z.eqb_eq in H; auto).
    apply andb_true_iff in H. destruct H as [A B]. apply Z.leb_le in A, B. auto. }
  assert (G : forall k, c <> k -> (c =? k) = false) by (intros; apply Z.eqb_neq; auto).
  rewrite !G by lia. reflexivity.
Qed.

Theorem lex_prim : forall ops v rest, spec_prim v = true -> blank_or_end rest ->
  getToken fixed ops (v ++ rest) = Ok (Some (TPrim v), rest).
Proof.
  intros ops v rest SP B. unfold spec_prim in SP. apply andb_true_iff in SP. destruct SP as [NZ SP].
  destruct v as [|c r]; [discriminate|]. apply andb_true_iff in SP. destruct SP as [NS SP].
  apply negb_true_iff in NS.
  destruct (load (length (c :: r) + 1) true ((c :: r) ++ [0])) as [[x|]| |] eqn:EL; try discriminate.
  apply list_eqb_eq in SP. subst x.
  pose proof (nonzero_Forall _ NZ) as N.
  destruct (boe_inv rest B) as (h & t & -> & Hh).
  assert (L2 : load (length ((c :: r) ++ h :: t)) true ((c :: r) ++ h :: t) = Ok (Some (h :: t))).
  { apply (load_two (length (c :: r) + 1) _ true (c :: r) h t Hh N); auto.
    rewrite app_length. simpl. lia. }
  assert (L2f : load (length ((c :: r) ++ h :: t)) false ((c :: r) ++ h :: t) = Ok (Some (h :: t))).
  { rewrite <- load_sign_irrelevant; [exact L2|exact NS]. }
  assert (NSt : numstart c = true).
  { destruct (numstart c) eqn:X; auto. exfalso.
    cbn [app length] in L2f. rewrite (load_none_start _ c (r ++ h :: t) X) in L2f. discriminate. }
  pose proof (numstart_tokstart c NSt) as TS.
  cbn [app] in *. rewrite getToken_at; auto. unfold peek. rewrite shallowPeek_eq, skipWhitespace_tokstart; auto.
  cbn [bind rd]. rewrite (tokstart_nonzero c TS), L2f. cbn [bind rd fx_trueid fixed].
  replace (identChar h) with false by (destruct Hh; subst; reflexivity). cbn [negb bind fst snd dispatch].
  rewrite L2. cbn [bind].
  change (c :: r ++ h :: t) with ((c :: r) ++ h :: t). rewrite str_between_app.
  (* the literal holds no backslash, so countSkippedLines reads nothing *)
  assert (Np : Forall lc (c :: r)).
  { assert (LL : (length ((c :: r) ++ [0%Z]) <= length (c :: r) + 1)%nat) by (rewrite app_length; simpl; lia).
    destruct (load_ok _ true _ (wf_app _ N) LL) as [X|(p & s' & E & _ & F & X & _)]; cbn [app] in X; [congruence|].
    rewrite EL in X. injection X as <-. apply app_inv_tail in E. subst p. exact F. }
  rewrite (countSkippedLines_lc (c :: r) (h :: t) Np). reflexivity.
Qed.


Section Roundtrip.
Variable ops : list oper.
Hypothesis Hrt : rt_table_ok ops = true.

Lemma rt_split :
  table_ok ops = true /\ nodupb (map op_sym ops) = true /\ sym_free ops 0 = true /\ sym_free ops 32 = true
  /\ forallb (op_shape ops) ops = true
  /\ inb 10 (operatorCharcodes ops) = false /\ inb 34 (operatorCharcodes ops) = false /\ inb 39 (operatorCharcodes ops) = false
  /\ has_op ops [117; 56] = false /\ has_op ops [117] = false /\ has_op ops [85] = false /\ has_op ops [76] = false
  /\ forallb (fun o => if is_prefix [47; 42] (op_sym o)
                       then list_eqb (op_sym o) [47; 42] && ot_eqb (op_type o) ot_blockCommentStart
                       else true) ops = true
  /\ existsb (fun o => list_eqb (op_sym o) [47; 42]) ops = true
  /\ forallb (fun o => if is_prefix [47; 47] (op_sym o)
                       then list_eqb (op_sym o) [47; 47] && ot_eqb (op_type o) ot_lineComment
                       else true) ops = true
  /\ existsb (fun o => list_eqb (op_sym o) [47; 47]) ops = true.
Proof.
  pose proof Hrt as H. unfold rt_table_ok in H. repeat (apply andb_prop in H; destruct H as [H ?]).
  repeat split; try assumption; apply negb_true_iff; assumption.
Qed.

Lemma rt_table : table_ok ops = true. Proof. apply rt_split. Qed.

Lemma rt_nodup : NoDup (map op_sym ops).
Proof. apply nodupb_NoDup. apply rt_split. Qed.

Lemma rt_shape : forall o, In o ops -> op_shape ops o = true.
Proof. destruct rt_split as (_ & _ & _ & _ & H & _). rewrite forallb_forall in H. auto. Qed.

Lemma rt_chars : inb 10 (operatorCharcodes ops) = false /\ inb 34 (operatorCharcodes ops) = false /\ inb 39 (operatorCharcodes ops) = false.
Proof. destruct rt_split as (_ & _ & _ & _ & _ & A & B & C & _). auto. Qed.

Lemma rt_prefixes : has_op ops [117; 56] = false /\ has_op ops [117] = false /\ has_op ops [85] = false /\ has_op ops [76] = false.
Proof. destruct rt_split as (_ & _ & _ & _ & _ & _ & _ & _ & A & B & C & D & _). auto. Qed.


Lemma stop_free : forall h, stop h -> forall o, In o ops -> ~ In h (op_sym o).
Proof. destruct rt_split as (_ & _ & F0 & F32 & _). intros h [->| ->]; apply sym_free_in; assumption. Qed.

Lemma rt_openers :
  sole_opener ops [47; 42] ot_blockCommentStart = true /\ sole_opener ops [47; 47] ot_lineComment = true.
Proof.
  destruct rt_split as (_ & _ & _ & _ & _ & _ & _ & _ & _ & _ & _ & _ & B1 & B0 & L1 & L0).
  unfold sole_opener. rewrite B1, B0, L1, L0. auto.
Qed.

Lemma opener_longest : forall sym ty s, sole_opener ops sym ty = true -> is_prefix sym s = true ->
  exists o, In o ops /\ getLongest ops s = Some o /\ op_sym o = sym /\ ot_eqb (op_type o) ty = true.
Proof.
  intros sym ty s HS P. apply andb_prop in HS. destruct HS as [HA HE]. apply existsb_exists in HE. destruct HE as (o & I & E). apply list_eqb_eq in E.
  rewrite forallb_forall in HA. pose proof (HA o I) as T.
  rewrite E, (prefix_of_longer sym sym s P P (le_n _)), list_eqb_refl in T. cbn [andb] in T.
  exists o. repeat split; auto. apply getLongest_exact; auto using rt_nodup; [rewrite E; exact P|].
  intros o' I' P'. destruct (le_lt_dec (length (op_sym o')) (length (op_sym o))) as [|LT]; auto.
  specialize (HA o' I'). rewrite (prefix_of_longer sym (op_sym o') s P P') in HA by (rewrite <- E; lia).
  apply andb_true_iff in HA. destruct HA as [X _]. apply list_eqb_eq in X. rewrite X, E. lia.
Qed.

Lemma in_ops_of_eqb : forall o, existsb (oper_eqb o) ops = true -> In o ops.
Proof.
  intros o H. apply existsb_exists in H. destruct H as (o' & I & E). apply oper_eqb_eq in E. subst. exact I.
Qed.

Theorem lex_op : forall o rest, spec_op ops o = true -> blank_or_end rest ->
  getToken fixed ops (op_sym o ++ rest) = Ok (Some (TOp o), rest).
Proof.
  intros o rest SO B. unfold spec_op in SO. apply andb_true_iff in SO. destruct SO as [IO NC].
  apply in_ops_of_eqb in IO. apply negb_true_iff in NC.
  pose proof (rt_shape o IO) as SH.
  destruct (boe_inv rest B) as (h & t & -> & Hs). pose proof (stop_word_end h Hs) as WE.
  set (rest := h :: t).
  assert (GL : getLongest ops (op_sym o ++ rest) = Some o) by (apply getLongest_sym; auto using rt_nodup, stop_free).
  assert (GOT : getOperatorToken ops (op_sym o ++ rest) = Ok (Some (TOp o), rest)).
  { unfold getOperatorToken. rewrite GL. rewrite NC. cbn [andb].
    rewrite skipn_length_app. reflexivity. }
  destruct (op_sym o) as [|c r] eqn:ES; [unfold op_shape in SH; rewrite ES in SH; discriminate|]. cbn [app] in *.
  destruct (identStart c) eqn:IS.
  - (* a word operator: found through peekForIdentifier *)
    destruct (op_shape_word ops o c r SH ES IS) as (HO & TL & NT & NF).
    destruct (span_ident_spec r) as (SR & SW & ST).
    remember (fst (span_ident r)) as w eqn:Hw. remember (snd (span_ident r)) as sym_rest eqn:Htl.
    assert (NH : forall m, (forall x, In x m -> x <> 0 /\ x <> 32) -> is_prefix m (c :: r) = false ->
                 is_prefix m (c :: r ++ rest) = false).
    { intros m Hm Pm. destruct (is_prefix m (c :: r ++ rest)) eqn:X; auto.
      apply (is_prefix_app_tail m (c :: r)) in X; [congruence|].
      intro I. destruct (Hm h I). destruct Hs; contradiction. }
    rewrite (getToken_classify ops c (r ++ rest) None (identStart_tokstart c IS)); [| |left; reflexivity].
    2:{ destruct (identStart_nonnum c IS). apply load_none; auto; apply NH; auto;
        intros x Hx; cbn [In str_true str_false] in Hx; lia. }
    unfold lex_from, classify. rewrite IS.
    assert (STOP : exists h' t', sym_rest ++ rest = h' :: t' /\ word_end h').
    { destruct sym_rest as [|x sr']; [exists h, t; auto|].
      exists x, (sr' ++ rest). repeat split; auto. apply negb_true_iff, Z.eqb_neq in TL. auto. }
    destruct STOP as (h' & t' & EH & WE').
    assert (ER : r ++ rest = w ++ h' :: t') by (rewrite SR at 1; rewrite <- app_assoc, EH; reflexivity).
    rewrite ER at 1. rewrite peekForIdentifier_word, HO; auto.
  - destruct (op_shape_symbol ops o c r SH ES IS) as (TS & ND & AD & N116 & N102).
    assert (EL : load (length (c :: r ++ rest)) false (c :: r ++ rest) = Ok None).
    { cbn [length]. destruct (c =? 46) eqn:E46.
      - destruct (after_dots_split (c :: r) AD) as (n & sym_rest & E & P).
        destruct n as [|n]; [cbn [repeat app] in E; subst sym_rest; destruct P as [_ P]; congruence|].
        destruct sym_rest as [|d sr'].
        + change (c :: r ++ rest) with ((c :: r) ++ rest). rewrite E. rewrite app_nil_r. subst rest.
          apply load_none_dots; destruct Hs; subst; reflexivity.
        + destruct P as [P1 P2].
          change (c :: r ++ rest) with ((c :: r) ++ rest). rewrite E. rewrite <- app_assoc. cbn [app].
          apply load_none_dots; auto.
      - apply load_none_start. unfold numstart. rewrite ND, E46, N116, N102. reflexivity. }
    rewrite (getToken_classify ops c (r ++ rest) None TS EL (or_introl eq_refl)). unfold lex_from, classify. rewrite IS.
    rewrite (sym_charcode ops o c r IO ES IS). unfold peekForOperator. rewrite GL. exact GOT.
Qed.

(* a literal, with or without its encoding prefix: getToken goes to the literal's getter, which steps over
   the prefix as over an identifier *)
Lemma literal_head : forall e pre q X, (q = 34 \/ q = 39) -> enc_prefix (q =? 34) e pre ->
  getToken fixed ops (pre ++ q :: X) = dispatch fixed ops (if q =? 34 then KString e else KChar e) (pre ++ q :: X)
  /\ (if e =? 0 then Ok (pre ++ q :: X) else r <- getIdentifier (pre ++ q :: X) ;; Ok (snd r)) = Ok (q :: X).
Proof.
  intros e pre q X Hq [[-> ->]|(NE & Hp & GE)].
  - split; [|reflexivity]. cbn [app]. rewrite getToken_nonnum by (destruct Hq; subst; reflexivity).
    unfold lex_from, classify. destruct rt_chars as (_ & C34 & C39).
    destruct Hq; subst q; [change (identStart 34) with false; rewrite C34|change (identStart 39) with false; rewrite C39];
      reflexivity.
  - assert (PS : exists c r, pre = c :: r /\ identStart c = true /\ forallb identChar r = true /\ numstart c = false
                             /\ has_op ops pre = false).
    { destruct rt_prefixes as (P1 & P2 & P3 & P4).
      cbn [In] in Hp. repeat (destruct Hp as [Hp|Hp]; [subst pre; eexists _, _; repeat split; auto|]). destruct Hp. }
    destruct PS as (c & r & -> & IS & IC & NS & HO).
    assert (WE : word_end q) by (destruct Hq; subst; split; [reflexivity|lia|reflexivity|lia]).
    cbn [app]. split.
    + rewrite getToken_nonnum; auto using identStart_tokstart. unfold lex_from, classify. rewrite IS.
      rewrite peekForIdentifier_word, HO; auto.
      destruct Hq; subst q; cbn [Z.eqb Pos.eqb] in *; cbv zeta; rewrite GE, (proj2 (Z.eqb_neq e 0) NE); reflexivity.
    + rewrite (proj2 (Z.eqb_neq e 0) NE), getIdentifier_word; auto.
Qed.

Theorem lex_string : forall e v u rest,
  existsb (Z.eqb e) [0; 2; 4; 8; 16] = true -> spec_litvalue 34 v = true -> spec_udf u = true ->
  blank_or_end rest ->
  getToken fixed ops (printToken fixed (TString e v u) ++ rest) = Ok (Some (TString e v u), rest).
Proof.
  intros e v u rest HE LV SU B. pose proof (land_even e HE) as EV.
  cbn [printToken]. unfold escape. rewrite escape_fixed_spec.
  pose proof (prefix_cases true e HE) as HD.
  repeat rewrite <- app_assoc. cbn [app].
  destruct (literal_head e _ 34 (spec_escape 34 v ++ 34 :: u ++ rest) (or_introl eq_refl) HD) as [GT SKP].
  rewrite GT. cbn [Z.eqb Pos.eqb dispatch]. unfold getStringToken. rewrite SKP. cbn [bind rd Z.eqb Pos.eqb negb].
  rewrite getString_body; auto. cbn [bind]. rewrite (getUdf_spec u rest SU B). reflexivity.
Qed.

Theorem lex_char : forall e v u rest,
  existsb (Z.eqb e) [0; 4; 8; 16] = true -> spec_litvalue 39 v = true -> spec_udf u = true ->
  blank_or_end rest ->
  getToken fixed ops (printToken fixed (TChar e v u) ++ rest) = Ok (Some (TChar e v u), rest).
Proof.
  intros e v u rest HE LV SU B.
  cbn [printToken]. unfold escape. rewrite escape_fixed_spec.
  pose proof (prefix_cases false e HE) as HD.
  repeat rewrite <- app_assoc. cbn [app].
  destruct (literal_head e _ 39 (spec_escape 39 v ++ 39 :: u ++ rest) (or_intror eq_refl) HD) as [GT SKP].
  rewrite GT. cbn [Z.eqb Pos.eqb dispatch]. unfold getCharToken. rewrite SKP. cbn [bind rd Z.eqb Pos.eqb negb tl].
  exact (getChar_body e v u rest LV SU B).
Qed.

Lemma getToken_comment : forall a X, (a = 42 \/ a = 47) ->
  getToken fixed ops (47 :: a :: X) =
  (s1 <- (if a =? 47 then skipTo [10] (47 :: a :: X) else blockComment (47 :: a :: X)) ;;
   Ok (Some (TComment (str_between (47 :: a :: X) s1)), s1)).
Proof.
  intros a X Ha.
  destruct rt_openers as [OB OL].
  assert (O : exists o, In o ops /\ getLongest ops (47 :: a :: X) = Some o /\ op_sym o = [47; a] /\
                        op_type o = (if a =? 47 then ot_lineComment else ot_blockCommentStart)).
  { destruct Ha; subst a.
    - destruct (opener_longest [47; 42] ot_blockCommentStart (47 :: 42 :: X) OB eq_refl) as (o & I & GL & ES & TY).
      apply ot_eqb_eq in TY. eauto 6.
    - destruct (opener_longest [47; 47] ot_lineComment (47 :: 47 :: X) OL eq_refl) as (o & I & GL & ES & TY).
      apply ot_eqb_eq in TY. eauto 6. }
  destruct O as (o & I & GL & ES & TY).
  rewrite getToken_nonnum by reflexivity. unfold lex_from, classify. change (identStart 47) with false. cbv iota.
  rewrite (sym_charcode ops o 47 [a] I ES eq_refl). unfold peekForOperator. rewrite GL. cbn [dispatch]. unfold getOperatorToken. rewrite GL, TY.
  destruct Ha; subst a; reflexivity.
Qed.

Theorem lex_comment : forall v rest, spec_block_comment v = true -> guard (TComment v) = true ->
  blank_or_end rest ->
  getToken fixed ops (v ++ rest) = Ok (Some (TComment v), rest).
Proof.
  intros v rest SC G B. unfold spec_block_comment in SC. destruct v as [|c0 [|c1 r]]; try discriminate.
  apply andb_prop in SC. destruct SC as [SC EN]. apply andb_prop in SC. destruct SC as [SC NZ].
  apply andb_prop in SC. destruct SC as [E47 E42]. apply Z.eqb_eq in E47, E42. subst c0 c1.
  cbn [guard] in G. apply andb_true_iff in G. destruct G as [G1 G2]. apply negb_true_iff in G1, G2.
  assert (F : Forall lc r).
  { apply Forall_forall. intros x Hx. split.
    - exact (proj1 (Forall_forall _ _) (nonzero_Forall _ NZ) x (or_intror (or_intror Hx))).
    - intros ->. apply (inb_false _ _ G1). right. right. exact Hx. }
  cbn [app]. rewrite (getToken_comment 42 (r ++ rest) (or_introl eq_refl)). cbn [Z.eqb Pos.eqb].
  (* the scan: slash, star (not followed by slash), then the body *)
  assert (BC : blockComment (47 :: 42 :: r ++ rest) = Ok rest).
  { cbn [blockComment Z.eqb Pos.eqb]. destruct r as [|x r']; [discriminate|]. cbn [app].
    rewrite G2. apply (blockComment_body (x :: r') rest); auto. }
  rewrite BC. cbn [bind]. change (47 :: 42 :: r ++ rest) with ((47 :: 42 :: r) ++ rest). rewrite str_between_app. reflexivity.
Qed.

Theorem lex_newline : forall rest, getToken fixed ops (10 :: rest) = Ok (Some TNewline, rest).
Proof.
  intros rest. rewrite getToken_nonnum by reflexivity. unfold lex_from, classify.
  destruct rt_chars as (C10 & _). change (identStart 10) with false. cbv iota. rewrite C10. reflexivity.
Qed.

Lemma string_enc_guard : forall e, spec_string_enc e = true -> is_raw e = false ->
  existsb (Z.eqb e) [0; 2; 4; 8; 16] = true.
Proof.
  intros e H R. unfold spec_string_enc in H. cbn [existsb] in H.
  repeat (apply orb_true_iff in H; destruct H as [H|H]; [apply Z.eqb_eq in H; subst e; try reflexivity; discriminate|]).
  discriminate.
Qed.

Theorem lex_good : forall t rest, good ops t = true -> guard t = true -> blank_or_end rest ->
  getToken fixed ops (printToken fixed t ++ rest) = Ok (Some t, rest).
Proof.
  intros t rest G Gd B. destruct t; cbn [good guard] in *.
  - apply lex_ident; auto.
  - apply lex_prim; auto.
  - apply lex_op; auto.
  - cbn [printToken app]. apply lex_newline; auto.
  - apply andb_true_iff in G. destruct G as [G G3]. apply andb_true_iff in G. destruct G as [G1 G2].
    apply lex_char; auto.
  - apply andb_true_iff in G. destruct G as [G G3]. apply andb_true_iff in G. destruct G as [G1 G2].
    apply negb_true_iff in Gd. rewrite Gd in G2. apply lex_string; auto. apply string_enc_guard; auto.
  - apply lex_comment; auto.
  - cbn [printToken app]. apply lex_unknown; auto.
Qed.

(* at the NUL getToken returns no token *)
Lemma print_first : forall t, good ops t = true -> guard t = true ->
  exists c r, printToken fixed t = c :: r /\ c <> 0.
Proof.
  intros t G Gd. pose proof (lex_good t [0] G Gd (or_introl eq_refl)) as L.
  destruct (printToken fixed t) as [|c r]; [discriminate L|]. exists c, r. split; auto.
  intros ->. discriminate L.
Qed.

(* the separator is eaten by getToken's own leading skipWhitespace, before peek *)
Lemma getToken_blank : forall c X, c <> 0 -> getToken fixed ops (32 :: c :: X) = getToken fixed ops (c :: X).
Proof.
  intros c X C0. unfold getToken. cbn [rd bind]. apply Z.eqb_neq in C0. rewrite C0. cbn [Z.eqb].
  reflexivity.
Qed.

Lemma tokenizeLoop_blank : forall f c X acc, c <> 0 ->
  tokenizeLoop fixed ops f (32 :: c :: X) acc = tokenizeLoop fixed ops f (c :: X) acc.
Proof.
  intros [|f] c X acc C0; [reflexivity|]. cbn [tokenizeLoop rd bind]. rewrite getToken_blank; auto.
  apply Z.eqb_neq in C0. rewrite C0. reflexivity.
Qed.

Definition goodg (t : token) : Prop := good ops t = true /\ guard t = true.

(* Fuel: every turn of the loop consumes at least the first byte of a token. *)
Lemma tokenizeLoop_seq : forall ts fuel acc, Forall goodg ts -> (length (printSeq fixed ts ++ [0%Z]) <= fuel)%nat ->
  tokenizeLoop fixed ops fuel (printSeq fixed ts ++ [0]) acc = Ok (rev acc ++ ts).
Proof.
  induction ts as [|t ts IH]; intros fuel acc F L.
  - destruct fuel; [simpl in L; lia|]. cbn. rewrite app_nil_r. reflexivity.
  - inversion F as [|? ? [G Gd] F']; subst. destruct (print_first t G Gd) as (c & r & EP & C0).
    assert (STEP : forall rest f, blank_or_end rest ->
              tokenizeLoop fixed ops (S f) (printToken fixed t ++ rest) acc = tokenizeLoop fixed ops f rest (t :: acc)).
    { intros rest f B. cbn [tokenizeLoop]. rewrite (lex_good t rest G Gd B), EP. cbn [app rd bind fst snd].
      rewrite (proj2 (Z.eqb_neq c 0) C0). reflexivity. }
    destruct ts as [|t2 ts2].
    + cbn [printSeq] in *. rewrite EP, app_length in L. destruct fuel as [|[|f]]; try (simpl in L; lia).
      rewrite STEP by (left; reflexivity). reflexivity.
    + replace (printSeq fixed (t :: t2 :: ts2) ++ [0])
        with (printToken fixed t ++ 32 :: (printSeq fixed (t2 :: ts2) ++ [0])) in *
        by (cbn [printSeq]; rewrite <- !app_assoc; reflexivity).
      rewrite app_length, EP in L. destruct fuel as [|f]; [simpl in L; lia|].
      rewrite STEP by (right; eauto).
      inversion F' as [|? ? [G2 Gd2] F'']; subst. destruct (print_first t2 G2 Gd2) as (c2 & r2 & EP2 & C20).
      assert (HD : exists Y, printSeq fixed (t2 :: ts2) ++ [0] = c2 :: Y).
      { destruct ts2; cbn [printSeq]; rewrite EP2; cbn [app]; eexists; reflexivity. }
      destruct HD as (Y & HY). rewrite HY, tokenizeLoop_blank, <- HY; auto.
      rewrite IH; auto; [cbn [rev]; rewrite <- app_assoc; reflexivity|]. cbn [length] in L. lia.
Qed.

Theorem tokenize_seq : forall ts, Forall goodg ts ->
  tokenize fixed ops (printSeq fixed ts ++ [0]) = Ok ts.
Proof. intros ts F. unfold tokenize. rewrite tokenizeLoop_seq; auto. lia. Qed.

Lemma skipTo_line : forall body r, line_ok body = true -> skipTo [10] (body ++ 10 :: r) = Ok (10 :: r).
Proof.
  intros body r.
  assert (G : forall n body, (length body <= n)%nat -> line_ok body = true ->
            skipTo [10] (body ++ 10 :: r) = Ok (10 :: r)).
  { induction n; intros [|c b1] L K; simpl in L; try lia; try reflexivity.
    cbn [line_ok] in K. cbn [app skipTo].
    destruct (c =? 92) eqn:E92.
    - destruct b1 as [|c1 b2]; [discriminate|]. apply andb_true_iff in K. destruct K as [K K3].
      apply andb_true_iff in K. destruct K as [K1 K2]. apply negb_true_iff in K1.
      apply Z.eqb_eq in E92. subst c. cbn [Z.eqb app]. rewrite K1. apply IHn; auto. simpl in L. lia.
    - apply andb_true_iff in K. destruct K as [K K3]. apply andb_true_iff in K. destruct K as [K1 K2].
      apply negb_true_iff in K1, K2. rewrite K1. cbn [inb existsb]. rewrite K2. cbn [orb]. apply IHn; auto. lia. }
  apply (G (length body)). lia.
Qed.

Theorem lex_line_comment : forall body rest,
  line_ok body = true ->
  getToken fixed ops (47 :: 47 :: body ++ 10 :: rest) = Ok (Some (TComment (47 :: 47 :: body)), 10 :: rest).
Proof.
  intros body rest F.
  rewrite (getToken_comment 47 (body ++ 10 :: rest) (or_intror eq_refl)). cbn [Z.eqb Pos.eqb].
  change (47 :: 47 :: body ++ 10 :: rest) with ((47 :: 47 :: body) ++ 10 :: rest).
  rewrite skipTo_line; auto. cbn [bind]. rewrite str_between_app. reflexivity.
Qed.

End Roundtrip.
