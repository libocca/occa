(* C12: bounds safety and progress of the modelled tokenizer: the scanning loops and primitive::load.
   Invariant: every cursor is a well-formed C string (`wf`: non-zero bytes, then the NUL) that is a suffix
   of the cursor it came from.  Under it no read is out of bounds and every getToken call that starts
   before the NUL strictly shortens the remaining input (ProofsSafety2.v). *)
From Coq Require Import List ZArith Bool Lia.
From OV.C12 Require Import OpDefs Model.
Import ListNotations.
Local Open Scope Z_scope.

Inductive wf : list Z -> Prop :=
| wf_nul : wf [0]
| wf_cons : forall c s, c <> 0 -> wf s -> wf (c :: s).

(* the bytes of a C string in front of its NUL *)
Notation nonz := (Forall (fun c : Z => c <> 0)).

Lemma wf_inv_cons : forall c s, wf (c :: s) -> (c = 0 /\ s = []) \/ (c <> 0 /\ wf s).
Proof. intros c s H. inversion H; subst; auto. Qed.

Lemma wf_app : forall body, nonz body -> wf (body ++ [0]).
Proof. induction 1; simpl; constructor; auto. Qed.

Lemma wf_tail_of_nonzero : forall c s, wf (c :: s) -> c <> 0 -> wf s.
Proof. intros c s H Hc. destruct (wf_inv_cons _ _ H) as [[? ?]|[? ?]]; [contradiction|assumption]. Qed.

Lemma rd_wf : forall s, wf s -> rd s = Ok (hd 0 s).
Proof. intros s []; reflexivity. Qed.

Definition sfx (s' s : list Z) : Prop := exists p, s = p ++ s'.

Lemma sfx_refl : forall s, sfx s s.
Proof. intro s. exists []. reflexivity. Qed.
Lemma sfx_trans : forall a b c, sfx a b -> sfx b c -> sfx a c.
Proof. intros a b c [p Hp] [q Hq]. exists (q ++ p). subst. now rewrite app_assoc. Qed.
Lemma sfx_cons : forall c s' s, sfx s' s -> sfx s' (c :: s).
Proof. intros c s' s [p Hp]. exists (c :: p). subst. reflexivity. Qed.
Lemma sfx_tl : forall c s, sfx s (c :: s).
Proof. intros. exists [c]. reflexivity. Qed.
Lemma sfx_len : forall s' s, sfx s' s -> (length s' <= length s)%nat.
Proof. intros s' s [p Hp]. subst. rewrite app_length. lia. Qed.
Lemma skipn_length_app : forall (p s : list Z), skipn (length p) (p ++ s) = s.
Proof. induction p; simpl; auto. Qed.
Lemma sfx_skipn : forall n s, sfx (skipn n s) s.
Proof. intros n s. exists (firstn n s). symmetry. apply firstn_skipn. Qed.
Lemma sfx_tl_mono : forall a b, sfx a b -> a <> [] -> sfx (tl a) (tl b).
Proof.
  intros [|c a] b [[|x p] ->] N; try contradiction; cbn [app tl]; [apply sfx_refl|].
  exists (p ++ [c]). rewrite <- app_assoc. reflexivity.
Qed.
(* Progress is stated as "a suffix of the tail": inside the buffer and strictly later. *)
Lemma sfx_tl_lt : forall s' s, s <> [] -> sfx s' (tl s) -> sfx s' s /\ (length s' < length s)%nat.
Proof.
  intros s' [|c s] N S; [contradiction|]. cbn [tl] in S. split; [apply sfx_cons; exact S|].
  apply sfx_len in S. simpl. lia.
Qed.

Lemma is_prefix_split : forall p s, is_prefix p s = true -> s = p ++ skipn (length p) s.
Proof.
  induction p as [|a p IH]; intros s H; [reflexivity|].
  destruct s as [|b s]; [discriminate|]. simpl in H. apply andb_true_iff in H. destruct H as [E H].
  apply Z.eqb_eq in E. subst. simpl. f_equal. auto.
Qed.

Lemma wf_eaten : forall p s, nonz p -> wf (p ++ s) -> wf s.
Proof. induction 1; cbn [app]; intro W; auto. apply IHForall. eapply wf_tail_of_nonzero; eauto. Qed.

Lemma is_prefix_wf_skipn : forall p s, is_prefix p s = true -> nonz p -> wf s ->
  wf (skipn (length p) s) /\ sfx (skipn (length p) s) s.
Proof.
  intros p s H F W. pose proof (is_prefix_split p s H) as E. split; [|exists p; exact E].
  rewrite E in W. apply (wf_eaten p); auto.
Qed.

Lemma str_between_app : forall p s, str_between (p ++ s) s = p.
Proof.
  intros. unfold str_between. rewrite app_length.
  replace (length p + length s - length s)%nat with (length p) by lia.
  rewrite firstn_app, firstn_all. replace (length p - length p)%nat with O by lia. simpl.
  apply app_nil_r.
Qed.

(* `eats P r s`: r is a well-formed cursor of s, and the bytes stepped over all satisfy P. *)
Definition eats (P : Z -> Prop) (r : res (list Z)) (s : list Z) : Prop :=
  exists p s', s = p ++ s' /\ Forall P p /\ r = Ok s' /\ wf s'.
(* `okc` forgets the bytes (`eats_okc`): it is what the token getters need; `load` needs `eats lc` *)
Definition okc (r : res (list Z)) (s : list Z) : Prop :=
  exists s', r = Ok s' /\ wf s' /\ sfx s' s.

Lemma eats_okc : forall P r s, eats P r s -> okc r s.
Proof. intros P r s (p & s' & -> & _ & E & W). exists s'. repeat split; auto. exists p. reflexivity. Qed.

Lemma eats_here : forall P s, wf s -> eats P (Ok s) s.
Proof. intros. exists [], s. auto. Qed.

Lemma eats_cons : forall (P : Z -> Prop) r c s, P c -> eats P r s -> eats P r (c :: s).
Proof. intros P r c s Pc (p & s' & -> & F & E & W). exists (c :: p), s'. auto. Qed.

(* The scanning loops of the tokenizer have one shape: at the NUL they stop; at any other byte they stop,
   or step over it, or (the backslash rule, the star-slash of a comment) step over it and a non-NUL
   successor.  Such a loop never leaves a well-formed cursor. *)
Lemma scan_eats : forall (P : Z -> Prop) (f : list Z -> res (list Z)),
  f [0] = Ok [0] ->
  (forall c c1 s2, c <> 0 -> wf (c1 :: s2) ->
     let s := c :: c1 :: s2 in
     f s = Ok s \/
     P c /\ (f s = f (c1 :: s2) \/ c1 <> 0 /\ P c1 /\ (f s = f s2 \/ f s = Ok s2))) ->
  forall s, wf s -> eats P (f s) s.
Proof.
  intros P f H0 H1.
  assert (G : forall n s, (length s <= n)%nat -> wf s -> eats P (f s) s).
  { induction n; intros s L W; destruct W as [|c s C0 W]; simpl in L; try lia.
    - rewrite H0. apply eats_here. constructor.
    - pose proof (wf_cons _ _ C0 W) as Wc. destruct W as [|c1 s2 C1 W2].
      + destruct (H1 c 0 [] C0 wf_nul) as [E|(Pc & [E|(X & _)])]; cbv zeta in *; try congruence; rewrite E.
        * apply eats_here; auto.
        * rewrite H0. apply eats_cons, eats_here; auto using wf_nul.
      + destruct (H1 c c1 s2 C0 (wf_cons _ _ C1 W2)) as [E|(Pc & [E|(_ & Pc1 & [E|E])])];
          cbv zeta in E; rewrite E.
        * apply eats_here; auto.
        * apply eats_cons; auto. apply IHn; [lia|constructor; auto].
        * apply eats_cons, eats_cons; auto. apply IHn; [simpl in L; lia|auto].
        * apply eats_cons, eats_cons, eats_here; auto. }
  intros s. apply (G (length s)). lia.
Qed.

Lemma skipTo_ok : forall ds s, wf s -> okc (skipTo ds s) s.
Proof.
  intros ds s W. apply (eats_okc (fun _ => True)). apply scan_eats; auto.
  intros c c1 s2 C0 _. cbn [skipTo]. rewrite (proj2 (Z.eqb_neq c 0) C0).
  destruct (c =? 92); [destruct (Z.eqb_spec c1 0); auto 7|destruct (inb c ds); auto].
Qed.

Lemma skipFrom_ok : forall p s, wf s -> okc (skipFrom p s) s.
Proof.
  intros p s W. apply (eats_okc (fun _ => True)). apply scan_eats; auto.
  intros c c1 s2 C0 _. cbn [skipFrom]. rewrite (proj2 (Z.eqb_neq c 0) C0).
  destruct (c =? 92); [destruct (Z.eqb_spec c1 0); auto 7|destruct (p c); auto].
Qed.

Lemma blockComment_ok : forall s, wf s -> okc (blockComment s) s.
Proof.
  intros s W. apply (eats_okc (fun _ => True)). apply scan_eats; auto.
  intros c c1 s2 C0 _. cbn [blockComment]. rewrite (proj2 (Z.eqb_neq c 0) C0).
  destruct (c =? 92); [destruct (Z.eqb_spec c1 0); auto 7|].
  destruct (c =? 42); [|auto]. destruct (Z.eqb_spec c1 47); [|auto]. right. split; auto. right. repeat split; auto. lia.
Qed.

Lemma skipWhitespace_ok : forall s, wf s -> okc (skipWhitespace s) s.
Proof. intros. apply skipFrom_ok; auto. Qed.

Lemma skipFrom_idem : forall p s s', skipFrom p s = Ok s' -> skipFrom p s' = Ok s'.
Proof.
  intros p. assert (G : forall n s s', (length s <= n)%nat -> skipFrom p s = Ok s' -> skipFrom p s' = Ok s').
  { induction n; intros [|c s1] s' L E; simpl in L; try lia; try discriminate; cbn [skipFrom] in E.
    destruct (c =? 0) eqn:C0; [injection E as <-; cbn [skipFrom]; rewrite C0; auto|].
    destruct (c =? 92) eqn:C92.
    - destruct s1 as [|c1 s2]; [discriminate|]. destruct (c1 =? 0); apply IHn in E; auto; simpl in *; lia.
    - destruct (p c) eqn:Pc; [apply IHn in E; auto; lia|].
      injection E as <-. cbn [skipFrom]. rewrite C0, C92, Pc. auto. }
  intros s s'. apply (G (length s)). lia.
Qed.

Lemma okc_sfx : forall r s s', okc r s -> r = Ok s' -> sfx s' s.
Proof. intros r s s' (x & -> & _ & S) [= <-]. exact S. Qed.

Lemma skipTo_progress : forall ds s s', wf s -> hd 0 s <> 0 -> inb (hd 0 s) ds = false ->
  skipTo ds s = Ok s' -> sfx s' (tl s).
Proof.
  intros ds s s' W H I E. destruct W as [|c s C0 W]; [contradiction|]. cbn [hd tl] in *.
  assert (G : forall t, wf t -> skipTo ds t = Ok s' -> sfx s' t) by (intros t Wt; apply okc_sfx, skipTo_ok, Wt).
  cbn [skipTo] in E. rewrite (proj2 (Z.eqb_neq c 0) C0), I in E. destruct (c =? 92); [|auto].
  destruct W as [|c1 s2 C1 W2]; cbn [Z.eqb] in E; [apply G in E; auto using wf_nul|].
  rewrite (proj2 (Z.eqb_neq c1 0) C1) in E. apply sfx_cons, G; auto.
Qed.

Lemma blockComment_progress : forall s s', wf s -> hd 0 s <> 0 -> blockComment s = Ok s' -> sfx s' (tl s).
Proof.
  intros s s' W H E. destruct W as [|c s C0 W]; [contradiction|]. cbn [tl].
  assert (G : forall t, wf t -> blockComment t = Ok s' -> sfx s' t) by (intros t Wt; apply okc_sfx, blockComment_ok, Wt).
  cbn [blockComment] in E. rewrite (proj2 (Z.eqb_neq c 0) C0) in E.
  destruct W as [|c1 s2 C1 W2].
  - destruct (c =? 92); [|destruct (c =? 42)]; cbn [Z.eqb] in E; apply G in E; auto using wf_nul.
  - pose proof (wf_cons _ _ C1 W2) as W1. rewrite (proj2 (Z.eqb_neq c1 0) C1) in E.
    destruct (c =? 92); [apply sfx_cons, G; auto|]. destruct (c =? 42); [|auto].
    destruct (c1 =? 47); [injection E as <-; apply sfx_tl|auto].
Qed.

(* The bytes primitive::load steps over are neither the NUL nor a backslash; the second matters because
   countSkippedLines reads fp.start[1] only when the literal's text holds a backslash, so here it reads nothing. *)
Definition lc (c : Z) : Prop := c <> 0 /\ c <> 92.

Lemma is_hex_lc : forall c, is_hex c = true -> lc c.
Proof. intros c H. split; intros ->; discriminate H. Qed.

Lemma upper_lc : forall c k, (upper c =? k) = true -> k <> 0 -> k <> 92 -> lc c.
Proof.
  intros c k E K0 K92. apply Z.eqb_eq in E.
  split; intros ->; [change (upper 0) with 0 in E|change (upper 92) with 92 in E]; congruence.
Qed.

Lemma lexSkipWs_ok : forall s, wf s -> eats lc (lexSkipWs s) s.
Proof.
  apply scan_eats; auto. intros c c1 s2 C0 _. cbn [lexSkipWs]. rewrite (proj2 (Z.eqb_neq c 0) C0).
  destruct (inb c wsAll) eqn:E; auto. right. split; auto. split; [exact C0|intros ->; discriminate E].
Qed.

Lemma binDigits_ok : forall s, wf s -> eats lc (binDigits s) s.
Proof.
  apply scan_eats; auto. intros c c1 s2 C0 _. cbn [binDigits].
  destruct ((c =? 48) || (c =? 49)) eqn:E; auto. right. split; auto. split; intros ->; discriminate E.
Qed.

Lemma hexDigits_ok : forall s, wf s -> eats lc (hexDigits s) s.
Proof.
  apply scan_eats; auto. intros c c1 s2 C0 _. cbn [hexDigits].
  destruct (is_hex c) eqn:E; auto using is_hex_lc.
Qed.

Lemma digitsDots_ok : forall s seen, wf s ->
  exists p s' b, s = p ++ s' /\ Forall lc p /\ digitsDots s seen = Ok (s', b) /\ wf s' /\
                 (b = true -> seen = true \/ p <> []).
Proof.
  intros s seen W. revert seen. induction W as [|c s C0 W IH]; intro seen.
  - exists [], [0], seen. repeat split; auto. constructor.
  - cbn [digitsDots].
    assert (ST : forall b, lc c -> exists p s' b', c :: s = p ++ s' /\ Forall lc p /\ digitsDots s b = Ok (s', b') /\ wf s' /\
                             (b' = true -> seen = true \/ p <> [])).
    { intros b Lc. destruct (IH b) as (p & s' & b' & -> & F & E & W' & _). exists (c :: p), s', b'.
      repeat split; auto. right. discriminate. }
    destruct (is_digit c) eqn:D; [apply ST; split; intros ->; discriminate D|].
    destruct (c =? 46) eqn:E46; [apply ST; split; intros ->; discriminate E46|].
    exists [], (c :: s), seen. repeat split; auto. constructor; auto.
Qed.

(* result of a load-like function: none (the cursor stays), or a non-empty run of bytes was consumed *)
Definition okl (r : res (option (list Z))) (s : list Z) : Prop :=
  r = Ok None \/ exists p s', s = p ++ s' /\ p <> [] /\ Forall lc p /\ r = Ok (Some s') /\ wf s'.

Lemma suffixLoop_ok : forall ld fmt n,
  (forall s, wf s -> (length s <= n)%nat -> okl (ld s) s) ->
  forall s, wf s -> (length s <= S n)%nat -> eats lc (suffixLoop ld fmt s) s.
Proof.
  intros ld fmt n Hld s W. induction W as [|c s C0 W IH]; intro L; [apply eats_here; constructor|].
  cbn [suffixLoop]. rewrite (proj2 (Z.eqb_neq c 0) C0). simpl in L.
  assert (R : lc c -> eats lc (suffixLoop ld fmt s) (c :: s)) by (intro; apply eats_cons, IH; auto; lia).
  pose proof (wf_cons _ _ C0 W) as Wc.
  destruct (upper c =? 76) eqn:E1; [apply R, (upper_lc c 76); auto; lia|].
  destruct (upper c =? 85) eqn:E2; [apply R, (upper_lc c 85); auto; lia|].
  destruct fmt; [apply eats_here; auto|].
  destruct (upper c =? 69) eqn:E3.
  - assert (Lc : lc c) by (apply (upper_lc c 69); auto; lia).
    destruct (Hld s W) as [E|(p & s' & -> & _ & F & E & W')]; [lia| |]; rewrite E; cbn [bind].
    + apply eats_cons, eats_here; auto.
    + exists (c :: p), s'. auto.
  - destruct (upper c =? 70) eqn:E4; [apply R, (upper_lc c 70); auto; lia|]. apply eats_here; auto.
Qed.

(* loadNum with its two digit loops named: the loop of a 0b / 0x value by the upper-cased byte after the 0,
   and the unformatted path *)
Definition radix_digits (C : Z) : option (list Z -> res (list Z)) :=
  if C =? 66 then Some binDigits else if C =? 88 then Some hexDigits else None.
Definition unformatted (ld : list Z -> res (option (list Z))) (s : list Z) : res (option (list Z)) :=
  r <- digitsDots s false ;;
  if negb (snd r) then Ok None else s5 <- suffixLoop ld false (fst r) ;; Ok (Some s5).

Lemma loadNum_eq : forall ld s1, loadNum ld s1 =
  c1 <- rd s1 ;;
  if c1 =? 48 then
    c2 <- rd1 s1 ;;
    match radix_digits (upper c2) with
    | Some dg => s4 <- dg (tl (tl s1)) ;;
                 if (length s4 =? length (tl (tl s1)))%nat then Ok None
                 else s5 <- suffixLoop ld true s4 ;; Ok (Some s5)
    | None => unformatted ld s1
    end
  else unformatted ld s1.
Proof.
  intros. unfold loadNum, radix_digits. destruct (rd s1) as [c1| |]; cbn [bind]; auto.
  destruct (c1 =? 48); [|reflexivity]. destruct (rd1 s1) as [c2| |]; cbn [bind]; auto.
  destruct (upper c2 =? 66); [destruct (binDigits _); cbn [bind]; auto; destruct (_ =? _)%nat; reflexivity|].
  destruct (upper c2 =? 88); [destruct (hexDigits _); cbn [bind]; auto; destruct (_ =? _)%nat; reflexivity|reflexivity].
Qed.

Lemma radix_digits_some : forall c dg, radix_digits (upper c) = Some dg ->
  lc c /\ forall s, wf s -> eats lc (dg s) s.
Proof.
  unfold radix_digits. intros c dg. destruct (upper c =? 66) eqn:B.
  - intros [= <-]. split; [apply (upper_lc c 66); auto; lia|apply binDigits_ok].
  - destruct (upper c =? 88) eqn:X; [|discriminate].
    intros [= <-]. split; [apply (upper_lc c 88); auto; lia|apply hexDigits_ok].
Qed.

Lemma loadNum_ok : forall ld n,
  (forall s, wf s -> (length s <= n)%nat -> okl (ld s) s) ->
  forall s, wf s -> (length s <= S n)%nat -> okl (loadNum ld s) s.
Proof.
  intros ld n Hld s W L. rewrite loadNum_eq, (rd_wf s W). cbn [bind].
  assert (SUF : forall fmt p s', s = p ++ s' -> p <> [] -> Forall lc p -> wf s' ->
            okl (s5 <- suffixLoop ld fmt s' ;; Ok (Some s5)) s).
  { intros fmt p s' -> NE F W'. rewrite app_length in L.
    destruct (suffixLoop_ok ld fmt n Hld s' W') as (q & s5 & -> & Fq & -> & W5); [lia|]. right.
    exists (p ++ q), s5. rewrite app_assoc. repeat split; auto.
    - destruct p; [contradiction|discriminate].
    - apply Forall_app; auto. }
  assert (UNF : okl (unformatted ld s) s).
  { unfold unformatted. destruct (digitsDots_ok s false W) as (p & s' & b & E & F & -> & W' & B). cbn [bind snd fst].
    destruct b; cbn [negb]; [|left; reflexivity]. destruct (B eq_refl) as [|NE]; [discriminate|].
    apply (SUF false p s'); auto. }
  destruct (hd 0 s =? 48) eqn:E48; [|exact UNF]. destruct W as [|c1 s1 _ W1]; [discriminate|].
  apply Z.eqb_eq in E48. cbn [hd] in E48. subst c1. unfold rd1. cbn [tl]. rewrite (rd_wf s1 W1). cbn [bind].
  destruct (radix_digits (upper (hd 0 s1))) as [dg|] eqn:ER; [|exact UNF].
  (* 0b / 0x: the byte after the 0 is a letter, hence not the NUL *)
  destruct (radix_digits_some _ _ ER) as [Lc2 Hdg]. destruct W1 as [|c2 s2 C2 W2]; [destruct Lc2; contradiction|].
  cbn [hd tl] in *. destruct (Hdg s2 W2) as (p & s4 & -> & F & -> & W4). cbn [bind].
  destruct (length s4 =? length (p ++ s4))%nat; [left; reflexivity|].
  apply (SUF true (48 :: c2 :: p) s4); auto; [discriminate|].
  constructor; [split; lia|constructor; auto].
Qed.

Lemma load_ok : forall fuel b s, wf s -> (length s <= fuel)%nat -> okl (load fuel b s) s.
Proof.
  induction fuel; intros b s W L; [destruct W; simpl in L; lia|].
  cbn [load]. rewrite (rd_wf s W). cbn [bind].
  assert (KW : forall kw, Forall lc kw -> kw <> [] -> is_prefix kw s = true -> okl (Ok (Some (skipn (length kw) s))) s).
  { intros kw F NE P. right. exists kw, (skipn (length kw) s). repeat split; auto using is_prefix_split.
    apply is_prefix_wf_skipn; auto. eapply Forall_impl; [|exact F]. intros a [A _]; exact A. }
  destruct (is_prefix str_true s) eqn:ET; [apply (KW str_true); auto; [repeat constructor; lia|discriminate]|].
  destruct (is_prefix str_false s) eqn:EF; [apply (KW str_false); auto; [repeat constructor; lia|discriminate]|].
  assert (Hld : forall t, wf t -> (length t <= fuel)%nat -> okl (load fuel true t) t) by (intros; apply IHfuel; auto).
  destruct ((hd 0 s =? 43) || (hd 0 s =? 45)) eqn:ES; cbn [andb].
  - destruct (negb b); [left; reflexivity|]. destruct W as [|c s0 C0 W0]; [discriminate|]. cbn [hd tl] in *. simpl in L.
    destruct (lexSkipWs_ok s0 W0) as (p1 & s1 & -> & F1 & -> & W1). cbn [bind]. rewrite app_length in L.
    destruct (loadNum_ok (load fuel true) fuel Hld s1 W1) as [E|(p2 & s' & -> & NE & F2 & E & W')]; [lia|left; auto|].
    right. exists (c :: p1 ++ p2), s'. cbn [app]. rewrite <- app_assoc. repeat split; auto; [discriminate|].
    constructor; [split; intros ->; discriminate ES|apply Forall_app; auto].
  - cbn [bind]. apply (loadNum_ok (load fuel true) fuel Hld); auto.
Qed.

Lemma load_sign_irrelevant : forall fuel s, (hd 0 s =? 43) || (hd 0 s =? 45) = false ->
  load fuel true s = load fuel false s.
Proof.
  intros [|fuel] s H; [reflexivity|]. cbn [load]. destruct s as [|c s0]; [reflexivity|].
  cbn [rd bind hd] in *. rewrite H. reflexivity.
Qed.

Lemma load_false_sign_none : forall fuel s r, (hd 0 s =? 43) || (hd 0 s =? 45) = true ->
  load fuel false s = Ok r -> r = None.
Proof.
  intros [|fuel] s r H E; [discriminate|]. cbn [load] in E. destruct s as [|c s0]; [discriminate|].
  cbn [rd bind hd] in *. rewrite H in E.
  assert (is_prefix str_true (c :: s0) = false /\ is_prefix str_false (c :: s0) = false) as [H0 H1].
  { unfold str_true, str_false. cbn [is_prefix].
    apply orb_true_iff in H. destruct H as [X|X]; apply Z.eqb_eq in X; subst; split; reflexivity. }
  rewrite H0, H1 in E. cbn in E. congruence.
Qed.
