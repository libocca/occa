(* C12: bounds safety and progress of the token getters and of the token loop.  Every getter returns, without
   reading past the NUL, a well-formed cursor that lies inside the tail of the one it was given (`okt`), so the loop
   of tokenize ends within its fuel.  Needs of the operator table only `table_ok`. *)
From Coq Require Import List ZArith Bool Lia.
From OV.C12 Require Import OpDefs Model ProofsSafety.
Import ListNotations.
Local Open Scope Z_scope.

(* the suffix and well-formedness steps `auto` may take in this file *)
Local Hint Resolve sfx_refl sfx_cons sfx_tl wf_cons wf_nul : core.

(* what the theorems need from the operator table: symbols are non-empty C strings, and the
   line-comment opener does not begin with a newline *)
Definition table_ok (ops : list oper) : bool :=
  forallb (fun o =>
    match op_sym o with
    | [] => false
    | c :: _ => forallb (fun x => negb (x =? 0)) (op_sym o)
                && negb (ot_eqb (op_type o) ot_lineComment && (c =? 10))
    end) ops.

Lemma table_ok_in : forall ops o, table_ok ops = true -> In o ops ->
  exists c r, op_sym o = c :: r /\ nonz (op_sym o) /\
              (ot_eqb (op_type o) ot_lineComment = true -> c <> 10).
Proof.
  intros ops o T I. unfold table_ok in T. rewrite forallb_forall in T. specialize (T o I).
  destruct (op_sym o) as [|c r] eqn:E; [discriminate|].
  apply andb_true_iff in T. destruct T as [T1 T2]. exists c, r. repeat split; auto.
  - rewrite forallb_forall in T1. apply Forall_forall. intros x Hx. specialize (T1 x Hx).
    apply negb_true_iff, Z.eqb_neq in T1. auto.
  - intros L ->. rewrite L in T2. simpl in T2. discriminate.
Qed.

Lemma list_eqb_eq : forall a b, list_eqb a b = true -> a = b.
Proof.
  induction a as [|x a IH]; destruct b as [|y b]; simpl; intro H; try discriminate; auto.
  apply andb_true_iff in H. destruct H as [E H]. apply Z.eqb_eq in E. subst. f_equal. auto.
Qed.

Lemma list_eqb_refl : forall a, list_eqb a a = true.
Proof. induction a; simpl; auto. rewrite Z.eqb_refl. auto. Qed.

Lemma inb_false : forall x l, inb x l = false -> ~ In x l.
Proof.
  intros x l H I. assert (inb x l = true); [|congruence].
  apply existsb_exists. exists x. split; [exact I|apply Z.eqb_refl].
Qed.

Lemma is_prefix_app : forall p s, is_prefix p (p ++ s) = true.
Proof. induction p; simpl; auto. intros. rewrite Z.eqb_refl. simpl. auto. Qed.

Lemma wf_app_inv : forall p s, wf (p ++ s) -> s <> [] -> nonz p /\ wf s.
Proof.
  induction p as [|a p IH]; intros s W N; simpl in *; [split; auto|].
  destruct (wf_inv_cons _ _ W) as [[? E]|[Ha W']].
  - destruct p; simpl in E; [contradiction|discriminate].
  - destruct (IH s W' N). split; auto.
Qed.

Lemma wf_sfx : forall s' s, wf s -> sfx s' s -> s' <> [] -> wf s'.
Proof. intros s' s W [p Hp] N. subst. apply (wf_app_inv p s'); auto. Qed.

Lemma str_between_nonzero : forall s s', wf s -> sfx s' s -> s' <> [] ->
  nonz (str_between s s').
Proof.
  intros s s' W [p Hp] N. subst. rewrite str_between_app. apply (wf_app_inv p s'); auto.
Qed.

Lemma str_between_prefix : forall s s', sfx s' s -> is_prefix (str_between s s') s = true.
Proof. intros s s' [p Hp]. subst. rewrite str_between_app. apply is_prefix_app. Qed.

Lemma wf_nonnil : forall s, wf s -> s <> [].
Proof. intros s W ->. inversion W. Qed.

Lemma longest_op_some : forall ops s best o,
  longest_op ops s best = Some o ->
  (forall b, best = Some b -> is_prefix (op_sym b) s = true) ->
  is_prefix (op_sym o) s = true /\ (best = Some o \/ In o ops).
Proof.
  induction ops as [|x ops IH]; intros s best o E Hb; simpl in E.
  - subst. split; auto.
  - destruct (is_prefix (op_sym x) s &&
              match best with None => true | Some b => (length (op_sym b) <? length (op_sym x))%nat end) eqn:C.
    + apply andb_true_iff in C. destruct C as [C _].
      destruct (IH s (Some x) o E) as [P [Q|Q]].
      * intros b Eb. inversion Eb; subst; auto.
      * split; auto. inversion Q; subst. right; left; auto.
      * split; auto. right; right; auto.
    + destruct (IH s best o E Hb) as [P [Q|Q]]; split; auto. right; right; auto.
Qed.

Lemma longest_op_none : forall ops s best, longest_op ops s best = None ->
  best = None /\ forall o, In o ops -> is_prefix (op_sym o) s = false.
Proof.
  induction ops as [|x ops IH]; intros s best E; simpl in E.
  - split; auto. intros o [].
  - destruct (IH _ _ E) as [B F].
    destruct (is_prefix (op_sym x) s) eqn:P; simpl in B.
    + destruct best; [|discriminate]. destruct (length (op_sym o) <? length (op_sym x))%nat; discriminate.
    + split; auto. intros o [->|I]; auto.
Qed.

Lemma longest_op_max : forall ops s best o, longest_op ops s best = Some o ->
  (forall b, best = Some b -> (length (op_sym b) <= length (op_sym o))%nat) /\
  forall x, In x ops -> is_prefix (op_sym x) s = true -> (length (op_sym x) <= length (op_sym o))%nat.
Proof.
  induction ops as [|y ops IH]; intros s best o E; cbn [longest_op] in E.
  - subst. split; [intros b [= ->]; lia|intros x []].
  - destruct (IH _ _ _ E) as [B M]. split.
    + intros b ->. destruct (is_prefix (op_sym y) s && (length (op_sym b) <? length (op_sym y))%nat) eqn:C.
      * specialize (B y eq_refl). apply andb_true_iff in C. destruct C as [_ C]. apply Nat.ltb_lt in C. lia.
      * apply B; reflexivity.
    + intros x [->|I] P; [|auto]. rewrite P in B. cbn [andb] in B. destruct best as [b|]; [|apply B; reflexivity].
      destruct (length (op_sym b) <? length (op_sym x))%nat eqn:C; [apply B; reflexivity|].
      apply Nat.ltb_ge in C. specialize (B b eq_refl). lia.
Qed.

Lemma getLongest_in : forall ops s o, getLongest ops s = Some o -> is_prefix (op_sym o) s = true /\ In o ops.
Proof.
  intros ops s o E. destruct (longest_op_some ops s None o E) as [P [Q|Q]]; auto; discriminate.
Qed.

Lemma has_op_getLongest : forall ops v s, has_op ops v = true -> is_prefix v s = true -> getLongest ops s <> None.
Proof.
  intros ops v s H P E. destruct (longest_op_none _ _ _ E) as [_ F].
  unfold has_op in H. apply existsb_exists in H. destruct H as (o & I & Eq).
  apply list_eqb_eq in Eq. specialize (F o I). rewrite Eq, P in F. discriminate.
Qed.

(* the outcome of a token getter: Ok, a well-formed cursor, and inside the tail of s, so at least one byte was consumed *)
Definition okt (r : res (option token * list Z)) (s : list Z) : Prop :=
  exists t s', r = Ok (t, s') /\ wf s' /\ sfx s' (tl s).

Definition classify (ops : list oper) (c : Z) : pk :=
  if identStart c then KIdent
  else if inb c (operatorCharcodes ops) then KOp
  else if c =? 10 then KNewline
  else if c =? 34 then KString 0
  else if c =? 39 then KChar 0
  else KNone.

Lemma shallowPeek_eq : forall fx ops s0, shallowPeek fx ops s0 =
  s <- skipWhitespace s0 ;;
  c <- rd s ;;
  if c =? 0 then Ok (KNone, s)
  else
    p <- load (length s) false s ;;
    isPrim <- match p with
              | None => Ok false
              | Some pos => c' <- rd pos ;; Ok (negb (if fx_trueid fx then identChar c' else identStart c'))
              end ;;
    Ok (if isPrim then KPrim else classify ops c, s).
Proof.
  intros. unfold shallowPeek, classify.
  destruct (skipWhitespace s0) as [s| |]; cbn [bind]; auto. destruct (rd s) as [c| |]; cbn [bind]; auto.
  destruct (c =? 0); auto. destruct (load (length s) false s) as [p| |]; cbn [bind]; auto.
  destruct (match p with None => Ok false | Some pos => _ end) as [[]| |]; cbn [bind]; auto.
  destruct (identStart c); auto. destruct (inb c (operatorCharcodes ops)); auto.
  destruct (c =? 10); auto. destruct (c =? 34); auto. destruct (c =? 39); auto.
Qed.

Lemma countSkippedLines_lc : forall txt cur, Forall lc txt -> countSkippedLines txt cur = Ok tt.
Proof.
  intros txt cur N. unfold countSkippedLines. replace (inb 92 txt) with false; [reflexivity|].
  induction N as [|x l [_ X] N IH]; unfold inb in *; cbn [existsb]; [reflexivity|]. rewrite <- IH, (proj2 (Z.eqb_neq 92 x)); auto.
Qed.

Lemma getIdentifier_ok : forall s, wf s ->
  exists v s', getIdentifier s = Ok (v, s') /\ wf s' /\ sfx s' s /\
               (identStart (hd 0 s) = true -> sfx s' (tl s)).
Proof.
  intros s W. unfold getIdentifier. rewrite (rd_wf s W). cbn [bind].
  destruct (identStart (hd 0 s)) eqn:I; cbn [negb].
  - destruct W as [|c s0 C0 W0]; [discriminate|]. cbn [tl].
    destruct (skipFrom_ok identChar s0 W0) as (s1 & -> & W1 & S1). cbn [bind]. eexists _, s1. auto.
  - exists [], s. repeat split; auto. discriminate.
Qed.

Lemma getUdf_ok : forall s, wf s ->
  exists v s', getUdf s = Ok (v, s') /\ wf s' /\ sfx s' s.
Proof.
  intros s W. unfold getUdf. rewrite (rd_wf s W). cbn [bind]. destruct (hd 0 s =? 95).
  - destruct (getIdentifier_ok s W) as (v & s' & E & W' & S' & _). eauto.
  - exists [], s. auto.
Qed.

Lemma prefix_rd_ok : forall m s, nonz m -> wf s ->
  exists b, prefix_rd m s = Ok b /\ (b = true -> is_prefix m s = true).
Proof.
  intros m s F. revert s. induction F as [|a m A F IH]; intros s W; cbn [prefix_rd is_prefix]; [eauto|].
  destruct W as [|b s0 B W0]; [exists false; rewrite (proj2 (Z.eqb_neq a 0) A); split; [reflexivity|discriminate]|].
  destruct (a =? b); [cbn [andb]; auto|exists false; split; [reflexivity|discriminate]].
Qed.

Lemma find_end_ok : forall m s, nonz m -> wf s ->
  exists s', find_end m s = Ok s' /\ wf s' /\ sfx s' s /\ (hd 0 s' <> 0 -> is_prefix m s' = true).
Proof.
  intros m s F W. induction W as [|c s0 C0 W0 IH]; cbn [find_end].
  - exists [0]. repeat split; auto.
  - rewrite (proj2 (Z.eqb_neq c 0) C0).
    destruct (prefix_rd_ok m (c :: s0) F (wf_cons _ _ C0 W0)) as ([] & -> & Pb); cbn [bind].
    + exists (c :: s0). repeat split; auto.
    + destruct IH as (s' & E & W' & S' & P'). exists s'. repeat split; auto.
Qed.

(* the first step of getStringToken and getCharToken: over the encoding prefix *)
Lemma literal_prefix_ok : forall enc s, wf s -> (enc <> 0 -> identStart (hd 0 s) = true) ->
  exists s1, (if enc =? 0 then Ok s else r <- getIdentifier s ;; Ok (snd r)) = Ok s1 /\ wf s1 /\
             (enc = 0 /\ s1 = s \/ sfx s1 (tl s)).
Proof.
  intros enc s W I. destruct (Z.eqb_spec enc 0) as [|N]; [exists s; auto|].
  destruct (getIdentifier_ok s W) as (v & s1 & -> & W1 & _ & P1). exists s1. repeat split; auto.
Qed.

Section Safety.
Variable fx : fixes.
Variable ops : list oper.

Lemma getRawString_ok : fx_nul fx = true -> forall s, wf s ->
  exists v s', getRawString fx s = Ok (v, s') /\ wf s' /\ sfx s' s.
Proof.
  intros Hnul s W. unfold getRawString. rewrite (rd_wf s W), Hnul. cbn [bind].
  destruct (Z.eqb_spec (hd 0 s) 34) as [E34|]; cbn [negb]; [|exists [], s; auto].
  destruct W as [|c s0 C0 W0]; [discriminate|]. cbn [hd tl] in *. subst c.
  destruct (skipTo_ok [40; 10] s0 W0) as (s2 & -> & W2 & S2). cbn [bind]. rewrite (rd_wf s2 W2). cbn [bind].
  destruct (Z.eqb_spec (hd 0 s2) 40) as [E40|]; cbn [negb]; [|exists [], (34 :: s0); auto].
  set (m := 41 :: str_between s0 s2 ++ [34]).
  assert (Fm : nonz m).
  { constructor; [lia|]. apply Forall_app. split; [|repeat constructor; lia].
    apply str_between_nonzero; auto using wf_nonnil. }
  destruct W2 as [|c2 s3 C2 W3]; [discriminate|]. cbn [hd tl] in *. subst c2.
  destruct (find_end_ok m s3 Fm W3) as (s4 & -> & W4 & S4 & P4). cbn [bind]. rewrite (rd_wf s4 W4). cbn [bind].
  destruct (Z.eqb_spec (hd 0 s4) 0) as [|N0]; [exists [], (34 :: s0); auto|].
  destruct (is_prefix_wf_skipn m s4 (P4 N0) Fm W4) as [W6 S6].
  eexists _, _. repeat split; [exact W6|].
  apply sfx_cons. eapply sfx_trans; [exact S6|]. eapply sfx_trans; [exact S4|]. eapply sfx_trans; [apply sfx_tl|exact S2].
Qed.

Lemma getString_ok : fx_nul fx = true -> forall enc s, wf s ->
  exists r s', getString fx enc s = Ok (r, s') /\ wf s' /\ sfx s' s /\
               (hd 0 s = 34 -> Z.land enc encR = 0 -> sfx s' (tl s)).
Proof.
  intros Hnul enc s W. unfold getString. destruct (Z.eqb_spec (Z.land enc encR) 0) as [|NR]; cbn [negb].
  2:{ destruct (getRawString_ok Hnul s W) as (v & s' & -> & W' & S'). cbn [bind fst snd].
      exists (Some v), s'. repeat split; auto. contradiction. }
  rewrite (rd_wf s W), Hnul. cbn [bind].
  destruct (Z.eqb_spec (hd 0 s) 34) as [E34|]; cbn [negb]; [|exists None, s; repeat split; auto; contradiction].
  destruct W as [|c s0 C0 W0]; [discriminate|]. cbn [tl].
  destruct (skipTo_ok [34; 10] s0 W0) as (s2 & -> & W2 & S2). cbn [bind]. rewrite (rd_wf s2 W2). cbn [bind].
  destruct (Z.eqb_spec (hd 0 s2) 34) as [E2|]; cbn [negb]; [|exists None, s2; auto].
  destruct W2 as [|c2 s3 C2 W3]; [discriminate|]. cbn [tl].
  assert (sfx s3 s0) by (eapply sfx_trans; [apply sfx_tl|exact S2]). eexists _, s3. auto.
Qed.

Lemma getStringToken_ok : fx_nul fx = true -> forall enc s, wf s ->
  (enc = 0 -> hd 0 s = 34) -> (enc <> 0 -> identStart (hd 0 s) = true) ->
  okt (getStringToken fx enc s) s.
Proof.
  intros Hnul enc s W H0 H1. unfold getStringToken.
  destruct (literal_prefix_ok enc s W H1) as (s1 & -> & W1 & P1). cbn [bind].
  rewrite (rd_wf s1 W1). cbn [bind].
  destruct (Z.eqb_spec (hd 0 s1) 34) as [E34|N34]; cbn [negb].
  { destruct (getString_ok Hnul enc s1 W1) as (r & s3 & -> & W3 & S3 & P3). cbn [bind].
    assert (S3' : sfx s3 (tl s)).
    { destruct P1 as [[-> ->]|P1]; [auto|eapply sfx_trans; eauto]. }
    destruct r as [v|]; [|exists None, s3; auto].
    destruct (getUdf_ok s3 W3) as (u & s4 & -> & W4 & S4). cbn [bind fst snd].
    eexists _, s4. repeat split; auto. eapply sfx_trans; eauto. }
  exists None, s1. repeat split; auto. destruct P1 as [[Z0 ->]|]; auto. apply H0 in Z0. contradiction.
Qed.

Lemma getCharToken_ok : fx_nul fx = true -> forall enc s, wf s ->
  (enc = 0 -> hd 0 s = 39) -> (enc <> 0 -> identStart (hd 0 s) = true) ->
  okt (getCharToken fx enc s) s.
Proof.
  intros Hnul enc s W H0 H1. unfold getCharToken.
  destruct (literal_prefix_ok enc s W H1) as (s1 & -> & W1 & P1). cbn [bind].
  rewrite (rd_wf s1 W1), Hnul. cbn [bind].
  destruct (Z.eqb_spec (hd 0 s1) 39) as [E39|N39]; cbn [negb].
  2:{ exists None, s1. repeat split; auto. destruct P1 as [[Z0 ->]|]; auto. apply H0 in Z0. contradiction. }
  (* everything from the byte after the quote on lies behind the first byte of s *)
  assert (S2 : sfx (tl s1) (tl s)).
  { destruct P1 as [[_ ->]|P1]; [apply sfx_refl|]. eapply sfx_trans; [|exact P1].
    destruct W1; [discriminate|apply sfx_tl]. }
  destruct W1 as [|c s2 C W2]; [discriminate|]. cbn [tl] in *.
  destruct (skipTo_ok [39; 10] s2 W2) as (s3 & -> & W3 & S3). cbn [bind]. rewrite (rd_wf s3 W3). cbn [bind].
  destruct (Z.eqb_spec (hd 0 s3) 39) as [E3|]; cbn [negb]; [|exists None, s2; auto].
  destruct W3 as [|c3 s4 C3 W4]; [discriminate|]. cbn [tl].
  destruct (getUdf_ok s4 W4) as (u & s5 & -> & W5 & S5). cbn [bind fst snd].
  eexists _, s5. repeat split; auto.
  eapply sfx_trans; [exact S5|]. eapply sfx_trans; [apply sfx_tl|]. eapply sfx_trans; [exact S3|exact S2].
Qed.

Lemma getOperatorToken_ok : table_ok ops = true -> forall s, wf s -> hd 0 s <> 0 -> getLongest ops s <> None ->
  okt (getOperatorToken ops s) s.
Proof.
  intros Htab s W H N. unfold getOperatorToken. destruct (getLongest ops s) as [o|] eqn:E; [|contradiction].
  destruct (getLongest_in _ _ _ E) as [P I].
  destruct (table_ok_in ops o Htab I) as (c & r & Es & F & LC).
  destruct (ot_has (op_type o) ot_comment && ot_eqb (op_type o) ot_lineComment) eqn:C1.
  - apply andb_true_iff in C1. destruct C1 as [_ C1]. specialize (LC C1).
    destruct (skipTo_ok [10] s W) as (s1 & E1 & W1 & S1). rewrite E1. cbn [bind].
    eexists _, s1. repeat split; auto. apply (skipTo_progress [10] s s1); auto.
    (* the first byte is the opener's, which is no newline *)
    rewrite Es in P. destruct s as [|x s0]; [discriminate|]. cbn [is_prefix hd inb existsb] in *.
    apply andb_true_iff in P. destruct P as [P _]. apply Z.eqb_eq in P. subst x.
    rewrite (proj2 (Z.eqb_neq c 10) LC). reflexivity.
  - destruct (ot_has (op_type o) ot_comment && ot_eqb (op_type o) ot_blockCommentStart).
    + destruct (blockComment_ok s W) as (s1 & E1 & W1 & S1). rewrite E1. cbn [bind].
      eexists _, s1. repeat split; auto. apply (blockComment_progress s s1); auto.
    + destruct (is_prefix_wf_skipn (op_sym o) s P F W) as [W' _].
      eexists _, _. repeat split; [exact W'|]. rewrite Es. destruct W; [contradiction|]. cbn [length skipn tl]. apply sfx_skipn.
Qed.

(* what the kind that shallowPeek reports tells about the cursor it leaves: exactly what the getter dispatched on
   that kind needs in order to make progress *)
Definition peek_facts (k : pk) (s : list Z) : Prop :=
  match k with
  | KNone => True
  | KIdent => identStart (hd 0 s) = true
  | KPrim => (hd 0 s =? 43) || (hd 0 s =? 45) = false /\
             exists p pos, s = p ++ pos /\ p <> [] /\ Forall lc p /\ load (length s) false s = Ok (Some pos) /\ wf pos
  | KOp => hd 0 s <> 0
  | KNewline => hd 0 s = 10
  | KString e => e = 0 /\ hd 0 s = 34
  | KChar e => e = 0 /\ hd 0 s = 39
  end.

Lemma classify_facts : forall s, hd 0 s <> 0 -> peek_facts (classify ops (hd 0 s)) s.
Proof.
  intros s N. unfold classify. destruct (identStart (hd 0 s)) eqn:I; [exact I|].
  destruct (inb (hd 0 s) (operatorCharcodes ops)); [exact N|].
  destruct (Z.eqb_spec (hd 0 s) 10); [assumption|]. destruct (Z.eqb_spec (hd 0 s) 34); [split; auto|].
  destruct (Z.eqb_spec (hd 0 s) 39); [split; auto|exact Logic.I].
Qed.

Lemma shallowPeek_ok : forall s, wf s ->
  exists k s', shallowPeek fx ops s = Ok (k, s') /\ skipWhitespace s = Ok s' /\ wf s' /\ sfx s' s /\ peek_facts k s'.
Proof.
  intros s W. rewrite shallowPeek_eq.
  destruct (skipWhitespace_ok s W) as (s1 & E1 & W1 & S1). rewrite E1. cbn [bind]. rewrite (rd_wf s1 W1). cbn [bind].
  destruct (Z.eqb_spec (hd 0 s1) 0) as [|N0]; [exists KNone, s1; repeat split; auto|].
  destruct (load_ok (length s1) false s1 W1 (le_n _)) as [EL|(p & pos & E & NE & F & EL & Wp)]; rewrite EL; cbn [bind].
  - eexists _, s1. repeat split; auto using classify_facts.
  - rewrite (rd_wf pos Wp). cbn [bind].
    destruct (negb _); eexists _, s1; repeat split; auto using classify_facts; [|exists p, pos; auto].
    destruct ((hd 0 s1 =? 43) || (hd 0 s1 =? 45)) eqn:SG; auto.
    pose proof (load_false_sign_none _ _ _ SG EL). discriminate.
Qed.

(* the same for the kinds peekForIdentifier can report *)
Definition ident_kind (k : pk) (s : list Z) : Prop :=
  match k with
  | KIdent => True
  | KOp => getLongest ops s <> None
  | KString e => e <> 0
  | KChar e => e <> 0
  | _ => False
  end.

Lemma peekForIdentifier_ok : forall s, wf s -> identStart (hd 0 s) = true ->
  exists k, peekForIdentifier fx ops s = Ok k /\ ident_kind k s.
Proof.
  intros s W I. unfold peekForIdentifier. destruct W as [|c s0 C0 W0]; [discriminate|]. cbn [tl].
  destruct (skipFrom_ok identChar s0 W0) as (s1 & -> & W1 & S1). cbn [bind].
  assert (TY : exists ty, (if fx_prefix fx
         then c1 <- rd s1 ;; Ok (if c1 =? 34 then KString 0 else if c1 =? 39 then KChar 0 else KNone)
         else r <- shallowPeek fx ops s1 ;; Ok (fst r)) = Ok ty).
  { destruct (fx_prefix fx).
    - rewrite (rd_wf s1 W1). cbn [bind]. eauto.
    - destruct (shallowPeek_ok s1 W1) as (k & s' & -> & _). cbn [bind fst]. eauto. }
  destruct TY as (ty & ->). cbn [bind].
  destruct (has_op ops (str_between (c :: s0) s1)) eqn:HO.
  - exists KOp. split; auto. apply (has_op_getLongest ops _ _ HO), str_between_prefix. auto.
  - destruct ty; try (exists KIdent; split; [reflexivity|exact Logic.I]).
    + destruct (Z.eqb_spec (getStringEncoding (str_between (c :: s0) s1)) 0); eexists; split; try reflexivity; auto.
    + destruct (Z.eqb_spec (getCharacterEncoding (str_between (c :: s0) s1)) 0); eexists; split; try reflexivity; auto.
Qed.

Theorem getToken_progress : fx_nul fx = true -> table_ok ops = true -> forall s, wf s -> hd 0 s <> 0 -> okt (getToken fx ops s) s.
Proof.
  intros Hnul Htab s W H. unfold getToken. rewrite (rd_wf s W). cbn [bind]. rewrite (proj2 (Z.eqb_neq _ _) H).
  destruct (skipWhitespace_ok s W) as (sw & Ew & Ww & Sw). rewrite Ew. cbn [bind].
  rewrite (rd_wf sw Ww). cbn [bind].
  destruct (Z.eqb_spec (hd 0 sw) 0) as [Ecw|Hsw].
  { (* only whitespace was left: the closing newline token *)
    exists (Some TNewline), sw. repeat split; auto.
    destruct Sw as [[|x p] ->]; [contradiction|]. exists p. reflexivity. }
  unfold peek.
  destruct (shallowPeek_ok sw Ww) as (k & s1 & -> & E1 & _ & _ & F1). cbn [bind].
  (* the second skipWhitespace does not move *)
  apply skipFrom_idem in Ew. unfold skipWhitespace in E1. rewrite Ew in E1. injection E1 as <-.
  assert (FIN : forall r, okt r sw -> okt r s).
  { intros r (t & s' & E & W' & S'). exists t, s'. repeat split; auto.
    eapply sfx_trans; [exact S'|apply sfx_tl_mono; auto using wf_nonnil]. }
  apply FIN.
  assert (UNK : okt (c <- rd sw ;; Ok (Some (TUnknown c), tl sw)) sw).
  { clear - Ww Hsw. destruct Ww as [|c s3 C W3]; [contradiction|]. cbn [rd bind tl]. eexists _, s3. repeat split; auto. }
  destruct k; simpl in F1; cbn [bind].
  - exact UNK.
  - destruct (peekForIdentifier_ok sw Ww F1) as (k2 & -> & K2). cbn [bind].
    destruct k2; simpl in K2; try contradiction.
    + rewrite (rd_wf sw Ww). cbn [bind]. rewrite F1. cbn [negb].
      destruct (getIdentifier_ok sw Ww) as (v & s' & -> & W' & S' & P'). cbn [bind fst snd].
      eexists _, s'. repeat split; auto.
    + apply getOperatorToken_ok; auto.
    + apply getStringToken_ok; auto; intros; contradiction.
    + apply getCharToken_ok; auto; intros; contradiction.
  - (* the literal's text holds no backslash, so countSkippedLines reads nothing *)
    destruct F1 as [SG (p & pos & -> & NE & F & EL & Wp)]. rewrite (load_sign_irrelevant _ _ SG), EL. cbn [bind].
    rewrite str_between_app, (countSkippedLines_lc p pos F). cbn [bind].
    eexists _, pos. repeat split; auto. destruct p as [|x p]; [contradiction|]. exists p. reflexivity.
  - unfold peekForOperator. destruct (getLongest ops sw) as [o|] eqn:EO; [|exact UNK].
    apply getOperatorToken_ok; auto. congruence.
  - destruct Ww as [|c s3 C W3]; [contradiction|]. eexists _, s3. repeat split; auto.
  - destruct F1 as [-> F1]. apply getStringToken_ok; auto; intro X; contradiction.
  - destruct F1 as [-> F1]. apply getCharToken_ok; auto; intro X; contradiction.
Qed.

Theorem tokenizeLoop_ok : fx_nul fx = true -> table_ok ops = true -> forall fuel s acc, wf s -> (length s <= fuel)%nat ->
  exists ts, tokenizeLoop fx ops fuel s acc = Ok ts.
Proof.
  intros Hnul Htab. induction fuel; intros s acc W L; [destruct W; simpl in L; lia|].
  cbn [tokenizeLoop]. rewrite (rd_wf s W). cbn [bind].
  destruct (Z.eqb_spec (hd 0 s) 0) as [|N0]; [eauto|].
  destruct (getToken_progress Hnul Htab s W N0) as (t & s' & -> & W' & S'). cbn [bind fst snd].
  apply IHfuel; auto. destruct (sfx_tl_lt s' s (wf_nonnil s W) S'). lia.
Qed.

Theorem tokenize_ok : fx_nul fx = true -> table_ok ops = true -> forall body, nonz body ->
  exists ts, tokenize fx ops (body ++ [0]) = Ok ts.
Proof.
  intros Hnul Htab body F. unfold tokenize. apply tokenizeLoop_ok; auto; [apply wf_app; auto|lia].
Qed.

Theorem getHeader_ok : fx_nul fx = true -> forall s, wf s ->
  exists r s', getHeader fx ops s = Ok (r, s') /\ wf s'.
Proof.
  intros Hnul s W. unfold getHeader.
  destruct (shallowPeek_ok s W) as (k & s1 & -> & _ & W1 & _ & F1). cbn [bind].
  destruct k; cbn [negb andb]; try (eexists _, _; split; [reflexivity|auto]; fail).
  - (* the cursor is not at the NUL *)
    simpl in F1. destruct W1 as [|c s2 C W2]; [contradiction|]. cbn [tl].
    destruct (skipTo_ok [62; 10] s2 W2) as (s3 & -> & W3 & _). cbn [bind]. rewrite (rd_wf s3 W3), Hnul. cbn [bind].
    destruct (Z.eqb_spec (hd 0 s3) 62); cbn [negb]; [|eauto].
    destruct W3 as [|c3 s4 C3 W4]; [discriminate|]. eauto.
  - destruct (getString_ok Hnul 0 s1 W1) as (r & s' & -> & W' & _). cbn [bind fst snd]. eauto.
Qed.

End Safety.
