(* C10 — Kernel argument validation accepts exactly the compatible argument lists.

   Vocabulary (coq/C10/Model.v, Spec.v; dtypes, flattening and the JSON round trip from coq/C11):
     argmeta                (isConst, isPtr, dtype, name) of one kernel parameter
     karg                   AMem d (occa::memory of dtype d) | ANull | AScalar
     setupRun zg init tv sig args   modeKernel_t::setupRun: zg = isCyclic's zero guard (fixes/C10-3),
                            init = metadata.isInitialized(), tv = the type_validation property
     compatible sig args    the declarative rule of the statement (Spec.v)
     run_fresh / run_cached the decision in the building process / in a process that reads the
                            metadata back from build.json
     krepaired / kpinned    the source with / without fixes/C10-1..3.patch *)
From Coq Require Import String.
From Coq Require Import List ZArith Bool.
From OV.C11 Require Import Model Spec Statements.
From OV.C10 Require Import Model Spec Proofs.
Import ListNotations.
Local Open Scope Z_scope.
Local Open Scope string_scope.

(* The run-time check accepts an argument list iff it is compatible; it never crashes and every
   other list is rejected (all signatures, all argument lists, any dtypes). *)
Theorem accepts_iff_compatible : forall (sig : list argmeta) (args : list karg),
  setupRun true true true sig args = OK <-> compatible sig args.
Proof. exact Proofs.accepts_iff_compatible. Qed.
Print Assumptions accepts_iff_compatible.

Theorem rejects_otherwise : forall (sig : list argmeta) (args : list karg),
  setupRun true true true sig args = OK \/ setupRun true true true sig args = ERR.
Proof. exact Proofs.rejects_otherwise. Qed.
Print Assumptions rejects_otherwise.

(* the cast decision is the declarative rule: byte on either side, equal flattened lists, or one
   a whole number >= 1 of repetitions of the other *)
Theorem cast_iff_rule : forall (from to : dtype),
  canBeCastedTo' true from to = Some true <-> cast_rule from to.
Proof. exact Proofs.canBeCastedTo'_spec. Qed.
Print Assumptions cast_iff_rule.

(* the oracle used by the check computes exactly what setupRun decides *)
Theorem setupRun_is_required : forall (sig : list argmeta) (args : list karg),
  setupRun true true true sig args = required sig args.
Proof. exact Proofs.setupRun_required. Qed.
Print Assumptions setupRun_is_required.

(* Fresh = cached.  Full statement: for every signature.  Proved for signatures whose dtypes are
   well formed and flatten to builtins — the dtypes vartype_t::dtype() builds from the primitive
   types getBuiltin knows, the vector
   types, typedefs, arrays and structs of these are of this form (not proved here;
   sample_signature below is one instance).  Excluded is a parameter whose type is unknown to
   getBuiltin: size_t, ptrdiff_t, wchar_t, char16_t, char32_t, auto, an enum; its dtype is
   dtype::none / an enum object, compared by address (C11's finding registered_identity). *)
Theorem fresh_eq_cached_partial : forall (tv : bool) (name : string) (sig : list argmeta) (args : list karg),
  Forall (fun a => wf (a_dtype a) /\ builtin_leaves (a_dtype a)) sig ->
  run_cached krepaired tv name sig args = run_fresh krepaired tv sig args.
Proof. exact Proofs.fresh_eq_cached. Qed.
Print Assumptions fresh_eq_cached_partial.

(* pinned source: a kernel without parameters had uninitialized metadata when freshly built, so
   any argument list ran; loaded from the cache the same call throws *)
Theorem pinned_zero_arg_refuted :
  run_fresh kpinned true [] [AScalar] = OK /\ run_cached kpinned true "k" [] [AScalar] = ERR /\
  ~ compatible [] [AScalar].
Proof. split; [reflexivity|]. split; [vm_compute; reflexivity|]. intro H. inversion H. Qed.

Example repaired_zero_arg :
  run_fresh krepaired true [] [AScalar] = ERR /\ run_cached krepaired true "k" [] [AScalar] = ERR.
Proof. split; vm_compute; reflexivity. Qed.

(* pinned source: `float x[0]` flattens to nothing and isCyclic divides by zero *)
Definition p_float0 : param := mkParam (TPrim "float" 0) false 0 [Some 0] "x".
Theorem pinned_empty_dtype_refuted :
  exists sig, params_meta kpinned [p_float0] = Some sig /\
              run_fresh kpinned true sig [AMem g_float] = CRASH.
Proof. eexists. split; vm_compute; reflexivity. Qed.

Example repaired_empty_dtype :
  exists sig, params_meta krepaired [p_float0] = Some sig /\
              run_fresh krepaired true sig [AMem g_float] = ERR /\
              run_fresh krepaired true sig [AMem g_byte] = OK.
Proof. eexists. split; [vm_compute; reflexivity|]. split; vm_compute; reflexivity. Qed.

(* pinned source: `float x[]` dereferences the missing size expression while the kernel is parsed *)
Definition p_unsized : param := mkParam (TPrim "float" 0) false 0 [None] "x".
Theorem pinned_unsized_array_refuted : params_meta kpinned [p_unsized] = None.
Proof. reflexivity. Qed.

Example repaired_unsized_array :
  exists sig, params_meta krepaired [p_unsized] = Some sig /\
              run_fresh krepaired true sig [AMem g_float] = OK /\
              run_fresh krepaired true sig [AMem g_int] = ERR /\
              run_fresh krepaired true sig [AScalar] = ERR.
Proof. eexists. split; [vm_compute; reflexivity|]. repeat split; vm_compute; reflexivity. Qed.

(* non-vacuity: (const float2 *a, long b[2][3], vec3 *c, const int n) with typedef struct {float x,y,z;} vec3 *)
Definition sample_params : list param :=
  [mkParam (TPrim "float2" 0) true 1 [] "a";
   mkParam (TPrim "int" 1) false 0 [Some 2; Some 3] "b";
   mkParam (TTypedef (TStruct [("x", (TPrim "float" 0, [])); ("y", (TPrim "float" 0, []));
                               ("z", (TPrim "float" 0, []))]) 0 []) false 1 [] "c";
   mkParam (TPrim "int" 0) true 0 [] "n"].

Example sample_signature :
  exists sig, params_meta krepaired sample_params = Some sig /\
    map a_ptr sig = [true; true; true; false] /\
    map (fun a => length (flat (a_dtype a))) sig = [2; 6; 3; 1]%nat /\
    (* float memory for a and c, long memory for b, a scalar for n *)
    run_fresh krepaired true sig [AMem g_float; AMem g_long; AMem g_float; AScalar] = OK /\
    run_cached krepaired true "k" sig [AMem g_float; AMem g_long; AMem g_float; AScalar] = OK /\
    (* int memory for the long array *)
    run_fresh krepaired true sig [AMem g_float; AMem g_int; AMem g_float; AScalar] = ERR /\
    (* float3 memory for float2 *a: 3 is not a multiple of 2 *)
    run_fresh krepaired true sig [AMem (getBuiltin "float3"); AMem g_long; AMem g_float; AScalar] = ERR /\
    run_fresh krepaired true sig [AMem g_float; AMem g_long; AMem g_float] = ERR.
Proof. eexists. split; [vm_compute; reflexivity|]. repeat split; vm_compute; reflexivity. Qed.

(* the case split of canBeCastedTo / isCyclic (the cases of Proofs.castv'_spec, isCyclic_pos and
   cyc_prefix, on which cast_iff_rule rests) on concrete dtypes; props/C10.py generates every one
   of these classes (coverage: cast_case_split) *)
Definition st (fs : list dtype) : dtype :=
  DStruct (mkH [] "" 0 false)
    (map (fun d => (EmptyString, DRef d)) fs).
Example cast_case_split :
  let f := g_float in let i := g_int in let d := g_double in
  (* shorter = one block, longer = its repetitions *)
  canBeCastedTo' true (st [f; i]) (st [f; i; f; i]) = Some true /\
  canBeCastedTo' true (st [f; i; f; i; f; i]) (st [f; i]) = Some true /\
  (* a later cycle differs after its first entry / at its first entry *)
  canBeCastedTo' true (st [f; i]) (st [f; i; f; d]) = Some false /\
  canBeCastedTo' true (st [f; i; f; d]) (st [f; i]) = Some false /\
  canBeCastedTo' true (st [f; i]) (st [f; i; d; i]) = Some false /\
  (* the longer list is periodic but does not start with the shorter one *)
  canBeCastedTo' true (st [f; d]) (st [f; i; f; i]) = Some false /\
  (* lengths that do not divide, equal lengths, an empty list, byte *)
  canBeCastedTo' true (st [f; i]) (st [f; i; f]) = Some false /\
  canBeCastedTo' true (st [f; i; d]) (st [f; i; d]) = Some true /\
  canBeCastedTo' true (st [f; i; d]) (st [f; i; i]) = Some false /\
  canBeCastedTo' true (st []) (st [f]) = Some false /\
  canBeCastedTo' false (st []) (st [f]) = None /\
  canBeCastedTo' true g_byte (st [f; i; f; d]) = Some true.
Proof. repeat split; vm_compute; reflexivity. Qed.
