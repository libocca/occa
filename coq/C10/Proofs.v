(* C10 — proofs: what isCyclic and the comparison loop of canBeCastedTo decide on the flattened
   lists is the cast rule; setupRun is the executable rule; cached = fresh from C11's round trip. *)
(* String before List: `length` and `++` are to be List's *)
From Coq Require Import String.
From Coq Require Import List ZArith Bool Lia.
From OV.C11 Require Import Model Spec Statements Proofs.
From OV.C10 Require Import Model Spec.
Import ListNotations.

Lemma Forall2_length : forall {A B : Type} {R : A -> B -> Prop} {l l'},
  Forall2 R l l' -> length l = length l'.
Proof. induction 1; cbn; congruence. Qed.

Lemma forallb_seq : forall (f : nat -> bool) a n,
  forallb f (seq a n) = true <-> (forall i, a <= i < a + n -> f i = true).
Proof.
  intros f a n. rewrite forallb_forall. split; intros H i Hi; apply H, in_seq, Hi.
Qed.

Lemma nth_concat_repeat : forall (A : Type) (d : A) (blk : list A) c k,
  k < c * length blk ->
  nth k (concat (repeat blk c)) d = nth (k mod length blk) blk d.
Proof.
  intros A d blk c. induction c as [|c IH]; intros k Hk; [lia|].
  assert (Hn : length blk <> 0) by nia.
  cbn [repeat concat]. destruct (Nat.lt_ge_cases k (length blk)) as [Hlt|Hge].
  - rewrite app_nth1, Nat.mod_small by exact Hlt. reflexivity.
  - rewrite app_nth2 by exact Hge. rewrite IH by (cbn in Hk; lia).
    f_equal. replace k with ((k - length blk) + 1 * length blk) at 2 by lia.
    rewrite Nat.mod_add by exact Hn. reflexivity.
Qed.

Lemma prefix_eq_iff : forall n a b,
  prefix_eq n a b = true <-> (forall i, i < n -> nth i a [] = nth i b []).
Proof.
  intros n a b. unfold prefix_eq, nth_id. rewrite forallb_seq.
  split; intros H i Hi; apply ident_eqb_eq, H; lia.
Qed.

Lemma prefix_eq_sym : forall n a b, prefix_eq n a b = prefix_eq n b a.
Proof.
  intros n a b. apply eq_true_iff_eq. rewrite !prefix_eq_iff. split; intros H i Hi; symmetry; auto.
Qed.

Lemma prefix_eq_full : forall a b, length a = length b -> (prefix_eq (length a) a b = true <-> a = b).
Proof.
  intros a b Hl. rewrite prefix_eq_iff. split; intro H.
  - apply (nth_ext a b [] []); [exact Hl|exact H].
  - intros; subst; reflexivity.
Qed.

Lemma isCyclic_pos : forall vec n, n <> 0 ->
  exists c, isCyclic vec n = Some c /\
    (c = true <->
     length vec mod n = 0 /\ forall j, j < length vec -> nth j vec [] = nth (j mod n) vec []).
Proof.
  intros vec n Hn. unfold isCyclic. destruct n as [|n']; [congruence|]. set (n := S n') in *.
  destruct (Nat.eqb_spec (length vec mod n) 0) as [Em|Em]; cbn [negb].
  - eexists. split; [reflexivity|].
    pose proof (proj2 (Nat.div_exact (length vec) n Hn) Em) as Hlen.
    rewrite forallb_seq. unfold nth_id. split.
    + (* j = j mod n + (j / n) * n is compared with j mod n by the loop, unless j / n = 0 *)
      intro H. split; [exact Em|]. intros j Hj.
      pose proof (Nat.div_mod j n Hn) as Hdm. pose proof (Nat.mod_upper_bound j n Hn) as Hub.
      destruct (Nat.eq_dec (j / n) 0) as [Hq|Hq]; [f_equal; rewrite Hq in Hdm; lia|].
      specialize (H (j mod n) ltac:(lia)). rewrite forallb_seq in H.
      assert (Hc : j / n < length vec / n) by (apply Nat.div_lt_upper_bound; lia).
      specialize (H (j / n) ltac:(lia)). apply ident_eqb_eq in H. rewrite H. f_equal. lia.
    + intros [_ H] i Hi. rewrite forallb_seq. intros k Hk. apply ident_eqb_eq.
      rewrite (H (i + k * n)) by nia. rewrite Nat.mod_add, Nat.mod_small by lia. reflexivity.
  - exists false. split; [reflexivity|]. split; [discriminate|]. intros [H _]. contradiction.
Qed.

Lemma cyc_prefix : forall (a b : list ident), a <> [] -> length a <= length b ->
  exists c, isCyclic b (length a) = Some c /\
    (c = true /\ prefix_eq (length a) a b = true <-> exists k, 1 <= k /\ b = concat (repeat a k)).
Proof.
  intros a b Hn Hle. rewrite <- length_zero_iff_nil in Hn. set (n := length a) in *.
  destruct (isCyclic_pos b n Hn) as [c [Hc Hiff]]. exists c. split; [exact Hc|].
  rewrite Hiff, prefix_eq_iff. split.
  - intros [[Hmod Hper] Hp]. exists (length b / n).
    pose proof (proj2 (Nat.div_exact (length b) n Hn) Hmod) as Hlen. rewrite Nat.mul_comm in Hlen.
    split; [nia|]. apply (nth_ext _ _ [] []); [rewrite length_concat_repeat; exact Hlen|].
    intros j Hj. rewrite nth_concat_repeat by (fold n; rewrite <- Hlen; exact Hj). fold n.
    etransitivity; [apply Hper, Hj|]. symmetry. apply Hp, Nat.mod_upper_bound, Hn.
  - intros [k [Hk ->]]. rewrite length_concat_repeat. fold n.
    pose proof (nth_concat_repeat ident [] a k) as Hnth. fold n in Hnth.
    split; [split; [apply Nat.mod_mul, Hn|]|].
    + intros j Hj. pose proof (Nat.mod_upper_bound j n Hn).
      rewrite !Hnth by nia. rewrite Nat.mod_mod by exact Hn. reflexivity.
    + intros i Hi. rewrite Hnth by nia. rewrite Nat.mod_small by exact Hi. reflexivity.
Qed.

Lemma repeats_len : forall s b, repeats s b -> length s <= length b /\ (length s = length b -> s = b).
Proof.
  intros s b [Hn [k [Hk Hb]]]. subst b. rewrite length_concat_repeat.
  rewrite <- length_zero_iff_nil in Hn.
  split; [nia|]. intro Hl. assert (k = 1) by nia. subst k. cbn. rewrite app_nil_r. reflexivity.
Qed.

(* which disjunct of the rule can hold is decided by the lengths *)
Lemma rule_lt : forall a b, length a < length b -> rule a b <-> repeats a b.
Proof.
  intros a b Hl. unfold rule. split; [|auto]. intros [->|[H|H]]; [lia|exact H|apply repeats_len in H; lia].
Qed.

Lemma rule_eq : forall a b, length a = length b -> rule a b <-> a = b.
Proof.
  intros a b Hl. unfold rule. split; [|auto].
  intros [H|[H|H]]; [exact H|apply repeats_len in H; apply H, Hl|apply repeats_len in H; symmetry; apply H; auto].
Qed.

Lemma castv'_sym : forall zg a b, castv' zg a b = castv' zg b a.
Proof.
  intros zg a b. unfold castv'.
  destruct (Nat.ltb_spec (length a) (length b)), (Nat.ltb_spec (length b) (length a)); try lia;
    try (rewrite prefix_eq_sym; reflexivity).
  replace (length b) with (length a) by lia. rewrite prefix_eq_sym. reflexivity.
Qed.

Lemma castv'_spec : forall a b,
  exists r, castv' true a b = Some r /\ (r = true <-> rule a b).
Proof.
  assert (Hle : forall a b, length a <= length b ->
            exists r, castv' true a b = Some r /\ (r = true <-> rule a b)).
  { intros a b Hl. unfold castv'. destruct (Nat.ltb_spec (length a) (length b)) as [Hlt|Hge].
    - unfold isCyclic'. destruct a as [|x a].
      + exists false. split; [reflexivity|]. rewrite (rule_lt [] b Hlt).
        split; [discriminate|]. intros [H _]. congruence.
      + destruct (cyc_prefix (x :: a) b ltac:(discriminate) Hl) as [c [Hc Hiff]]. cbn [length] in Hc |- *.
        rewrite Hc. exists (c && prefix_eq (S (length a)) (x :: a) b). split; [destruct c; reflexivity|].
        rewrite (rule_lt _ b Hlt), andb_true_iff, Hiff. unfold repeats.
        split; [split; [discriminate|assumption]|tauto].
    - assert (He : length a = length b) by lia. rewrite He, Nat.ltb_irrefl, <- He.
      eexists. split; [reflexivity|]. rewrite (rule_eq a b He). apply prefix_eq_full, He. }
  intros a b. destruct (Nat.le_ge_cases (length a) (length b)) as [H|H]; [apply Hle, H|].
  rewrite castv'_sym. destruct (Hle b a H) as [r [Hr Hiff]]. exists r. split; [exact Hr|].
  rewrite Hiff. unfold rule. split; intros [E|[E|E]]; auto.
Qed.

(* in particular the repaired source never crashes here *)
Theorem cast_decides : forall a b, canBeCastedTo' true a b = Some (cast_ruleb a b).
Proof.
  intros a b. unfold canBeCastedTo', cast_ruleb.
  destruct (is_byte_obj a || is_byte_obj b); [reflexivity|]. cbn [orb].
  destruct (castv'_spec (flat a) (flat b)) as [r [-> Hiff]]. f_equal. apply eq_true_iff_eq.
  rewrite Hiff, ruleb_spec. reflexivity.
Qed.

Theorem canBeCastedTo'_spec : forall a b, canBeCastedTo' true a b = Some true <-> cast_rule a b.
Proof.
  intros a b. rewrite cast_decides, <- cast_ruleb_spec. split; [intros [= H]; exact H|intros ->; reflexivity].
Qed.

(* cast_decides pushed through one step of setupRun's loop *)
Lemma check_args_cons : forall info sig arg args,
  check_args true (info :: sig) (arg :: args) =
  if arg_okb info arg then check_args true sig args else ERR.
Proof.
  intros. destruct arg as [d| |]; cbn [check_args arg_okb]; destruct (a_ptr info); cbn; try reflexivity.
  rewrite cast_decides. destruct (cast_ruleb d (a_dtype info)); reflexivity.
Qed.

Lemma arg_okb_spec : forall info arg, arg_okb info arg = true <-> arg_ok info arg.
Proof.
  intros info [d| |]; cbn; [rewrite andb_true_iff, cast_ruleb_spec|..]; try tauto. apply negb_true_iff.
Qed.

Lemma compatibleb_spec : forall sig args, compatibleb sig args = true <-> compatible sig args.
Proof.
  unfold compatible. induction sig as [|info sig IH]; intros [|arg args]; cbn [compatibleb].
  - split; [constructor|reflexivity].
  - split; [discriminate|inversion 1].
  - split; [discriminate|inversion 1].
  - rewrite andb_true_iff, arg_okb_spec, IH. split; [intros []; constructor; assumption|inversion 1; auto].
Qed.

Theorem setupRun_required : forall sig args, setupRun true true true sig args = required sig args.
Proof.
  intros sig args. unfold setupRun, required. cbn [andb negb]. revert args.
  induction sig as [|info sig IH]; intros [|arg args]; try reflexivity.
  rewrite check_args_cons. cbn [compatibleb length Nat.eqb]. destruct (arg_okb info arg); [apply IH|].
  destruct (negb _); reflexivity.
Qed.

Theorem accepts_iff_compatible : forall sig args,
  setupRun true true true sig args = OK <-> compatible sig args.
Proof.
  intros sig args. rewrite setupRun_required, <- compatibleb_spec. unfold required.
  destruct (compatibleb sig args); split; congruence.
Qed.

Theorem rejects_otherwise : forall sig args,
  setupRun true true true sig args = OK \/ setupRun true true true sig args = ERR.
Proof.
  intros sig args. rewrite setupRun_required. unfold required. destruct (compatibleb sig args); auto.
Qed.

(* what the cast decision reads of the parameter's dtype *)
Definition cast_same (a' a : argmeta) : Prop :=
  a_ptr a' = a_ptr a /\ flat (a_dtype a') = flat (a_dtype a) /\
  is_byte_obj (a_dtype a') = is_byte_obj (a_dtype a).

Lemma cast_same_rt : forall a d',
  builtin_leaves (a_dtype a) -> rt_post "" (a_dtype a) d' ->
  cast_same (mkArg (a_const a) (a_ptr a) d' (a_name a)) a.
Proof. intros a d' Hbl (_ & Hf & Hb & _). repeat split; auto. Qed.

Lemma check_args_same : forall zg sig' sig args,
  Forall2 cast_same sig' sig -> check_args zg sig' args = check_args zg sig args.
Proof.
  intros zg sig' sig args H. revert args.
  induction H as [|a' a sig' sig (Hp & Hf & Hb) _ IH]; intros [|arg args]; try reflexivity.
  cbn [check_args]. unfold canBeCastedTo'. rewrite Hp, Hf, Hb, IH. reflexivity.
Qed.

Theorem fresh_eq_cached : forall tv name sig args,
  Forall (fun a => wf (a_dtype a) /\ builtin_leaves (a_dtype a)) sig ->
  run_cached krepaired tv name sig args = run_fresh krepaired tv sig args.
Proof.
  intros tv name sig args Hall. unfold run_cached, run_fresh, fresh_initialized. cbn [krepaired kv_init kv_zero_guard].
  destruct (Proofs.metadata_roundtrip_rel _ _ cast_same_rt (mkK name sig) [7%Z] eq_refl Hall)
    as [sig' [He Hs]].
  cbn [k_args k_name] in He, Hs. rewrite He. cbn [k_args]. unfold setupRun.
  rewrite (Forall2_length Hs), (check_args_same _ _ _ args Hs). reflexivity.
Qed.
