(* C08/C09 — GModel.v's group builder as a process system (Proofs.v). *)
From Coq Require Import List NArith Bool Lia Arith.
From OV.C08 Require Import Model Statements Proofs GModel.
Import ListNotations.
Local Open Scope N_scope.

Definition gtemps (p : gstate) : list N :=
  match p with
  | GRun _ _ cur todo => map snd cur ++ prog_temps todo
  | GAt todo => prog_temps todo
  | GDone => []
  end.

(* state of the j-th temp of the group, by phase *)
Definition tstate (ph : gph) (j : nat) : fstate :=
  match ph with
  | GCheck => Absent
  | GCreate i => if Nat.ltb j i then Complete else Absent
  | GWrite i | GClose i => if Nat.ltb j i then Complete else if Nat.eqb j i then Partial else Absent
  | GRename i => if Nat.ltb j i then Absent else Complete
  end.

Definition ph_index_ok (ph : gph) (n : nat) : Prop :=
  match ph with
  | GCheck => True
  | GCreate i | GWrite i | GClose i | GRename i => (i < n)%nat
  end.

Definition temp_at (cur : list (N * N)) (j : nat) : N := snd (nth_file cur j).

(* temps of the current group as the phase says, of later groups absent *)
Definition gpinv (s : fs) (p : gstate) : Prop :=
  NoDup (gtemps p) /\
  match p with
  | GRun ph _ cur todo =>
      cur <> [] /\ ph_index_ok ph (length cur) /\
      (forall j, (j < length cur)%nat -> lookup (T (temp_at cur j)) s = tstate ph j) /\
      (forall k, In k (prog_temps todo) -> lookup (T k) s = Absent)
  | GAt todo => forall k, In k (prog_temps todo) -> lookup (T k) s = Absent
  | GDone => True
  end.

Lemma temp_at_nth cur j : temp_at cur j = nth j (map snd cur) 0.
Proof. unfold temp_at, nth_file. now rewrite <- (map_nth snd cur (0, 0) j). Qed.

Lemma temp_at_in cur j : (j < length cur)%nat -> In (temp_at cur j) (map snd cur).
Proof. intros H. rewrite temp_at_nth. apply nth_In. now rewrite map_length. Qed.

Lemma temp_at_inj cur i j :
  NoDup (map snd cur) -> (i < length cur)%nat -> (j < length cur)%nat -> temp_at cur i = temp_at cur j -> i = j.
Proof.
  intros Hnd Hi Hj E. rewrite !temp_at_nth in E.
  apply (proj1 (NoDup_nth (map snd cur) 0) Hnd); rewrite ?map_length; assumption.
Qed.

Lemma NoDup_app_l {A} (l1 l2 : list A) : NoDup (l1 ++ l2) -> NoDup l1.
Proof.
  induction l1 as [|a l1 IH]; intros H; [constructor|]. apply NoDup_cons_iff in H as [Hn Hd].
  constructor; [|auto]. intros Hin. apply Hn. apply in_or_app. now left.
Qed.

Lemma NoDup_app_r {A} (l1 l2 : list A) : NoDup (l1 ++ l2) -> NoDup l2.
Proof. induction l1 as [|a l1 IH]; intros H; [exact H|]. apply NoDup_cons_iff in H as [_ Hd]. auto. Qed.

Lemma NoDup_app_disj {A} (l1 l2 : list A) x : NoDup (l1 ++ l2) -> In x l1 -> In x l2 -> False.
Proof.
  induction l1 as [|a l1 IH]; intros H H1 H2; [destruct H1|].
  apply NoDup_cons_iff in H as [Hn Hd]. destruct H1 as [->|H1].
  - apply Hn. apply in_or_app. now right.
  - eauto.
Qed.

Lemma gpinv_run_at s ph skip cur todo : gpinv s (GRun ph skip cur todo) -> gpinv s (GAt todo).
Proof. intros [Hnd (_ & _ & _ & Htodo)]. split; [exact (NoDup_app_r _ _ Hnd) | exact Htodo]. Qed.

Lemma gpinv_frame s s' p :
  gpinv s p -> (forall k, In k (gtemps p) -> lookup (T k) s' = lookup (T k) s) -> gpinv s' p.
Proof.
  intros [Hnd Hp] Hfr. split; [exact Hnd|].
  destruct p as [ph skip cur todo|todo|]; auto.
  - destruct Hp as (Hne & Hix & Hcur & Htodo). repeat split; auto.
    + intros j Hj. rewrite Hfr; [now apply Hcur|]. cbn [gtemps]. apply in_or_app. left. now apply temp_at_in.
    + intros k Hk. rewrite Hfr; [now apply Htodo|]. cbn [gtemps]. apply in_or_app. now right.
  - intros k Hk. rewrite Hfr; [now apply Hp|]. exact Hk.
Qed.

Lemma gpinv_set s ph ph' skip cur todo i x :
  gpinv s (GRun ph skip cur todo) -> (i < length cur)%nat -> ph_index_ok ph' (length cur) ->
  (forall j, (j < length cur)%nat -> tstate ph' j = if Nat.eqb j i then x else tstate ph j) ->
  gpinv (set (T (temp_at cur i)) x s) (GRun ph' skip cur todo).
Proof.
  intros [Hnd (Hne & _ & Hcur & Htodo)] Hi Hix Htab. cbn [gtemps] in Hnd.
  split; [exact Hnd|]. split; [exact Hne|]. split; [exact Hix|]. split.
  - intros j Hj. rewrite (Htab j Hj). destruct (Nat.eqb_spec j i) as [->|Hji].
    + apply lookup_set_eq.
    + rewrite lookup_set_temp; [now apply Hcur|].
      intros E. apply Hji. now apply (temp_at_inj cur j i (NoDup_app_l _ _ Hnd)).
  - intros k Hk. rewrite lookup_set_temp; [now apply Htodo|].
    intros ->. exact (NoDup_app_disj _ _ _ Hnd (temp_at_in cur i Hi) Hk).
Qed.

(* table equations: cases on the position of j relative to i *)
Ltac tstate_table i j :=
  cbn [tstate]; destruct (Nat.eqb_spec j i), (Nat.ltb_spec j i), (Nat.ltb_spec j (S i));
  try reflexivity; lia.

Lemma tstate_writing i : tstate (GWrite i) i = Partial.
Proof. cbn [tstate]. now rewrite Nat.ltb_irrefl, Nat.eqb_refl. Qed.

Lemma tstate_closing i : tstate (GClose i) i = Partial.
Proof. exact (tstate_writing i). Qed.

Lemma tstate_renaming i : tstate (GRename i) i = Complete.
Proof. cbn [tstate]. now rewrite Nat.ltb_irrefl. Qed.

Lemma tstate_after_create i j : tstate (GWrite i) j = if Nat.eqb j i then Partial else tstate (GCreate i) j.
Proof. tstate_table i j. Qed.

Lemma tstate_after_write i j : tstate (GClose i) j = if Nat.eqb j i then Partial else tstate (GWrite i) j.
Proof. tstate_table i j. Qed.

Lemma tstate_after_close i j :
  tstate (GCreate (S i)) j = if Nat.eqb j i then Complete else tstate (GClose i) j.
Proof. tstate_table i j. Qed.

Lemma tstate_after_last_close i j : (j <= i)%nat ->
  tstate (GRename 0) j = if Nat.eqb j i then Complete else tstate (GClose i) j.
Proof. intros H. tstate_table i j. Qed.

Lemma tstate_after_rename i j :
  tstate (GRename (S i)) j = if Nat.eqb j i then Absent else tstate (GRename i) j.
Proof. tstate_table i j. Qed.

(* after the last rename all temps are Absent again, as in GCheck *)
Lemma tstate_after_last_rename i j : (j <= i)%nat ->
  tstate GCheck j = if Nat.eqb j i then Absent else tstate (GRename i) j.
Proof. intros H. tstate_table i j. Qed.

Lemma gstep_inv any_skip s p :
  gpinv s p ->
  let '(s', p', _) := gstep any_skip s p in
  effect (gtemps p) s s' /\ gpinv s' p' /\ incl (gtemps p') (gtemps p).
Proof.
  intros Hp. destruct p as [ph skip cur todo|todo|].
  - pose proof Hp as [Hnd (Hne & Hix & Hcur & Htodo)].
    assert (Hin : forall i, (i < length cur)%nat -> In (temp_at cur i) (gtemps (GRun ph skip cur todo)))
      by (intros i Hi; apply in_or_app; left; now apply temp_at_in).
    assert (Hat : incl (gtemps (GAt todo)) (gtemps (GRun ph skip cur todo)))
      by apply incl_appr, incl_refl.
    destruct ph as [|i|i|i|i]; cbn [gstep]; cbn [ph_index_ok] in Hix; [|fold (temp_at cur i)..].
    + destruct (skip && _); (split; [apply effect_refl|]).
      * split; [exact (gpinv_run_at _ _ _ _ _ Hp) | exact Hat].
      * split; [|apply incl_refl]. destruct Hp as [_ Hp]. split; [exact Hnd|].
        repeat split; try apply Hp. destruct cur; [congruence | cbn; lia].
    + split; [apply effect_temp; auto | split; [|apply incl_refl]].
      apply (gpinv_set s (GCreate i)); auto using tstate_after_create.
    + rewrite apply_write by (rewrite (Hcur i Hix); apply tstate_writing).
      split; [apply effect_temp; auto | split; [|apply incl_refl]].
      apply (gpinv_set s (GWrite i)); auto using tstate_after_write.
    + rewrite apply_close by (rewrite (Hcur i Hix); apply tstate_closing).
      split; [apply effect_temp; auto | split; [|destruct (Nat.ltb _ _); apply incl_refl]].
      destruct (Nat.ltb_spec (S i) (length cur)) as [El|El].
      * apply (gpinv_set s (GClose i)); auto using tstate_after_close.
      * apply (gpinv_set s (GClose i)); [exact Hp | exact Hix | cbn; lia |].
        intros j Hj. apply tstate_after_last_close. lia.
    + rewrite apply_rename by (rewrite (Hcur i Hix); apply tstate_renaming).
      split; [apply effect_publish; auto|].
      assert (Hp1 : gpinv (set (F (fst (nth_file cur i))) Complete s) (GRun (GRename i) skip cur todo))
        by (apply (gpinv_frame s); [exact Hp|]; intros k _; now apply lookup_set_neq).
      destruct (Nat.ltb_spec (S i) (length cur)) as [El|El].
      * split; [|apply incl_refl]. apply (gpinv_set _ (GRename i)); auto using tstate_after_rename.
      * split; [|exact Hat]. apply (gpinv_run_at _ GCheck skip cur).
        apply (gpinv_set _ (GRename i)); [exact Hp1 | exact Hix | exact I |].
        intros j Hj. apply tstate_after_last_rename. lia.
  - destruct Hp as [Hnd Hp]. cbn [gtemps] in Hnd.
    destruct todo as [|[n|skip cur] todo]; cbn [gstep].
    + split; [apply effect_refl | split; [split; [constructor|exact I] | apply incl_refl]].
    + destruct (present (F n) s); (split; [apply effect_refl|]).
      * split; [split; [constructor|exact I] | intros x []].
      * split; [split; assumption | apply incl_refl].
    + cbn [prog_temps flat_map] in Hnd, Hp. fold (prog_temps todo) in Hnd, Hp.
      destruct cur as [|f cur]; (split; [apply effect_refl|]).
      * split; [split; assumption | apply incl_refl].
      * split; [|apply incl_refl]. split; [exact Hnd|]. split; [discriminate|]. split; [exact I|]. split.
        -- intros j Hj. cbn [tstate]. apply Hp. apply in_or_app. left. now apply temp_at_in.
        -- intros k Hk. apply Hp. apply in_or_app. now right.
  - split; [apply effect_refl | split; [split; [constructor|exact I] | apply incl_refl]].
Qed.

Lemma gsys_system any_skip :
  process_system (gstep any_skip) gtemps gpinv gs_fs gs_procs (gsys_step any_skip).
Proof.
  constructor; [| exact (gstep_inv any_skip) | exact gpinv_frame]. intros st i. unfold gsys_step.
  destruct (nth_error (gs_procs st) i) as [p|]; [|reflexivity].
  destruct (gstep any_skip (gs_fs st) p) as [[s' p'] o]. split; reflexivity.
Qed.

Definition gsys_inv (G : list instr -> fs -> gstate -> Prop) := ps_inv gtemps gpinv gs_fs gs_procs G.

Definition ginit (progs : list (list instr)) : list gstate := map GAt progs.

Definition gfresh (owner : N -> nat) (progs : list (list instr)) (s0 : fs) : Prop :=
  forall i pr, nth_error progs i = Some pr ->
    NoDup (prog_temps pr) /\ forall k, In k (prog_temps pr) -> owner k = i /\ lookup (T k) s0 = Absent.

Lemma gsys_inv_init (G : list instr -> fs -> gstate -> Prop) owner progs s0 :
  finals_ok s0 -> gfresh owner progs s0 -> (forall pr, G pr s0 (GAt pr)) ->
  gsys_inv G owner progs {| gs_fs := s0; gs_procs := ginit progs |}.
Proof.
  intros Hf Hfr HG. apply (ps_inv_init G owner progs GAt); [reflexivity | exact Hf |].
  intros i pr Epr. destruct (Hfr i pr Epr) as [Hnd Hk].
  split; [split; [exact Hnd|]; intros k Hin; apply (Hk k Hin)|].
  split; [intros k Hin; apply (Hk k Hin) | apply HG].
Qed.

Lemma g_no_partial_final owner any_skip progs s0 sched :
  finals_ok s0 -> gfresh owner progs s0 ->
  finals_ok (gs_fs (gsys_run any_skip {| gs_fs := s0; gs_procs := ginit progs |} sched)).
Proof.
  intros Hf Hfr. apply (ps_finals_run (gsys_system any_skip) owner progs).
  now apply gsys_inv_init.
Qed.

(* a guard found its file complete, or every file of every group is complete *)
Definition Good (prog : list instr) (s : fs) : Prop :=
  (exists n, In n (prog_guards prog) /\ lookup (F n) s = Complete) \/
  (forall n, In n (prog_finals prog) -> lookup (F n) s = Complete).

(* instructions passed are complete; while renaming, the files before the index *)
Definition gdone (prog : list instr) (s : fs) (p : gstate) : Prop :=
  match p with
  | GDone => Good prog s
  | GAt todo =>
      exists pre, prog = pre ++ todo /\ forall n, In n (prog_finals pre) -> lookup (F n) s = Complete
  | GRun ph skip cur todo =>
      exists pre, prog = pre ++ IGroup skip cur :: todo /\
        (forall n, In n (prog_finals pre) -> lookup (F n) s = Complete) /\
        match ph with
        | GRename i => forall j, (j < i)%nat -> lookup (F (fst (nth_file cur j))) s = Complete
        | _ => True
        end
  end.

Lemma prog_finals_app a b : prog_finals (a ++ b) = prog_finals a ++ prog_finals b.
Proof. unfold prog_finals. now rewrite flat_map_app. Qed.
Lemma prog_guards_app a b : prog_guards (a ++ b) = prog_guards a ++ prog_guards b.
Proof. unfold prog_guards. now rewrite flat_map_app. Qed.

Lemma all_present_complete s cur :
  finals_ok s -> all_present cur s = true -> forall n, In n (map fst cur) -> lookup (F n) s = Complete.
Proof.
  intros Hf H n Hn. unfold all_present in H. rewrite forallb_forall in H.
  apply in_map_iff in Hn as (f & <- & Hin). apply present_complete; [exact Hf|]. now apply H.
Qed.

Lemma in_cur_nth cur n : In n (map fst cur) -> exists j, (j < length cur)%nat /\ fst (nth_file cur j) = n.
Proof.
  intros H. apply (In_nth _ _ 0) in H as (j & Hj & E). rewrite map_length in Hj.
  exists j. split; [exact Hj|]. unfold nth_file. now rewrite <- E, <- (map_nth fst cur (0, 0) j).
Qed.

Lemma gdone_next prog s pre ins todo :
  prog = pre ++ ins :: todo -> (forall n, In n (prog_finals pre) -> lookup (F n) s = Complete) ->
  (forall n, In n (prog_finals [ins]) -> lookup (F n) s = Complete) -> gdone prog s (GAt todo).
Proof.
  intros E Hpre Hins. exists (pre ++ [ins]). split; [now rewrite <- app_assoc|].
  intros n Hn. rewrite prog_finals_app in Hn. apply in_app_or in Hn as [Hn|Hn]; auto.
Qed.

Lemma gdone_step prog s p :
  finals_ok s -> gpinv s p -> gdone prog s p ->
  let '(s', p', _) := gstep false s p in
  (forall n, lookup (F n) s = Complete -> lookup (F n) s' = Complete) -> gdone prog s' p'.
Proof.
  intros Hf [_ Hp] Hg. destruct p as [ph skip cur todo|todo|].
  - destruct Hg as (pre & Eprog & Hpre & Hph). destruct Hp as (_ & Hix & Hcur & _).
    destruct ph as [|i|i|i|i]; cbn [gstep].
    + destruct (skip && all_present cur s) eqn:Esk; intros _; [|exists pre; auto].
      apply andb_prop in Esk as [_ Eall]. apply (gdone_next _ _ pre (IGroup skip cur)); auto.
      cbn. rewrite app_nil_r. now apply all_present_complete.
    + intros Hmono. exists pre. auto.
    + intros Hmono. exists pre. auto.
    + intros Hmono. destruct (Nat.ltb (S i) (length cur)); exists pre; repeat split; auto.
      intros j Hj. lia.
    + cbn [ph_index_ok] in Hix. fold (temp_at cur i).
      rewrite apply_rename by (rewrite (Hcur i Hix); apply tstate_renaming).
      intros Hmono.
      assert (Hlt : forall j, (j < S i)%nat ->
                lookup (F (fst (nth_file cur j))) (set (T (temp_at cur i)) Absent (set (F (fst (nth_file cur i))) Complete s))
                = Complete).
      { intros j Hj. destruct (Nat.eq_dec j i) as [->|Hji]; [|apply Hmono, Hph; lia].
        rewrite lookup_set_neq by discriminate. apply lookup_set_eq. }
      destruct (Nat.ltb_spec (S i) (length cur)) as [El|El]; [exists pre; auto|].
      apply (gdone_next _ _ pre (IGroup skip cur)); auto.
      cbn. rewrite app_nil_r. intros n Hn. apply in_cur_nth in Hn as (j & Hj & <-). apply Hlt. lia.
  - destruct Hg as (pre & Eprog & Hpre).
    destruct todo as [|[n|skip cur] todo]; cbn [gstep].
    + intros _. right. intros n Hn. rewrite Eprog, app_nil_r in Hn. auto.
    + destruct (present (F n) s) eqn:Epr; intros _.
      * left. exists n. split; [|now apply present_complete].
        rewrite Eprog, prog_guards_app. apply in_or_app. right. now left.
      * apply (gdone_next _ _ pre (IGuard n)); auto. intros m [].
    + destruct cur as [|f cur]; intros _; [|exists pre; auto].
      apply (gdone_next _ _ pre (IGroup skip [])); auto. intros m [].
  - intros _. exact Hg.
Qed.

Lemma gdone_mono prog s s' p :
  (forall n, lookup (F n) s = Complete -> lookup (F n) s' = Complete) -> gdone prog s p -> gdone prog s' p.
Proof.
  intros Hm Hg. destruct p as [ph skip cur todo|todo|]; cbn in *.
  - destruct Hg as (pre & E & Hpre & Hph). exists pre. repeat split; auto. destruct ph; auto.
  - destruct Hg as (pre & E & Hpre). exists pre. split; auto.
  - destruct Hg as [(n & Hn & Hc)|Hall]; [left; eauto|right; auto].
Qed.

Lemma gdone_init owner progs s0 :
  finals_ok s0 -> gfresh owner progs s0 ->
  gsys_inv gdone owner progs {| gs_fs := s0; gs_procs := ginit progs |}.
Proof.
  intros Hf Hfr. apply gsys_inv_init; auto. intros pr. exists []. split; [reflexivity | intros n []].
Qed.

Lemma gdone_run owner progs s0 sched :
  finals_ok s0 -> gfresh owner progs s0 ->
  gsys_inv gdone owner progs (gsys_run false {| gs_fs := s0; gs_procs := ginit progs |} sched).
Proof.
  intros Hf Hfr. apply (ps_inv_run (gsys_system false) gdone gdone_step gdone_mono).
  now apply gdone_init.
Qed.

Lemma g_done_is_good owner progs s0 sched i pr :
  finals_ok s0 -> gfresh owner progs s0 ->
  let st := gsys_run false {| gs_fs := s0; gs_procs := ginit progs |} sched in
  nth_error progs i = Some pr -> nth_error (gs_procs st) i = Some GDone ->
  Good pr (gs_fs st).
Proof.
  intros Hf Hfr st Hpr Hp.
  exact (ps_G_at gdone owner progs st i pr GDone (gdone_run owner progs s0 sched Hf Hfr) Hpr Hp).
Qed.

(* steps left: three temp operations per file, then one rename each: 3 (L - i) + L at GCreate i *)
Definition gmeasure (p : gstate) : nat :=
  match p with
  | GDone => 0
  | GAt todo => prog_size todo
  | GRun ph _ cur todo =>
      prog_size todo +
      match ph with
      | GCheck => 1 + 4 * length cur
      | GCreate i => 4 * length cur - 3 * i
      | GWrite i => 4 * length cur - (3 * i + 1)
      | GClose i => 4 * length cur - (3 * i + 2)
      | GRename i => length cur - i
      end
  end%nat.

Lemma prog_size_pos prog : (1 <= prog_size prog)%nat.
Proof. induction prog as [|[n|sk cur] r IH]; cbn [prog_size]; lia. Qed.

Lemma gmeasure_step any_skip s p :
  gpinv s p -> p <> GDone -> (gmeasure (snd (fst (gstep any_skip s p))) < gmeasure p)%nat.
Proof.
  intros [_ Hp] Hne. destruct p as [ph skip cur todo|todo|]; [| |congruence].
  - destruct Hp as (Hcne & Hix & _). pose proof (prog_size_pos todo) as Hpos.
    assert (Hlen : (1 <= length cur)%nat) by (destruct cur; [congruence|cbn; lia]).
    destruct ph as [|i|i|i|i]; cbn [gstep fst snd]; cbn in Hix.
    + destruct (skip && _); cbn [fst snd gmeasure]; lia.
    + cbn [gmeasure]; lia.
    + cbn [gmeasure]; lia.
    + destruct (Nat.ltb_spec (S i) (length cur)); cbn [fst snd gmeasure]; lia.
    + destruct (Nat.ltb_spec (S i) (length cur)); cbn [fst snd gmeasure]; lia.
  - pose proof (prog_size_pos (tl todo)).
    destruct todo as [|[n|skip [|f cur]] todo]; cbn [gstep tl] in *;
      [| destruct (present (F n) s) | |]; cbn [fst snd gmeasure prog_size length]; lia.
Qed.

Lemma gmeasure_zero p : gmeasure p = 0%nat <-> p = GDone.
Proof.
  split; [|intros ->; reflexivity]. destruct p as [ph sk cur todo|todo|]; [| |reflexivity];
    pose proof (prog_size_pos todo); cbn [gmeasure]; lia.
Qed.

Lemma g_all_succeed owner progs s0 sched j pr :
  finals_ok s0 -> gfresh owner progs s0 -> nth_error progs j = Some pr ->
  (prog_size pr <= count_occ Nat.eq_dec sched j)%nat ->
  let st := gsys_run false {| gs_fs := s0; gs_procs := ginit progs |} sched in
  nth_error (gs_procs st) j = Some GDone /\ Good pr (gs_fs st) /\ finals_ok (gs_fs st).
Proof.
  intros Hf Hfr Hpr Hcnt st.
  assert (Ep : nth_error (gs_procs st) j = Some GDone).
  { apply (ps_finishes (gsys_system false) gdone gdone_step gdone_mono gmeasure GDone gmeasure_zero
             (fun s => eq_refl) (gmeasure_step false) owner progs sched j _ (GAt pr)
             (gdone_init owner progs s0 Hf Hfr)); [|exact Hcnt].
    exact (map_nth_error GAt j progs Hpr). }
  split; [exact Ep|]. split; [now apply (g_done_is_good owner progs s0 sched j pr)|].
  exact (proj1 (gdone_run owner progs s0 sched Hf Hfr)).
Qed.
