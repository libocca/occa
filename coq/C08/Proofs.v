(* C08/C09 — proofs over Model.v: the trace theorem; process systems in general (also used by
   GProofs.v); Model.v's builder as one. *)
From Coq Require Import List NArith Bool Lia Arith.
From OV.C08 Require Import Model Statements.
Import ListNotations.
Local Open Scope N_scope.

Lemma path_eqb_refl p : path_eqb p p = true.
Proof. destruct p; cbn; apply N.eqb_refl. Qed.

Lemma path_eqb_eq p q : path_eqb p q = true <-> p = q.
Proof.
  destruct p, q; cbn; split; intro H; try discriminate; try (apply N.eqb_eq in H; now subst);
    inversion H; apply N.eqb_refl.
Qed.

Lemma path_eqb_neq p q : path_eqb p q = false <-> p <> q.
Proof.
  split.
  - intros H E. apply path_eqb_eq in E. congruence.
  - intros H. destruct (path_eqb p q) eqn:E; [|reflexivity]. apply path_eqb_eq in E. contradiction.
Qed.

Lemma lookup_set_eq p st s : lookup p (set p st s) = st.
Proof. unfold set; cbn. now rewrite path_eqb_refl. Qed.

Lemma lookup_set_neq p q st s : p <> q -> lookup p (set q st s) = lookup p s.
Proof. intros H. unfold set; cbn. apply path_eqb_neq in H. now rewrite H. Qed.

Lemma lookup_set_temp k k' st s : k <> k' -> lookup (T k) (set (T k') st s) = lookup (T k) s.
Proof. intros H. apply lookup_set_neq. congruence. Qed.

Lemma FT_neq n k : F n <> T k. Proof. discriminate. Qed.
Lemma TF_neq n k : T k <> F n. Proof. discriminate. Qed.

Lemma fstate_eqb_eq a b : fstate_eqb a b = true <-> a = b.
Proof. destruct a, b; cbn; split; intro; congruence. Qed.

Lemma finals_ok_nil : finals_ok [].
Proof. intros n. cbn. discriminate. Qed.

Lemma finals_ok_set p st s :
  finals_ok s -> (is_final p = true -> st <> Partial) -> finals_ok (set p st s).
Proof.
  intros Hs Hp n. destruct (path_eqb (F n) p) eqn:E.
  - apply path_eqb_eq in E. subst p. rewrite lookup_set_eq. now apply Hp.
  - apply path_eqb_neq in E. rewrite lookup_set_neq by exact E. apply Hs.
Qed.

Lemma present_complete s n : finals_ok s -> present (F n) s = true -> lookup (F n) s = Complete.
Proof.
  intros Hf Hp. unfold present in Hp. specialize (Hf n).
  destruct (lookup (F n) s); cbn in Hp; congruence.
Qed.

Lemma apply_write k s : lookup (T k) s = Partial -> apply_op s (OWrite (T k)) = set (T k) Partial s.
Proof. intros H. cbn [apply_op]. now rewrite H. Qed.

Lemma apply_close k s : lookup (T k) s = Partial -> apply_op s (OClose (T k)) = set (T k) Complete s.
Proof. intros H. cbn [apply_op]. now rewrite H. Qed.

Lemma apply_rename k b s :
  lookup (T k) s = Complete -> apply_op s (ORename (T k) b) = set (T k) Absent (set b Complete s).
Proof. intros H. cbn [apply_op]. now rewrite H. Qed.

Lemma op_ok_preserves s o :
  finals_ok s -> op_ok s o = true -> finals_ok (apply_op s o).
Proof.
  intros Hs Hok. destruct o as [p|p|p|a b|p|p|]; cbn [apply_op op_ok] in *; try exact Hs.
  - apply andb_prop in Hok as [Hp _]. apply finals_ok_set; [exact Hs|].
    intros Hfin. rewrite Hfin in Hp. discriminate.
  - destruct (lookup p s); [exact Hs| |];
      (apply finals_ok_set; [exact Hs|]; intros Hfin; rewrite Hfin in Hok; discriminate).
  - destruct (lookup p s); try exact Hs. apply finals_ok_set; [exact Hs | discriminate].
  - apply andb_prop in Hok as [_ Hc]. apply fstate_eqb_eq in Hc. rewrite Hc.
    apply finals_ok_set; [apply finals_ok_set; [exact Hs|] |]; discriminate.
  - apply finals_ok_set; [exact Hs | discriminate].
Qed.

Lemma crash_safe_trace : forall t s0,
  finals_ok s0 -> protocol_ok_from s0 t = true ->
  forall n, finals_ok (run_ops s0 (firstn n t)).
Proof.
  induction t as [|o t IH]; intros s0 H0 Hok n.
  - destruct n; exact H0.
  - destruct n as [|n]; [exact H0|].
    cbn [protocol_ok_from] in Hok. apply andb_prop in Hok as [Ho Ht].
    cbn [firstn run_ops fold_left]. apply IH; [|exact Ht].
    now apply op_ok_preserves.
Qed.

(* one step of a process: no temp outside [ks] (its own) is touched; a final keeps its state or
   becomes Complete *)
Definition effect (ks : list N) (s s' : fs) : Prop :=
  (forall k, ~ In k ks -> lookup (T k) s' = lookup (T k) s) /\
  (forall n, lookup (F n) s' = lookup (F n) s \/ lookup (F n) s' = Complete).

Lemma effect_refl ks s : effect ks s s.
Proof. split; auto. Qed.

Lemma effect_temp ks k x s : In k ks -> effect ks s (set (T k) x s).
Proof.
  intros Hk. split.
  - intros k' Hk'. apply lookup_set_temp. congruence.
  - intros n. left. now apply lookup_set_neq.
Qed.

Lemma effect_publish ks k n s : In k ks -> effect ks s (set (T k) Absent (set (F n) Complete s)).
Proof.
  intros Hk. split.
  - intros k' Hk'. rewrite lookup_set_temp by congruence. now apply lookup_set_neq.
  - intros m. rewrite lookup_set_neq by discriminate. destruct (N.eq_dec m n) as [->|Hmn].
    + right. apply lookup_set_eq.
    + left. apply lookup_set_neq. congruence.
Qed.

Lemma effect_finals ks s s' : effect ks s s' -> finals_ok s -> finals_ok s'.
Proof. intros [_ H] Hf n. destruct (H n) as [E|E]; rewrite E; [apply Hf | discriminate]. Qed.

Lemma effect_mono ks s s' n :
  effect ks s s' -> lookup (F n) s = Complete -> lookup (F n) s' = Complete.
Proof. intros [_ H] Hn. destruct (H n) as [E|E]; congruence. Qed.

Lemma nth_error_upd {A} (l : list A) i j x :
  nth_error (upd l i x) j
  = if Nat.eqb i j then option_map (fun _ => x) (nth_error l i) else nth_error l j.
Proof.
  revert i j; induction l as [|a l IH]; intros [|i] [|j]; cbn; auto.
  destruct (Nat.eqb i j); reflexivity.
Qed.

Lemma NoDup4 {A} (a b c d : A) :
  a <> b -> a <> c -> a <> d -> b <> c -> b <> d -> c <> d -> NoDup [a; b; c; d].
Proof.
  intros. constructor; [intros [?|[?|[?|[]]]]; congruence|].
  constructor; [intros [?|[?|[]]]; congruence|].
  constructor; [intros [?|[]]; congruence|]. constructor; [intros [] | constructor].
Qed.

Lemma split_at_last (init pre suf : list (N * N)) bin k0 k :
  ~ In bin (names init) -> init ++ [(bin, k0)] = pre ++ (bin, k) :: suf -> pre = init.
Proof.
  revert pre. induction init as [|[n t] init IH]; intros pre Hni E.
  - destruct pre as [|p [|p' pre]]; [reflexivity | discriminate | discriminate].
  - destruct pre as [|p pre]; cbn in E.
    + injection E as En _ _. destruct Hni. now left.
    + injection E as Ep E2. f_equal; [now symmetry|]. apply IH; [|exact E2].
      intros Hin. apply Hni. now right.
Qed.

(* processes over one file system, stepped one at a time by [sstep]; [temps p]: the temp names p may
   still touch; [linv s p]: p's invariant, which reads its own temps only; the operation a
   step emits plays no part *)
Record process_system {P S : Type} (step : fs -> P -> fs * P * option op)
    (temps : P -> list N) (linv : fs -> P -> Prop)
    (fs_of : S -> fs) (procs_of : S -> list P) (sstep : S -> nat -> S) : Prop := {
  sstep_spec : forall st i,
    match nth_error (procs_of st) i with
    | None => sstep st i = st
    | Some p => let '(s', p', _) := step (fs_of st) p in
                fs_of (sstep st i) = s' /\ procs_of (sstep st i) = upd (procs_of st) i p'
    end;
  step_linv : forall s p, linv s p ->
    let '(s', p', _) := step s p in
    effect (temps p) s s' /\ linv s' p' /\ incl (temps p') (temps p);
  linv_frame : forall s s' p, linv s p ->
    (forall k, In k (temps p) -> lookup (T k) s' = lookup (T k) s) -> linv s' p
}.
Arguments sstep_spec {P S step temps linv fs_of procs_of sstep} _.
Arguments step_linv {P S step temps linv fs_of procs_of sstep} _.
Arguments linv_frame {P S step temps linv fs_of procs_of sstep} _.

Section ProcessSystem.
  Context {P S C : Type} {step : fs -> P -> fs * P * option op}.
  Context {temps : P -> list N} {linv : fs -> P -> Prop}.
  Context {fs_of : S -> fs} {procs_of : S -> list P} {sstep : S -> nat -> S}.
  Hypothesis HS : process_system step temps linv fs_of procs_of sstep.

  (* a further property of each process; the premise under the [let] follows from step_linv and is
     handed to the instances so that they need not derive it *)
  Variable G : C -> fs -> P -> Prop.
  Hypothesis G_step : forall c s p, finals_ok s -> linv s p -> G c s p ->
    let '(s', p', _) := step s p in
    (forall n, lookup (F n) s = Complete -> lookup (F n) s' = Complete) -> G c s' p'.
  Hypothesis G_mono : forall c s s' p,
    (forall n, lookup (F n) s = Complete -> lookup (F n) s' = Complete) -> G c s p -> G c s' p.

  Lemma sstep_cases st i :
    (nth_error (procs_of st) i = None /\ sstep st i = st) \/
    exists p s' p' o, nth_error (procs_of st) i = Some p /\ step (fs_of st) p = (s', p', o) /\
      fs_of (sstep st i) = s' /\
      forall j, nth_error (procs_of (sstep st i)) j
                = if Nat.eqb i j then Some p' else nth_error (procs_of st) j.
  Proof.
    pose proof (sstep_spec HS st i) as H.
    destruct (nth_error (procs_of st) i) as [p|] eqn:Ei; [right | now left].
    destruct (step (fs_of st) p) as [[s' p'] o] eqn:Es. destruct H as [Efs Eps].
    exists p, s', p', o. split; [reflexivity|]. split; [exact Es|]. split; [exact Efs|].
    intros j. now rewrite Eps, nth_error_upd, Ei.
  Qed.

  Definition ps_inv (owner : N -> nat) (cs : list C) (st : S) : Prop :=
    finals_ok (fs_of st) /\
    forall i p, nth_error (procs_of st) i = Some p ->
      linv (fs_of st) p /\ (forall k, In k (temps p) -> owner k = i) /\
      exists c, nth_error cs i = Some c /\ G c (fs_of st) p.

  Lemma ps_inv_step owner cs st i : ps_inv owner cs st -> ps_inv owner cs (sstep st i).
  Proof.
    intros [Hf Hps].
    destruct (sstep_cases st i) as [[_ ->]|(p & s' & p' & o & Ei & Es & Efs & Eps)];
      [split; assumption|].
    destruct (Hps i p Ei) as (Hpi & Hown & c & Hc & Hg).
    pose proof (step_linv HS _ _ Hpi) as H. pose proof (G_step c _ _ Hf Hpi Hg) as Hg'.
    rewrite Es in H, Hg'. destruct H as (Heff & Hp' & Hincl).
    pose proof (fun n => effect_mono _ _ _ n Heff) as Hmono.
    split; rewrite Efs; [exact (effect_finals _ _ _ Heff Hf)|].
    intros j q Hj. rewrite Eps in Hj. destruct (Nat.eqb_spec i j) as [<-|Hij].
    - injection Hj as <-. split; [exact Hp'|]. split; [intros k Hk; apply Hown, Hincl, Hk|].
      exists c. split; [exact Hc | exact (Hg' Hmono)].
    - destruct (Hps j q Hj) as (Hq & Hownq & c' & Hc' & Hgq).
      split; [|split; [exact Hownq | exists c'; split; [exact Hc' | exact (G_mono _ _ _ _ Hmono Hgq)]]].
      apply (linv_frame HS) with (s := fs_of st); [exact Hq|].
      (* a temp of q is not one of p's: the owners differ *)
      intros k Hk. apply Heff. intros Hin. apply Hij.
      rewrite <- (Hown k Hin). now apply Hownq.
  Qed.

  Lemma ps_run_ind owner cs (I : S -> Prop) :
    (forall st i, ps_inv owner cs st -> I st -> I (sstep st i)) ->
    forall sched st, ps_inv owner cs st -> I st -> I (fold_left sstep sched st).
  Proof.
    intros HI. induction sched as [|i sched IH]; intros st Hs H; [exact H|].
    cbn [fold_left]. apply IH; [now apply ps_inv_step | now apply HI].
  Qed.

  Lemma ps_inv_run owner cs sched st :
    ps_inv owner cs st -> ps_inv owner cs (fold_left sstep sched st).
  Proof. intros H. apply (ps_run_ind owner cs (ps_inv owner cs)); auto using ps_inv_step. Qed.

  Lemma ps_inv_init owner cs (init : C -> P) st :
    procs_of st = map init cs -> finals_ok (fs_of st) ->
    (forall i c, nth_error cs i = Some c ->
       linv (fs_of st) (init c) /\ (forall k, In k (temps (init c)) -> owner k = i) /\
       G c (fs_of st) (init c)) ->
    ps_inv owner cs st.
  Proof.
    intros E Hf H. split; [exact Hf|]. intros i p Hp. rewrite E, nth_error_map in Hp.
    destruct (nth_error cs i) as [c|] eqn:Ec; [|discriminate]. injection Hp as <-.
    destruct (H i c Ec) as (H1 & H2 & H3). split; [exact H1|]. split; [exact H2|]. now exists c.
  Qed.

  Lemma ps_G_at owner cs st i c p :
    ps_inv owner cs st -> nth_error cs i = Some c -> nth_error (procs_of st) i = Some p ->
    G c (fs_of st) p.
  Proof. intros [_ H] Hc Hp. destruct (H i p Hp) as (_ & _ & c' & Hc' & Hg). congruence. Qed.

  (* [fin], the finished process, alone has measure 0; it may still be scheduled and stays [fin] *)
  Section Measure.
    Variables (msr : P -> nat) (fin : P).
    Hypothesis msr_fin : forall p, msr p = 0%nat <-> p = fin.
    Hypothesis fin_step : forall s, snd (fst (step s fin)) = fin.
    Hypothesis msr_step : forall s p,
      linv s p -> p <> fin -> (msr (snd (fst (step s p))) < msr p)%nat.

    Lemma ps_measure_run owner cs sched j : forall st p,
      ps_inv owner cs st -> nth_error (procs_of st) j = Some p ->
      exists p', nth_error (procs_of (fold_left sstep sched st)) j = Some p' /\
                 (msr p' <= msr p - count_occ Nat.eq_dec sched j)%nat.
    Proof.
      induction sched as [|i sched IH]; intros st p Hinv E.
      - exists p. split; [exact E | cbn; lia].
      - cbn [fold_left count_occ]. pose proof (ps_inv_step owner cs st i Hinv) as Hinv'.
        destruct (sstep_cases st i) as [[Ei Est]|(q & s' & q' & o & Ei & Es & _ & Eps)].
        + rewrite Est in *. destruct (Nat.eq_dec i j) as [->|_]; [congruence | now apply IH].
        + destruct (Nat.eq_dec i j) as [->|Hij].
          * assert (q = p) by congruence. subst q.
            assert (H1 : (msr q' <= msr p - 1)%nat).
            { destruct (Nat.eq_dec (msr p) 0) as [H0|H0].
              - apply msr_fin in H0. subst p. pose proof (fin_step (fs_of st)) as Hq.
                rewrite Es in Hq. cbn [fst snd] in Hq. subst q'.
                rewrite (proj2 (msr_fin fin) eq_refl). apply le_n.
              - assert (Hne : p <> fin) by (intros ->; apply H0, msr_fin; reflexivity).
                pose proof (msr_step _ _ (proj1 (proj2 Hinv j p E)) Hne) as Hlt.
                rewrite Es in Hlt. cbn [fst snd] in Hlt. lia. }
            destruct (IH (sstep st j) q' Hinv') as (p2 & E2 & H2);
              [rewrite Eps, Nat.eqb_refl; reflexivity|].
            exists p2. split; [exact E2|]. clear - H1 H2. lia.
          * apply IH; [exact Hinv'|]. rewrite Eps. apply Nat.eqb_neq in Hij. now rewrite Hij.
    Qed.

    Lemma ps_finishes owner cs sched j st p :
      ps_inv owner cs st -> nth_error (procs_of st) j = Some p ->
      (msr p <= count_occ Nat.eq_dec sched j)%nat ->
      nth_error (procs_of (fold_left sstep sched st)) j = Some fin.
    Proof.
      intros Hinv E Hc. destruct (ps_measure_run owner cs sched j st p Hinv E) as (p' & E' & Hm).
      assert (p' = fin) by (apply msr_fin; lia). now subst p'.
    Qed.
  End Measure.
End ProcessSystem.
Arguments ps_inv {P S C} temps linv fs_of procs_of G owner cs st.

Lemma ps_finals_run {P S C : Type} {step temps linv fs_of procs_of sstep}
    (HS : @process_system P S step temps linv fs_of procs_of sstep) owner (cs : list C) sched st :
  ps_inv temps linv fs_of procs_of (fun _ _ _ => True) owner cs st ->
  finals_ok (fs_of (fold_left sstep sched st)).
Proof.
  intros H. apply (ps_inv_run HS (fun _ _ _ => True)) with (owner := owner) (cs := cs); [| |exact H].
  - intros c s p _ _ _. destruct (step s p) as [[s' p'] o]. auto.
  - auto.
Qed.

Definition cur_stages (p : pstate) : list (N * N) :=
  match p with
  | PStart st _ => st
  | PStage _ n k todo _ => (n, k) :: todo
  | _ => []
  end.

Definition ptemps (p : pstate) : list N := temps (cur_stages p).

Definition phase_state (ph : phase) : fstate :=
  match ph with
  | PCheck | PCreate => Absent
  | PWrite | PClose => Partial
  | PRename => Complete
  end.

Definition pinv (s : fs) (p : pstate) : Prop :=
  NoDup (ptemps p) /\
  match p with
  | PStart st _ => forall k, In k (temps st) -> lookup (T k) s = Absent
  | PStage ph n k todo _ =>
      lookup (T k) s = phase_state ph /\
      forall k', In k' (temps todo) -> lookup (T k') s = Absent
  | _ => True
  end.

Lemma pinv_next_stage s todo bin :
  NoDup (temps todo) -> (forall k, In k (temps todo) -> lookup (T k) s = Absent) ->
  pinv s (next_stage todo bin).
Proof.
  intros Hnd Hab. destruct todo as [|[n k] todo]; cbn.
  - split; [constructor|exact I].
  - split; [exact Hnd|]. split.
    + apply Hab. cbn. now left.
    + intros k' Hk'. apply Hab. cbn. now right.
Qed.

Lemma ptemps_next_stage todo bin : ptemps (next_stage todo bin) = temps todo.
Proof. destruct todo as [|[n k] todo]; reflexivity. Qed.

Lemma stage_write s ph ph' n k todo bin :
  pinv s (PStage ph n k todo bin) ->
  let s' := set (T k) (phase_state ph') s in
  effect (ptemps (PStage ph n k todo bin)) s s' /\ pinv s' (PStage ph' n k todo bin) /\
  incl (ptemps (PStage ph' n k todo bin)) (ptemps (PStage ph n k todo bin)).
Proof.
  intros [Hnd [_ Htodo]]. split; [apply effect_temp; now left|]. split; [|apply incl_refl].
  split; [exact Hnd|]. split; [apply lookup_set_eq|].
  intros k' Hk'. rewrite lookup_set_temp; [now apply Htodo|].
  intros ->. apply (proj1 (NoDup_cons_iff k (temps todo))) in Hnd. now destruct Hnd.
Qed.

Lemma proc_step_inv s p :
  pinv s p ->
  let '(s', p', _) := proc_step s p in
  effect (ptemps p) s s' /\ pinv s' p' /\ incl (ptemps p') (ptemps p).
Proof.
  intros Hp. destruct p as [st bin|ph n k todo bin|bin|]; cbn [proc_step].
  - destruct Hp as [Hnd Hp].
    destruct (present (F bin) s); (split; [apply effect_refl|]).
    + split; [split; [constructor|exact I] | intros x []].
    + split; [now apply pinv_next_stage | rewrite ptemps_next_stage; apply incl_refl].
  - assert (Hin : In k (ptemps (PStage ph n k todo bin))) by now left.
    pose proof Hp as [Hnd [Hk Htodo]].
    pose proof (proj1 (NoDup_cons_iff k (temps todo)) Hnd) as [Hknot Hnd'].
    destruct ph; cbn [phase_state] in Hk.
    + destruct (present (F n) s); (split; [apply effect_refl|]).
      * split; [now apply pinv_next_stage | rewrite ptemps_next_stage; apply incl_tl, incl_refl].
      * split; [exact Hp | apply incl_refl].
    + exact (stage_write s PCreate PWrite n k todo bin Hp).
    + rewrite apply_write by exact Hk. exact (stage_write s PWrite PClose n k todo bin Hp).
    + rewrite apply_close by exact Hk. exact (stage_write s PClose PRename n k todo bin Hp).
    + rewrite apply_rename by exact Hk.
      split; [now apply effect_publish|]. split.
      * apply pinv_next_stage; [exact Hnd'|].
        intros k' Hk'. rewrite lookup_set_temp, lookup_set_neq; [now apply Htodo | discriminate |].
        intros ->. contradiction.
      * rewrite ptemps_next_stage. apply incl_tl, incl_refl.
  - split; [apply effect_refl | split; [exact Hp | apply incl_refl]].
  - split; [apply effect_refl | split; [exact Hp | apply incl_refl]].
Qed.

Lemma pinv_frame s s' p :
  pinv s p -> (forall k, In k (ptemps p) -> lookup (T k) s' = lookup (T k) s) -> pinv s' p.
Proof.
  intros [Hnd Hp] Hfr. split; [exact Hnd|].
  destruct p as [st bin|ph n k todo bin|bin|]; auto.
  - intros k Hk. rewrite Hfr by exact Hk. now apply Hp.
  - destruct Hp as [Hk Htodo]. split.
    + rewrite Hfr; [exact Hk|]. cbn. now left.
    + intros k' Hk'. rewrite Hfr; [now apply Htodo|]. cbn. now right.
Qed.

Lemma sys_system : process_system proc_step ptemps pinv s_fs s_procs sys_step.
Proof.
  constructor; [| exact proc_step_inv | exact pinv_frame]. intros st i. unfold sys_step.
  destruct (nth_error (s_procs st) i) as [p|]; [|reflexivity].
  destruct (proc_step (s_fs st) p) as [[s' p'] o]. split; reflexivity.
Qed.

(* the stages a process has passed are complete; so is its binary after the last one, if staged *)
Definition staged (c : cfg) (s : fs) (p : pstate) : Prop :=
  let built := In (snd c) (names (fst c)) -> lookup (F (snd c)) s = Complete in
  match p with
  | PStart sg b => sg = fst c /\ b = snd c
  | PStage _ n k todo b =>
      b = snd c /\ exists pre, fst c = pre ++ (n, k) :: todo /\
                               forall m, In m (names pre) -> lookup (F m) s = Complete
  | PLoad b => b = snd c /\ built
  | PDone => built
  end.

Lemma staged_next c s pre todo :
  fst c = pre ++ todo -> (forall m, In m (names pre) -> lookup (F m) s = Complete) ->
  staged c s (next_stage todo (snd c)).
Proof.
  intros E H. destruct todo as [|[n k] todo]; cbn; (split; [reflexivity|]).
  - intros Hin. apply H. now rewrite E, app_nil_r in Hin.
  - now exists pre.
Qed.

Lemma staged_passed c s pre n k todo :
  fst c = pre ++ (n, k) :: todo -> (forall m, In m (names pre) -> lookup (F m) s = Complete) ->
  lookup (F n) s = Complete -> staged c s (next_stage todo (snd c)).
Proof.
  intros E H Hn. apply (staged_next c s (pre ++ [(n, k)])); [now rewrite <- app_assoc|].
  intros m Hin. unfold names in Hin. rewrite map_app in Hin.
  apply in_app_or in Hin as [Hin|[<-|[]]]; [now apply H | exact Hn].
Qed.

Lemma staged_mono c s s' p :
  (forall n, lookup (F n) s = Complete -> lookup (F n) s' = Complete) ->
  staged c s p -> staged c s' p.
Proof.
  intros Hm H. destruct p as [sg b|ph n k todo b|b|]; cbn in *.
  - exact H.
  - destruct H as (Hb & pre & E & Hpre). split; [exact Hb|]. exists pre. split; auto.
  - destruct H as [Hb H]. split; auto.
  - auto.
Qed.

Lemma staged_step c s p :
  finals_ok s -> pinv s p -> staged c s p ->
  let '(s', p', _) := proc_step s p in
  (forall n, lookup (F n) s = Complete -> lookup (F n) s' = Complete) -> staged c s' p'.
Proof.
  intros Hf [_ Hp] H. destruct p as [sg b|ph n k todo b|b|]; cbn [proc_step].
  - destruct H as [-> ->]. destruct (present (F (snd c)) s) eqn:Epr; intros _.
    + split; [reflexivity|]. intros _. now apply present_complete.
    + apply (staged_next c s []); [reflexivity | intros m []].
  - destruct ph.
    2-4: (* create, write, close: staged does not look at the phase *)
      intros Hmono; exact (staged_mono _ _ _ _ Hmono H).
    + destruct H as (-> & pre & E & Hpre).
      destruct (present (F n) s) eqn:Epr; intros _; [|split; [reflexivity | now exists pre]].
      apply (staged_passed c s pre n k); auto. now apply present_complete.
    + destruct H as (-> & pre & E & Hpre), Hp as [Hk _]. rewrite apply_rename by exact Hk.
      intros Hmono. apply (staged_passed c _ pre n k); auto.
      rewrite lookup_set_neq by discriminate. apply lookup_set_eq.
  - intros _. now destruct H.
  - intros _. exact H.
Qed.

Definition sys_inv : (N -> nat) -> list cfg -> sys -> Prop :=
  ps_inv ptemps pinv s_fs s_procs staged.

Lemma sys_inv_init owner cfgs s0 :
  finals_ok s0 -> fresh_temps owner cfgs s0 ->
  sys_inv owner cfgs {| s_fs := s0; s_procs := init_procs cfgs |}.
Proof.
  intros Hf Hfr. apply (ps_inv_init staged owner cfgs (fun c => PStart (fst c) (snd c)));
    [reflexivity | exact Hf |].
  intros i c Ec. destruct (Hfr i c Ec) as [Hnd Hk].
  split; [split; [exact Hnd|]; intros k Hin; apply (Hk k Hin)|].
  split; [intros k Hin; apply (Hk k Hin) | split; reflexivity].
Qed.

Lemma sys_inv_run owner cfgs s0 sched :
  finals_ok s0 -> fresh_temps owner cfgs s0 ->
  sys_inv owner cfgs (sys_run {| s_fs := s0; s_procs := init_procs cfgs |} sched).
Proof.
  intros Hf Hfr. apply (ps_inv_run sys_system staged staged_step staged_mono).
  now apply sys_inv_init.
Qed.

Lemma no_partial_final_any_schedule owner cfgs s0 sched :
  finals_ok s0 -> fresh_temps owner cfgs s0 ->
  finals_ok (s_fs (sys_run {| s_fs := s0; s_procs := init_procs cfgs |} sched)).
Proof. intros Hf Hfr. apply (sys_inv_run owner cfgs s0 sched Hf Hfr). Qed.

Lemma staged_at owner cfgs s0 sched i c p :
  finals_ok s0 -> fresh_temps owner cfgs s0 ->
  let st := sys_run {| s_fs := s0; s_procs := init_procs cfgs |} sched in
  nth_error cfgs i = Some c -> nth_error (s_procs st) i = Some p -> staged c (s_fs st) p.
Proof.
  intros Hf Hfr st. exact (ps_G_at staged owner cfgs st i c p (sys_inv_run owner cfgs s0 sched Hf Hfr)).
Qed.

Lemma finished_has_binary owner cfgs s0 sched i c p :
  finals_ok s0 -> fresh_temps owner cfgs s0 -> stages_bin cfgs ->
  let st := sys_run {| s_fs := s0; s_procs := init_procs cfgs |} sched in
  nth_error cfgs i = Some c -> nth_error (s_procs st) i = Some p -> finished p ->
  lookup (F (snd c)) (s_fs st) = Complete.
Proof.
  intros Hf Hfr Hb st Hc Hp Hfin. pose proof (staged_at owner cfgs s0 sched i c p Hf Hfr Hc Hp) as H.
  destruct p; try contradiction; apply H, (Hb i c Hc).
Qed.

Lemma load_sees_complete owner cfgs s0 sched i c b :
  finals_ok s0 -> fresh_temps owner cfgs s0 -> stages_bin cfgs ->
  let st := sys_run {| s_fs := s0; s_procs := init_procs cfgs |} sched in
  nth_error cfgs i = Some c ->
  nth_error (s_procs st) i = Some (PLoad b) ->
  lookup (F b) (s_fs st) = Complete.
Proof.
  intros Hf Hfr Hb st Hc Hp.
  destruct (staged_at owner cfgs s0 sched i c _ Hf Hfr Hc Hp) as [-> H]. apply H, (Hb i c Hc).
Qed.

Definition measure (p : pstate) : nat :=
  (match p with
  | PStart st _ => 5 * length st + 2
  | PStage ph _ _ todo _ =>
      5 * length todo + 1 +
      match ph with PCheck => 5 | PCreate => 4 | PWrite => 3 | PClose => 2 | PRename => 1 end
  | PLoad _ => 1
  | PDone => 0
  end)%nat.

Lemma measure_next_stage todo bin : (measure (next_stage todo bin) <= 5 * length todo + 1)%nat.
Proof. destruct todo as [|[n k] todo]; cbn [next_stage measure length]; lia. Qed.

Lemma measure_step s p :
  p <> PDone -> (measure (snd (fst (proc_step s p))) < measure p)%nat.
Proof.
  intros Hne. destruct p as [st b|ph n k todo b|b|]; cbn [proc_step]; try congruence.
  - pose proof (measure_next_stage st b). destruct (present (F b) s); cbn [fst snd measure]; lia.
  - pose proof (measure_next_stage todo b).
    destruct ph; [destruct (present (F n) s)| | | |]; cbn [fst snd measure]; lia.
  - cbn. lia.
Qed.

Lemma pdone_dec p : p = PDone \/ p <> PDone.
Proof. destruct p; auto; right; discriminate. Qed.

Lemma measure_zero p : measure p = 0%nat <-> p = PDone.
Proof.
  split; [|intros ->; reflexivity].
  destruct p as [st b|ph n k todo b|b|]; cbn; try lia; auto; destruct ph; lia.
Qed.

Lemma run_alone_done : forall fuel s p,
  (measure p <= fuel)%nat -> snd (fst (run_alone fuel s p)) = PDone.
Proof.
  induction fuel as [|f IH]; intros s p Hm.
  - cbn. apply measure_zero. lia.
  - destruct (pdone_dec p) as [->|Hne]; [reflexivity|].
    pose proof (measure_step s p Hne) as Hlt.
    assert (E : run_alone (S f) s p
                = let '(s', p', o) := proc_step s p in
                  let '(s'', p'', os) := run_alone f s' p' in
                  (s'', p'', match o with Some x => x :: os | None => os end))
      by (destruct p; try reflexivity; contradiction).
    rewrite E. destruct (proc_step s p) as [[s' p'] o]. cbn [fst snd] in Hlt.
    specialize (IH s' p'). destruct (run_alone f s' p') as [[s'' p''] os]. apply IH. lia.
Qed.

Lemma all_succeed owner cfgs s0 sched j c :
  finals_ok s0 -> fresh_temps owner cfgs s0 -> stages_bin cfgs ->
  nth_error cfgs j = Some c ->
  (fuel_for (fst c) <= count_occ Nat.eq_dec sched j)%nat ->
  let st := sys_run {| s_fs := s0; s_procs := init_procs cfgs |} sched in
  nth_error (s_procs st) j = Some PDone /\ lookup (F (snd c)) (s_fs st) = Complete.
Proof.
  intros Hf Hfr Hb Hc Hcnt st.
  assert (Ep : nth_error (s_procs st) j = Some PDone).
  { apply (ps_finishes sys_system staged staged_step staged_mono measure PDone measure_zero
             (fun s => eq_refl) (fun s p _ => measure_step s p) owner cfgs sched j _
             (PStart (fst c) (snd c)) (sys_inv_init owner cfgs s0 Hf Hfr)).
    - exact (map_nth_error (fun c => PStart (fst c) (snd c)) j cfgs Hc).
    - cbn [measure]. unfold fuel_for in Hcnt. lia. }
  split; [exact Ep|]. now apply (finished_has_binary owner cfgs s0 sched j c PDone).
Qed.

Lemma kill_then_rebuild owner cfgs s0 sched j c :
  finals_ok s0 -> fresh_temps owner cfgs s0 -> stages_bin cfgs ->
  nth_error cfgs j = Some c ->
  let st := sys_run {| s_fs := s0; s_procs := init_procs cfgs |}
                    (sched ++ repeat j (fuel_for (fst c))) in
  nth_error (s_procs st) j = Some PDone /\
  lookup (F (snd c)) (s_fs st) = Complete /\
  finals_ok (s_fs st).
Proof.
  intros Hf Hfr Hb Hc st.
  destruct (all_succeed owner cfgs s0 (sched ++ repeat j (fuel_for (fst c))) j c Hf Hfr Hb Hc)
    as [H1 H2].
  { rewrite count_occ_app, count_occ_repeat_eq by reflexivity. lia. }
  split; [exact H1|]. split; [exact H2|]. now apply (no_partial_final_any_schedule owner).
Qed.

Lemma proc_step_final_frame s p m :
  lookup (F m) (fst (fst (proc_step s p))) = lookup (F m) s \/
  exists k todo b, p = PStage PRename m k todo b.
Proof.
  destruct p as [sg b|ph n k todo b|b|]; cbn [proc_step].
  - destruct (present (F b) s); now left.
  - destruct ph; cbn [fst apply_op].
    + destruct (present (F n) s); now left.
    + left. now apply lookup_set_neq.
    + left. destruct (lookup (T k) s); [reflexivity| |]; now apply lookup_set_neq.
    + left. destruct (lookup (T k) s); reflexivity.
    + destruct (N.eq_dec m n) as [->|Hne]; [right; eauto|left].
      destruct (lookup (T k) s); [reflexivity| |];
        rewrite lookup_set_neq by discriminate; apply lookup_set_neq; congruence.
  - now left.
  - now left.
Qed.

Lemma metadata_step owner json bin cfgs st i :
  json_before_bin json bin cfgs -> sys_inv owner cfgs st ->
  (lookup (F bin) (s_fs st) = Complete -> lookup (F json) (s_fs st) = Complete) ->
  lookup (F bin) (s_fs (sys_step st i)) = Complete ->
  lookup (F json) (s_fs (sys_step st i)) = Complete.
Proof.
  intros Hjb Hinv HG.
  destruct (sstep_cases sys_system st i)
    as [[_ ->]|(p & s' & p' & o & Ei & Es & -> & _)]; [exact HG|].
  destruct (proj2 Hinv i p Ei) as (Hpi & _ & c & Ec & Hst).
  pose proof (proc_step_inv _ _ Hpi) as Heff.
  pose proof (proc_step_final_frame (s_fs st) p bin) as Hfr. rewrite Es in Heff, Hfr.
  intros Hb. apply (effect_mono _ _ _ _ (proj1 Heff)).
  destruct Hfr as [Heq|(k & todo & b & ->)].
  - apply HG. now rewrite <- Heq.
  - (* this step is the rename onto the binary: its build.json was staged before *)
    destruct Hst as (_ & pre & Esg & Hpre).
    apply Hpre. now apply (proj2 (Hjb i c Ec) pre todo k).
Qed.

Lemma binary_implies_metadata owner json bin cfgs s0 sched :
  finals_ok s0 -> fresh_temps owner cfgs s0 -> json_before_bin json bin cfgs ->
  (lookup (F bin) s0 = Complete -> lookup (F json) s0 = Complete) ->
  let st := sys_run {| s_fs := s0; s_procs := init_procs cfgs |} sched in
  lookup (F bin) (s_fs st) = Complete -> lookup (F json) (s_fs st) = Complete.
Proof.
  intros Hf Hfr Hjb H0 st.
  apply (ps_run_ind sys_system staged staged_step staged_mono owner cfgs
           (fun st => lookup (F bin) (s_fs st) = Complete -> lookup (F json) (s_fs st) = Complete)).
  - intros st' i. now apply metadata_step.
  - now apply sys_inv_init.
  - exact H0.
Qed.

Lemma cache_reused s st bin :
  lookup (F bin) s = Complete -> emitted s st bin = [ORead (F bin)].
Proof.
  (* two steps: PStart sees the binary and goes to PLoad, which emits the read and is PDone *)
  intros H. unfold emitted, fuel_for. rewrite Nat.add_comm. cbn [Nat.add run_alone proc_step].
  unfold present. rewrite H. cbn [fstate_eqb negb run_alone proc_step].
  destruct (5 * length st)%nat; reflexivity.
Qed.
