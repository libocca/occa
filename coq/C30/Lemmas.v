(* C30 — generic lemmas: thread lists, Held/Disj under a step of one thread, the counter sums,
   rings as lists, the layer of counted objects. *)
From Coq Require Import List Arith Bool ZArith Lia.
From OV.C01 Require Heap.
From OV.C30 Require Import Model Statements.
Import ListNotations.

Lemma upd_same {A} (f : nat -> A) k v : upd f k v k = v.
Proof. unfold upd. now rewrite Nat.eqb_refl. Qed.
Lemma upd_other {A} (f : nat -> A) k v x : x <> k -> upd f k v x = f x.
Proof. unfold upd. intros H. destruct (Nat.eqb_spec x k); [contradiction|reflexivity]. Qed.
Lemma upd_cases {A} (f : nat -> A) k v x : (x = k /\ upd f k v x = v) \/ (x <> k /\ upd f k v x = f x).
Proof. destruct (Nat.eq_dec x k) as [->|H]; [left; split; [reflexivity|apply upd_same]|right; split; [assumption|now apply upd_other]]. Qed.
Lemma upd2_same {A} (f : nat -> nat -> A) t k v : upd2 f t k v t k = v.
Proof. unfold upd2. now rewrite !Nat.eqb_refl. Qed.
Lemma upd2_other {A} (f : nat -> nat -> A) t k v a b : (a <> t \/ b <> k) -> upd2 f t k v a b = f a b.
Proof.
  unfold upd2. intros H. destruct (Nat.eqb_spec a t); destruct (Nat.eqb_spec b k); cbn; try reflexivity.
  subst. destruct H; contradiction.
Qed.
Lemma upd2_differ {A} (f : nat -> nat -> A) t k v a b : f a b <> f t k -> upd2 f t k v a b = f a b.
Proof.
  intros H. apply upd2_other. destruct (Nat.eq_dec a t) as [->|]; [|now left].
  destruct (Nat.eq_dec b k) as [->|]; [now destruct H|now right].
Qed.
Lemma upd2_cases {A} (f : nat -> nat -> A) t k v a b :
  (a = t /\ b = k /\ upd2 f t k v a b = v) \/ ((a <> t \/ b <> k) /\ upd2 f t k v a b = f a b).
Proof.
  destruct (Nat.eq_dec a t) as [->|H]; [destruct (Nat.eq_dec b k) as [->|H]|].
  - left. repeat split. apply upd2_same.
  - right. split; [now right|]. apply upd2_other. now right.
  - right. split; [now left|]. apply upd2_other. now left.
Qed.

Lemma fold_left_inv {A B} (P : A -> Prop) (g : A -> B -> A) l :
  (forall a b, P a -> P (g a b)) -> forall a, P a -> P (fold_left g l a).
Proof. intros H. induction l as [|b l IH]; intros a Ha; cbn; auto. Qed.

Lemma nth_error_upd_nth_same {A} (l : list A) i x y :
  nth_error l i = Some y -> nth_error (upd_nth l i x) i = Some x.
Proof.
  revert i. induction l as [|a l IH]; intros [|i] H; cbn in *; try discriminate; [reflexivity|now apply IH].
Qed.
Lemma nth_error_upd_nth_other {A} (l : list A) i j x :
  i <> j -> nth_error (upd_nth l i x) j = nth_error l j.
Proof.
  revert i j. induction l as [|a l IH]; intros [|i] [|j] H; cbn; try reflexivity; try congruence.
  apply IH. congruence.
Qed.

Lemma at_thr_upd ths t th0 th' i p :
  nth_error ths t = Some th0 ->
  (at_thr (upd_nth ths t th') i p <-> (i = t /\ cur th' = p) \/ (i <> t /\ at_thr ths i p)).
Proof.
  intros Ht. unfold at_thr. destruct (Nat.eq_dec i t) as [->|Hne].
  - rewrite (nth_error_upd_nth_same _ _ _ _ Ht). split.
    + intros (th & E & Hc). inversion E; subst. now left.
    + intros [[_ Hc]|[Hn _]]; [|contradiction]. eauto.
  - rewrite nth_error_upd_nth_other by congruence. split.
    + intros H. right. now split.
    + intros [[E _]|[_ H]]; [contradiction|assumption].
Qed.
Arguments at_thr_upd {ths t th0 th' i p}.

Lemma at_thr_self ths t th0 : nth_error ths t = Some th0 -> at_thr ths t (cur th0).
Proof. intros H. exists th0. now split. Qed.
Arguments at_thr_self {ths t th0}.

Lemma at_thr_fun ths i p q : at_thr ths i p -> at_thr ths i q -> p = q.
Proof. intros (a & Ha & <-) (b & Hb & <-). congruence. Qed.

Section HeldDisj.
Variable f : pc -> option nat.
Variables (ths : list thread) (t : nat) (th0 th' : thread).
Hypothesis Ht : nth_error ths t = Some th0.

Lemma held_now x : f (cur th') = Some x -> Held f (upd_nth ths t th') x.
Proof. intros E. exists t, (cur th'). split; [apply (at_thr_upd Ht); now left|assumption]. Qed.

Lemma held_still x :
  Held f ths x -> (f (cur th0) = Some x -> f (cur th') = Some x) -> Held f (upd_nth ths t th') x.
Proof.
  intros (i & p & Ha & Hf) K. destruct (Nat.eq_dec i t) as [->|Hn].
  - apply held_now, K. now rewrite (at_thr_fun _ _ _ _ (at_thr_self Ht) Ha).
  - exists i, p. split; [apply (at_thr_upd Ht); now right|assumption].
Qed.

Lemma held_upd_swap x y z :
  Disj f ths -> f (cur th0) = Some y -> f (cur th') = Some z ->
  (Held f (upd_nth ths t th') x <-> x = z \/ (x <> y /\ Held f ths x)).
Proof.
  intros D E0 E1. split.
  - intros (i & p & Ha & Hf). apply (at_thr_upd Ht) in Ha as [[-> <-]|[Hn Ha]]; [left; congruence|].
    right. split; [|exists i, p; auto]. intros ->. apply Hn. eapply D; eauto using at_thr_self.
  - intros [->|[Hxy H]]; [now apply held_now|]. apply held_still; [assumption|congruence].
Qed.

Lemma disj_upd :
  Disj f ths -> (forall x, f (cur th') = Some x -> f (cur th0) = Some x \/ ~ Held f ths x) ->
  Disj f (upd_nth ths t th').
Proof.
  intros D N i j p q x Hi Hj Hp Hq.
  apply (at_thr_upd Ht) in Hi as [[-> <-]|[Hni Hi]];
  apply (at_thr_upd Ht) in Hj as [[-> <-]|[Hnj Hj]]; try reflexivity.
  - destruct (N x Hp) as [E|H]; [eapply D; eauto using at_thr_self|destruct H; exists j, q; now split].
  - destruct (N x Hq) as [E|H]; [eapply D; eauto using at_thr_self|destruct H; exists i, p; now split].
  - eapply D; eauto.
Qed.
End HeldDisj.
Arguments held_now f {ths t th0 th'}.
Arguments held_still f {ths t th0 th'}.
Arguments disj_upd f {ths t th0 th'}.

Lemma held_self f ths t th0 x : nth_error ths t = Some th0 -> f (cur th0) = Some x -> Held f ths x.
Proof. intros H E. exists t, (cur th0). split; [now apply at_thr_self|assumption]. Qed.

Lemma not_held_idle f ths x : (forall i p, at_thr ths i p -> p = PIdle) -> f PIdle = None -> ~ Held f ths x.
Proof. intros H E (i & p & Ha & Hf). rewrite (H _ _ Ha) in Hf. congruence. Qed.

Lemma disj_other f ths t th0 i p x :
  Disj f ths -> nth_error ths t = Some th0 -> f (cur th0) = Some x -> at_thr ths i p -> i <> t -> f p <> Some x.
Proof. intros D Ht E Hi Hn Hp. apply Hn. eapply D; eauto using at_thr_self. Qed.

Lemma sum_pend_upd s ths t th0 th' :
  nth_error ths t = Some th0 ->
  sum_pend s (upd_nth ths t th') = (sum_pend s ths - pend s (cur th0) + pend s (cur th'))%Z.
Proof.
  revert t. induction ths as [|a l IH]; intros [|t] H; cbn in *; try discriminate.
  - inversion H; subst. lia.
  - rewrite (IH _ H). lia.
Qed.
Arguments sum_pend_upd {s ths t th0 th'}.

Lemma sum_pend_ext s s' ths :
  (forall i p, at_thr ths i p -> pend s' p = pend s p) -> sum_pend s' ths = sum_pend s ths.
Proof.
  induction ths as [|a l IH]; intros H; cbn; [reflexivity|].
  rewrite (H 0 (cur a)) by (exists a; now split).
  rewrite IH; [reflexivity|]. intros i p (th & Hn & Hc). apply (H (S i)). exists th. now split.
Qed.

Lemma sum_pend_idle s ths : (forall i p, at_thr ths i p -> p = PIdle) -> sum_pend s ths = 0%Z.
Proof.
  induction ths as [|a l IH]; intros H; cbn; [reflexivity|].
  rewrite (H 0 (cur a)) by (exists a; now split). cbn. apply IH.
  intros i p (th & Hn & Hc). apply (H (S i)). exists th. now split.
Qed.

Lemma live_bytes_ext s s' n :
  (forall k, k < n -> balive s' k = balive s k /\ bsize s' k = bsize s k) -> live_bytes s' n = live_bytes s n.
Proof.
  induction n as [|n IH]; intros H; cbn; [reflexivity|].
  destruct (H n) as [-> ->]; [lia|]. rewrite IH; [reflexivity|]. intros k Hk. apply H. lia.
Qed.

Lemma live_bytes_kill s s' n b :
  b < n -> balive s b = true -> balive s' b = false ->
  (forall k, k <> b -> balive s' k = balive s k) -> (forall k, bsize s' k = bsize s k) ->
  live_bytes s' n = (live_bytes s n - bsize s b)%Z.
Proof.
  intros Hb Ha Ha' Ho Hs. induction n as [|n IH]; [lia|]. cbn.
  destruct (Nat.eq_dec n b) as [->|Hn].
  - rewrite Ha, Ha'. rewrite (live_bytes_ext s s' b); [lia|].
    intros k Hk. split; [apply Ho; lia|apply Hs].
  - rewrite IH by lia. rewrite Ho by assumption. rewrite Hs. lia.
Qed.

Lemma live_bytes_new s s' n size :
  balive s' n = true -> bsize s' n = size ->
  (forall k, k < n -> balive s' k = balive s k /\ bsize s' k = bsize s k) ->
  live_bytes s' (S n) = (live_bytes s n + size)%Z.
Proof. intros Ha Hs Ho. cbn. rewrite Ha, Hs. now rewrite (live_bytes_ext s s' n Ho). Qed.

Lemma ring_rem_In e l x : NoDup l -> (In x (ring_rem e l) <-> In x l /\ x <> e).
Proof. apply Heap.ring_remove_In. Qed.
Lemma ring_rem_NoDup e l : NoDup l -> NoDup (ring_rem e l).
Proof. apply Heap.ring_remove_NoDup. Qed.

Lemma is_nil_true l : is_nil l = true <-> l = [].
Proof. destruct l; cbn; split; congruence. Qed.
Lemma is_nil_false l : is_nil l = false <-> l <> [].
Proof. destruct l; cbn; split; congruence. Qed.

Lemma nil_no_In {A} (l : list A) : l = [] <-> forall x, ~ In x l.
Proof.
  split; [intros -> x []|]. destruct l as [|a l]; [reflexivity|]. intros H. destruct (H a). now left.
Qed.

Lemma ring_rem_nil e l : NoDup l -> (ring_rem e l = [] <-> forall x, In x l -> x = e).
Proof.
  intros Hnd. rewrite nil_no_In. split.
  - intros H x Hx. destruct (Nat.eq_dec x e) as [|Hne]; [assumption|].
    destruct (H x). apply ring_rem_In; [assumption|]. now split.
  - intros H x Hx. apply ring_rem_In in Hx as [Hx Hne]; [|assumption]. apply Hne. now apply H.
Qed.

Lemma ring_add_In l e x : In x (ring_add l e) <-> In x l \/ x = e.
Proof. unfold ring_add. rewrite in_app_iff. cbn. intuition. Qed.
Lemma ring_add_NoDup l e : NoDup l -> ~ In e l -> NoDup (ring_add l e).
Proof.
  unfold ring_add. induction l as [|a l IH]; intros Hnd Hn; cbn.
  - constructor; [intros []|constructor].
  - apply NoDup_cons_iff in Hnd as [Ha Hnd]. constructor.
    + rewrite in_app_iff. cbn. intros [H|[H|[]]]; [contradiction|]. apply Hn. now left.
    + apply IH; [assumption|]. intros H. apply Hn. now right.
Qed.

(* modeMemory_t under its wrappers and modeBuffer_t under its modeMemory_t's follow one protocol:
   an object is alive or was destroyed once; while its ring of referrers is not empty it is alive
   and undestroyed; when the ring is empty one thread holds it and knows that much.  [f] reads off
   a pc the object held there, [d] how often its destructor has run. *)
Section Layer.
Variables (f : pc -> option nat) (d : pc -> nat).

Record Layer (n : nat) (alive : nat -> bool) (ring : nat -> list nat) (des : nat -> nat)
             (ths : list thread) : Prop := {
  l_lt    : forall x, alive x = true -> x < n;
  l_nd    : forall x, NoDup (ring x);
  l_ref   : forall x, ring x <> [] -> alive x = true /\ des x = 0;
  l_held  : forall x, alive x = true -> ring x = [] -> Held f ths x;
  l_disj  : Disj f ths;
  l_dead  : forall x, x < n -> alive x = false -> des x = 1;
  l_fresh : forall x, n <= x -> des x = 0;
  l_know  : forall i p x, at_thr ths i p -> f p = Some x -> alive x = true /\ ring x = [] /\ des x = d p }.

(* for an update that writes to a ring what it held already: equal pointwise, not convertible *)
Lemma layer_ring_ext n alive ring ring' des ths :
  (forall x, ring' x = ring x) -> Layer n alive ring des ths -> Layer n alive ring' des ths.
Proof.
  intros E [Hlt Hnd Href Hheld Hdisj Hdead Hfresh Hknow]. constructor; try assumption; intros *; rewrite E;
    [apply Hnd|apply Href|apply Hheld|apply Hknow].
Qed.

Lemma layer_fresh {n alive ring des ths} x :
  Layer n alive ring des ths -> n <= x -> alive x = false /\ ring x = [].
Proof.
  intros L Hx. assert (Ha : alive x = false).
  { destruct (alive x) eqn:E; [apply (l_lt _ _ _ _ _ L) in E; lia|reflexivity]. }
  split; [assumption|]. destruct (ring x) eqn:E; [reflexivity|].
  destruct (l_ref _ _ _ _ _ L x) as [H _]; [rewrite E; discriminate|congruence].
Qed.

Lemma layer_unheld {n alive ring des ths} o :
  Layer n alive ring des ths -> alive o = false \/ ring o <> [] -> ~ Held f ths o.
Proof. intros L H (i & p & Ha & E). destruct (l_know _ _ _ _ _ L i p o Ha E) as (A & B & _). destruct H; congruence. Qed.

Lemma layer_init ths :
  (forall i p, at_thr ths i p -> f p = None) -> Layer 0 (fun _ => false) (fun _ => []) (fun _ => 0) ths.
Proof.
  intros N. constructor; try easy.
  - constructor.
  - intros i j p q x Ha _ Hp. rewrite (N i p Ha) in Hp. discriminate.
  - intros i p x Ha Hp. rewrite (N i p Ha) in Hp. discriminate.
Qed.

Lemma layer_once {n alive ring des ths} :
  Layer n alive ring des ths -> (forall p, d p <= 1) -> forall x, des x <= 1.
Proof.
  intros L K x. destruct L as [Hlt Hnd Href Hheld Hdisj Hdead Hfresh Hknow].
  destruct (le_lt_dec n x) as [Hge|Hl]; [rewrite (Hfresh x Hge); auto|].
  destruct (alive x) eqn:Ea; [|rewrite (Hdead x Hl Ea); auto].
  destruct (ring x) eqn:Er.
  - destruct (Hheld x Ea Er) as (i & p & Ha & E). destruct (Hknow i p x Ha E) as (_ & _ & ->). apply K.
  - destruct (Href x) as [_ ->]; [rewrite Er; discriminate|auto].
Qed.

Lemma layer_quiet {n alive ring des ths} :
  Layer n alive ring des ths -> (forall x, ~ Held f ths x) ->
  forall x, x < n -> (alive x = true <-> exists e, In e (ring x)) /\ des x = (if alive x then 0 else 1).
Proof.
  intros [Hlt Hnd Href Hheld Hdisj Hdead Hfresh _] N x Hx.
  assert (Hne : alive x = true -> ring x <> []). { intros Ha Hr. exact (N x (Hheld x Ha Hr)). }
  split; [split|].
  - intros Ha. destruct (ring x) as [|e l] eqn:Er; [now destruct (Hne Ha)|]. exists e. now left.
  - intros (e & He). apply Href. intros Er. rewrite Er in He. destruct He.
  - destruct (alive x) eqn:Ea; [now apply Href, Hne|auto].
Qed.

Context {n : nat} {alive : nat -> bool} {ring : nat -> list nat} {des : nat -> nat}.
Context {ths : list thread} {t : nat} {th0 th' : thread}.
Hypothesis Ht : nth_error ths t = Some th0.
Hypothesis L : Layer n alive ring des ths.

Lemma others_hold_other o :
  f (cur th0) = Some o -> forall i p x, at_thr ths i p -> i <> t -> f p = Some x -> x <> o.
Proof. intros E i p x Ha Hn Hp ->. exact (disj_other f _ _ _ _ _ _ (l_disj _ _ _ _ _ L) Ht E Ha Hn Hp). Qed.

Lemma nobody_holds o :
  alive o = false \/ ring o <> [] -> forall i p x, at_thr ths i p -> i <> t -> f p = Some x -> x <> o.
Proof. intros N i p x Ha _ Hp ->. apply (layer_unheld o L N). exists i, p. now split. Qed.

Lemma know_upd alive' ring' des' :
  (forall x, f (cur th') = Some x -> alive' x = true /\ ring' x = [] /\ des' x = d (cur th')) ->
  (forall i p x, at_thr ths i p -> i <> t -> f p = Some x ->
     alive' x = alive x /\ ring' x = ring x /\ des' x = des x) ->
  forall i p x, at_thr (upd_nth ths t th') i p -> f p = Some x -> alive' x = true /\ ring' x = [] /\ des' x = d p.
Proof.
  intros Kt Ko i p x Ha E. apply (at_thr_upd Ht) in Ha as [[-> <-]|[Hn Ha]]; [auto|].
  destruct (Ko i p x Ha Hn E) as (-> & -> & ->). exact (l_know _ _ _ _ _ L i p x Ha E).
Qed.

Lemma layer_same :
  f (cur th') = f (cur th0) -> f (cur th') = None \/ d (cur th') = d (cur th0) ->
  Layer n alive ring des (upd_nth ths t th').
Proof.
  intros E Ed. destruct L as [Hlt Hnd Href Hheld Hdisj Hdead Hfresh Hknow]. constructor; try assumption.
  - intros x Ha Hr. apply (held_still f Ht); [auto|congruence].
  - apply (disj_upd f Ht Hdisj). intros x Hx. left. congruence.
  - apply know_upd; [|auto]. intros x Ex. destruct Ed as [N| ->]; [congruence|].
    apply (Hknow t _ x (at_thr_self Ht)). congruence.
Qed.

Lemma layer_new :
  f (cur th0) = None -> f (cur th') = Some n -> d (cur th') = 0 ->
  Layer (S n) (upd alive n true) ring des (upd_nth ths t th').
Proof.
  intros E0 E1 Ed. destruct (layer_fresh n L (le_n _)) as [Han Hrn].
  pose proof (nobody_holds n (or_introl Han)) as Ho.
  destruct L as [Hlt Hnd Href Hheld Hdisj Hdead Hfresh Hknow]. constructor; try assumption.
  - intros x Hx. destruct (upd_cases alive n true x) as [[-> _]|[Hn E]]; [lia|]. rewrite E in Hx. apply Hlt in Hx. lia.
  - intros x Hx. destruct (Href x Hx) as [A B]. split; [|assumption]. rewrite upd_other; [assumption|]. intros ->. congruence.
  - intros x Ha Hr. destruct (upd_cases alive n true x) as [[-> _]|[Hn E]]; [exact (held_now f Ht n E1)|].
    rewrite E in Ha. apply (held_still f Ht); [auto|congruence].
  - apply (disj_upd f Ht Hdisj). intros x Hx. right. replace x with n by congruence.
    now apply (layer_unheld n L), or_introl.
  - intros x Hx Hd. destruct (upd_cases alive n true x) as [[-> E]|[Hn E]]; rewrite E in Hd; [discriminate|].
    apply Hdead; [lia|assumption].
  - intros x Hx. apply Hfresh. lia.
  - apply know_upd.
    + intros x Ex. replace x with n by congruence. rewrite upd_same, Ed. auto using le_n.
    + intros i p x Ha Hn E. rewrite upd_other by (eapply Ho; eassumption). auto.
Qed.

(* addRef: either t held o and lets go of it (the first referrer of an object under construction),
   or o has referrers already and t holds what it held *)
Lemma layer_add o e :
  ~ In e (ring o) ->
  (f (cur th0) = Some o /\ d (cur th0) = 0 /\ f (cur th') = None) \/
  (ring o <> [] /\ f (cur th') = f (cur th0) /\ (f (cur th') = None \/ d (cur th') = d (cur th0))) ->
  Layer n alive (upd ring o (ring_add (ring o) e)) des (upd_nth ths t th').
Proof.
  intros Hni Hcase.
  assert (Ho : forall i p x, at_thr ths i p -> i <> t -> f p = Some x -> x <> o).
  { destruct Hcase as [[E0 _]|[Hne _]]; [now apply others_hold_other|now apply nobody_holds, or_intror]. }
  assert (Hlive : alive o = true /\ des o = 0).
  { destruct Hcase as [(E0 & D0 & _)|[Hne _]]; [|now apply (l_ref _ _ _ _ _ L)].
    destruct (l_know _ _ _ _ _ L t _ o (at_thr_self Ht) E0) as (A & _ & D). split; congruence. }
  destruct Hlive as [Ha Hd].
  destruct L as [Hlt Hnd Href Hheld Hdisj Hdead Hfresh Hknow]. constructor; try assumption.
  - intros x. destruct (Nat.eq_dec x o) as [->|Hn]; [rewrite upd_same|rewrite upd_other by assumption; apply Hnd].
    apply ring_add_NoDup; auto.
  - intros x. destruct (Nat.eq_dec x o) as [->|Hn]; [rewrite upd_same|rewrite upd_other by assumption; apply Href].
    intros _. now split.
  - intros x Hx. destruct (Nat.eq_dec x o) as [->|Hn]; [rewrite upd_same|rewrite upd_other by assumption].
    + unfold ring_add. intros H. apply app_eq_nil in H as [_ H]. discriminate.
    + intros Hr. apply (held_still f Ht); [auto|]. destruct Hcase as [(E0 & _ & E1)|(_ & E & _)]; congruence.
  - apply (disj_upd f Ht Hdisj). intros x Hx. left. destruct Hcase as [(E0 & _ & E1)|(_ & E & _)]; congruence.
  - apply know_upd.
    + intros x Ex. destruct Hcase as [(_ & _ & E1)|(Hne & E & Ed)]; [congruence|].
      destruct (Hknow t _ x (at_thr_self Ht)) as (A & B & C); [congruence|].
      rewrite upd_other by congruence. destruct Ed as [N| ->]; [congruence|auto].
    + intros i p x Hat Hn E. rewrite upd_other by (eapply Ho; eassumption). auto.
Qed.

(* removeRef with its test under the lock: t holds o if the ring is now empty *)
Lemma layer_rem o e :
  In e (ring o) -> f (cur th0) = None -> d (cur th') = 0 ->
  f (cur th') = (if is_nil (ring_rem e (ring o)) then Some o else None) ->
  Layer n alive (upd ring o (ring_rem e (ring o))) des (upd_nth ths t th').
Proof.
  intros Hin E0 Ed E1.
  assert (Hne : ring o <> []) by (intros E; rewrite E in Hin; destruct Hin).
  pose proof (nobody_holds o (or_intror Hne)) as Ho.
  pose proof (layer_unheld o L (or_intror Hne)) as N.
  destruct L as [Hlt Hnd Href Hheld Hdisj Hdead Hfresh Hknow]. constructor; try assumption.
  - intros x. destruct (Nat.eq_dec x o) as [->|Hn]; [rewrite upd_same|rewrite upd_other by assumption; apply Hnd].
    apply ring_rem_NoDup, Hnd.
  - intros x. destruct (Nat.eq_dec x o) as [->|Hn]; [rewrite upd_same|rewrite upd_other by assumption; apply Href].
    intros _. now apply Href.
  - intros x Hx. destruct (Nat.eq_dec x o) as [->|Hn]; [rewrite upd_same|rewrite upd_other by assumption]; intros Hr.
    + apply is_nil_true in Hr. rewrite Hr in E1. exact (held_now f Ht o E1).
    + apply (held_still f Ht); [auto|congruence].
  - apply (disj_upd f Ht Hdisj). intros x Hx. right.
    destruct (is_nil (ring_rem e (ring o))); congruence.
  - apply know_upd.
    + intros x Ex. rewrite Ex in E1. destruct (is_nil (ring_rem e (ring o))) eqn:Er; [|discriminate].
      replace x with o by congruence. rewrite upd_same, Ed. destruct (Href o Hne). repeat split; [assumption| |assumption].
      now apply is_nil_true.
    + intros i p x Hat Hn E. rewrite upd_other by (eapply Ho; eassumption). auto.
Qed.

Lemma layer_des o :
  f (cur th0) = Some o -> f (cur th') = Some o -> d (cur th') = S (d (cur th0)) ->
  Layer n alive ring (upd des o (S (des o))) (upd_nth ths t th').
Proof.
  intros E0 E1 Ed. pose proof (others_hold_other o E0) as Ho.
  destruct L as [Hlt Hnd Href Hheld Hdisj Hdead Hfresh Hknow].
  destruct (Hknow t _ o (at_thr_self Ht) E0) as (Ha & Hr & Hd).
  constructor; try assumption.
  - intros x Hx. destruct (Href x Hx) as [A B]. split; [assumption|]. rewrite upd_other; [assumption|]. intros ->. contradiction.
  - intros x Hx Hrx. apply (held_still f Ht); [auto|congruence].
  - apply (disj_upd f Ht Hdisj). intros x Hx. left. congruence.
  - intros x Hx Hdd. rewrite upd_other; [auto|]. intros ->. congruence.
  - intros x Hx. rewrite upd_other; [auto|]. intros ->. apply Hlt in Ha. lia.
  - apply know_upd.
    + intros x Ex. replace x with o by congruence. rewrite upd_same, Ed, Hd. auto.
    + intros i p x Hat Hn E. rewrite upd_other by (eapply Ho; eassumption). auto.
Qed.

Lemma layer_kill o :
  f (cur th0) = Some o -> f (cur th') = None -> d (cur th0) = 1 ->
  Layer n (upd alive o false) ring des (upd_nth ths t th').
Proof.
  intros E0 E1 Ed. pose proof (others_hold_other o E0) as Ho.
  destruct L as [Hlt Hnd Href Hheld Hdisj Hdead Hfresh Hknow].
  destruct (Hknow t _ o (at_thr_self Ht) E0) as (Ha & Hr & Hd). rewrite Ed in Hd.
  constructor; try assumption.
  - intros x H. destruct (upd_cases alive o false x) as [[-> E]|[Hn E]]; rewrite E in H; [discriminate|auto].
  - intros x H. destruct (Href x H) as [A B]. split; [|assumption]. rewrite upd_other; [assumption|]. intros ->. contradiction.
  - intros x Hx Hrx. destruct (upd_cases alive o false x) as [[-> E]|[Hn E]]; rewrite E in Hx; [discriminate|].
    apply (held_still f Ht); [auto|congruence].
  - apply (disj_upd f Ht Hdisj). intros x Hx. congruence.
  - intros x Hx Hdd. destruct (upd_cases alive o false x) as [[-> E]|[Hn E]]; [assumption|]. rewrite E in Hdd. auto.
  - apply know_upd; [intros x Ex; congruence|].
    intros i p x Hat Hn E. rewrite upd_other by (eapply Ho; eassumption). auto.
Qed.
End Layer.
Arguments l_know {f d n alive ring des ths}.
Arguments l_lt {f d n alive ring des ths}.
Arguments l_nd {f d n alive ring des ths}.
Arguments l_ref {f d n alive ring des ths}.
Arguments l_fresh {f d n alive ring des ths}.
