(* C30 — the list operations of coq/C30/Model.v are the ghost-list effects that coq/C01/Heap.v proves
   for the pointer-level ring code (leftRingEntry / rightRingEntry / head), which the sharable
   ring_t::addRef / removeRef run unchanged inside `mutex.lock(); ...; mutex.unlock()`.  A
   correspondence between a C30 state and a C01 heap is not formalised. *)
From Coq Require Import List Arith Bool.
From OV.C01 Require Import Model Heap.
From OV.C30 Require Model.
Import ListNotations.

(* ring_t::needsFree(): useRefs && head == NULL is emptiness of the list *)
Theorem needsFree_is_nil s G o :
  heap_ok s G -> alive s o = true ->
  needsFree o s = Some (ouse s o && OV.C30.Model.is_nil (G o SH), s).
Proof. intros Hk Ho. rewrite (needsFree_run s G o Hk Ho). unfold OV.C30.Model.is_nil. reflexivity. Qed.
