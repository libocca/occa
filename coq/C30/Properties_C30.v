(* C30 — with sharable devices, concurrent handle use is race-free.

   Level: partial.  The statements are about the interleaving model of coq/C30/Model.v: threads
   take sequentially consistent steps, a schedule is a list of thread numbers.  The pthread
   runtime, the C++ memory model, kernels, streams and memory pools are not modelled.
   The reference semantics of Spec.v is compared with the model on traces by the check, not in
   Coq; [Good] is the proved statement.

   [fixed]  = the code after fixes/C30-1.patch (remove-and-test under the ring lock),
              fixes/C30-2.patch (allocation counter under a lock), fixes/C30-3.patch (multiRing lock);
   [pinned] = the code as it was (needsFree() read after the unlock; plain `bytesAllocated +=`;
              ring_t::removeRef(entry, false) unlocking a mutex its caller still needs). *)
From Coq Require Import List Arith Bool ZArith.
From OV.C30 Require Import Model Spec Statements Proofs Proofs2 Refine.
Import ListNotations.

(* For ANY number of threads, ANY programs (malloc / copy / hand a copy to another thread / slice /
   delete, over each thread's own handle variables) and ANY schedule of the micro-steps, the state
   reached is Good (Statements.v):
     - no destroyed object is read, written or destroyed again            (no use after free)
     - no destructor runs twice on one modeMemory_t / modeBuffer_t         (no double free)
     - what a bound handle names is alive and registered in every ring it hangs on (no lost reference)
     - whenever all threads are between operations: an object is alive iff something refers to it,
       every other object created so far was destroyed exactly once          (no leak)
       and bytesAllocated = the sum of the sizes of the buffers that exist   (counter exact). *)
Theorem race_free_all_schedules :
  forall (progs : list (list op)) (sched : list nat),
    Good (sys_run fixed (mk_sys progs) sched).
Proof. exact race_free. Qed.
Print Assumptions race_free_all_schedules.

(* the invariant behind it, and its preservation by every step of every thread; it does not mention
   the remaining programs, so they may be replaced wherever it holds (a barrier followed by a new
   phase, as in the stress driver) *)
Theorem invariant_initially : forall progs, Inv (heap (mk_sys progs)) (thr (mk_sys progs)).
Proof. exact inv_init. Qed.
Print Assumptions invariant_initially.

Theorem invariant_step :
  forall s ths t th s' th',
    Inv s ths -> nth_error ths t = Some th -> tstep fixed t s th = (s', th') -> Inv s' (upd_nth ths t th').
Proof. exact step_inv. Qed.
Print Assumptions invariant_step.

Theorem invariant_gives_good : forall c, Inv (heap c) (thr c) -> Good c.
Proof. exact inv_good. Qed.
Print Assumptions invariant_gives_good.

(* multiRing_t::removeRef after fixes/C30-3.patch: for any number of threads, calls and any
   schedule, the mutex is unlocked only by its holder and the region between lock and unlock is
   executed only by the holder *)
Theorem multi_ring_lock_discipline :
  forall (calls : list nat) (sched : list nat), MGood (msys_run fixed (mk_msys calls) sched).
Proof. exact multi_ring_locks. Qed.
Print Assumptions multi_ring_lock_discipline.

(* one locked run of the pointer-level ring code of C01 = one list operation of this model *)
Theorem locked_addRef_refines :
  forall s G o sl e,
    OV.C01.Heap.heap_ok s G -> OV.C01.Model.alive s o = true -> OV.C01.Model.alive s e = true ->
    OV.C01.Heap.free_of G e ->
    exists s', OV.C01.Model.ring_addRef o sl e s = Some (tt, s') /\ OV.C01.Heap.same_obj s s' /\
               OV.C01.Heap.heap_ok s' (OV.C01.Model.upd2 G o sl (ring_add (G o sl) e)).
Proof. exact OV.C01.Heap.ring_addRef_out. Qed.
Print Assumptions locked_addRef_refines.

Theorem locked_removeRef_refines :
  forall s G o sl e,
    OV.C01.Heap.heap_ok s G -> OV.C01.Model.alive s o = true -> In e (G o sl) ->
    exists s', OV.C01.Model.ring_removeRef o sl e s = Some (tt, s') /\ OV.C01.Heap.same_obj s s' /\
               OV.C01.Heap.heap_ok s' (OV.C01.Model.upd2 G o sl (ring_rem e (G o sl))).
Proof. exact OV.C01.Heap.ring_removeRef_in. Qed.
Print Assumptions locked_removeRef_refines.

(* (a malloc is 8 micro-steps in the unfixed code: buffer, memory, wrapper, counter read, counter
   write, the copy made by `return mem`, removal of the local wrapper, its needsFree() test)
   two threads each drop one of the last two handles of one object:
   thread 0: m = malloc(8); hand a copy to thread 1; delete m      thread 1: delete its copy *)
Definition two_droppers : list (list op) :=
  [[OMalloc 0 8; OSend 0 1 0; ODrop 0]; [ODrop 0]].

(* both remove their wrapper, then both read needsFree() == true: ~modeMemory_t runs twice on the
   same object (and ~modeBuffer_t twice on its buffer) *)
Definition sched_double_destroy : list nat :=
  [0;0;0;0;0;0;0;0; 0; 0; 1; 0; 1; 0;1;0;1;0;1;0;1;0;1;0;1;0;1;0;1].

Theorem check_then_delete_refuted :
  exists progs sched,
    let c := sys_run pinned (mk_sys progs) sched in
    mdes (heap c) 0 = 2 /\ bdes (heap c) 0 = 2 /\ ub (heap c) = true /\ quiescent c = true.
Proof. exists two_droppers, sched_double_destroy. vm_compute. repeat split. Qed.
Print Assumptions check_then_delete_refuted.

(* thread 1 removes, tests, deletes everything; then thread 0 reads needsFree() of the freed object *)
Definition sched_use_after_free : list nat :=
  [0;0;0;0;0;0;0;0; 0; 0; 1;1;1;1;1;1;1;1; 0].

Theorem use_after_free_refuted :
  exists progs sched,
    let c := sys_run pinned (mk_sys progs) sched in
    malive (heap c) 0 = false /\ mdes (heap c) 0 = 1 /\ ub (heap c) = true.
Proof. exists two_droppers, sched_use_after_free. vm_compute. repeat split. Qed.
Print Assumptions use_after_free_refuted.

(* the same one level up: two slices of one buffer, dropped by two threads: ~modeBuffer_t twice *)
Definition two_slices : list (list op) :=
  [[OMalloc 0 8; OSlice 0 1; OSend 1 1 0; ODrop 1; ODrop 0]; [ODrop 0]].
Definition sched_buffer_double_destroy : list nat :=
  [0;0;0;0;0;0;0;0; 0;0; 0; 0;0; 0;0;0; 1;1;1; 0;1;0;1;0;1;0;1;0;1;0;1].

Theorem buffer_check_then_delete_refuted :
  exists progs sched,
    let c := sys_run pinned (mk_sys progs) sched in
    mdes (heap c) 0 = 1 /\ mdes (heap c) 1 = 1 /\ bdes (heap c) 0 = 2 /\ ub (heap c) = true.
Proof. exists two_slices, sched_buffer_double_destroy. vm_compute. repeat split. Qed.
Print Assumptions buffer_check_then_delete_refuted.

(* two threads allocate 8 and 16 bytes; both read bytesAllocated = 0 before either writes: at rest
   the counter says 16 while 24 bytes are allocated *)
Definition two_mallocs : list (list op) := [[OMalloc 0 8]; [OMalloc 0 16]].
Definition sched_lost_update : list nat := [0;0;0;1;1;1; 0;1;0;1;0;1;0;1;0;1;0;1].

Theorem lost_update_refuted :
  exists progs sched,
    let c := sys_run pinned (mk_sys progs) sched in
    quiescent c = true /\ ub (heap c) = false /\
    bytes (heap c) = 16%Z /\ live_bytes (heap c) (nb (heap c)) = 24%Z.
Proof. exists two_mallocs, sched_lost_update. vm_compute. repeat split. Qed.
Print Assumptions lost_update_refuted.

(* one thread, one call of multiRing_t::removeRef: the inner removeRef(entry, false) unlocks, the
   erase / re-key runs without the lock, the final unlock hits an unlocked mutex *)
Theorem double_unlock_refuted :
  exists calls sched,
    let c := msys_run pinned (mk_msys calls) sched in
    bad_unlock (mxs c) = 1 /\ unprotected (mxs c) = 1.
Proof. exists [1], [0;0;0;0]. vm_compute. split; reflexivity. Qed.
Print Assumptions double_unlock_refuted.

(* each fix is needed on its own: with only the counter and the multiRing repaired the double
   destroy remains; with only the rings repaired the lost update remains *)
Theorem test_fix_needed :
  let V := {| v_test := false; v_bytes := true; v_multi := true |} in
  mdes (heap (sys_run V (mk_sys two_droppers) [0;0;0;0;0;0;0; 0; 0; 1; 0;1;0;1;0;1;0;1;0;1;0;1;0;1])) 0 = 2.
Proof. vm_compute. reflexivity. Qed.
Theorem bytes_fix_needed :
  let V := {| v_test := true; v_bytes := false; v_multi := true |} in
  bytes (heap (sys_run V (mk_sys two_mallocs) sched_lost_update)) = 16%Z.
Proof. vm_compute. reflexivity. Qed.

(* the same programs and schedules on the fixed code: destroyed once, nothing alive, counter exact *)
Example fixed_two_droppers :
  let c := sys_run fixed (mk_sys two_droppers) sched_double_destroy in
  (mdes (heap c) 0, bdes (heap c) 0, malive (heap c) 0, ub (heap c), bytes (heap c), quiescent c)
  = (1, 1, false, false, 0%Z, true).
Proof. vm_compute. reflexivity. Qed.

Example fixed_two_mallocs :
  let c := sys_run fixed (mk_sys two_mallocs) sched_lost_update in
  (bytes (heap c), live_bytes (heap c) (nb (heap c)), quiescent c) = (24%Z, 24%Z, true).
Proof. vm_compute. reflexivity. Qed.

(* the schedule-point granularity used for the replay on the real library reaches the same double
   destroy (segment schedule "s0 s0 s0 s0 s0 s0 s1 s0 s1" + round-robin completion) *)
Example double_destroy_at_schedule_points :
  let c := seg_run pinned (mk_sys two_droppers) [0;0;0;0;0;0;1;0;1;0;1;0;1;0;1;0;1] in
  (mdes (heap c) 0, quiescent c) = (2, true).
Proof. vm_compute. reflexivity. Qed.

(* the reference semantics on the same programs, operations taken in program order *)
Example reference_two_droppers :
  let s := fold_left (fun s to => sp_step (fst to) (snd to) s)
                     [(0, OMalloc 0 8); (0, OSend 0 1 0); (0, ODrop 0); (1, ODrop 0)] sp_init in
  (s_nm s, s_mdes s, s_nb s, s_bdes s, s_bytes s) = (1, 1, 1, 1, 0%Z).
Proof. vm_compute. reflexivity. Qed.
