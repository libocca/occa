(* C30 — from the invariant to the statements: all schedules, what the invariant gives, the
   multiRing lock discipline. *)
From Coq Require Import List Arith Bool ZArith Lia.
From OV.C30 Require Import Model Statements Lemmas Proofs.
Import ListNotations.

Lemma at_thr_mk progs i p : at_thr (thr (mk_sys progs)) i p -> p = PIdle.
Proof.
  unfold mk_sys. cbn [thr]. intros (th & Hn & <-). apply nth_error_In in Hn. apply in_map_iff in Hn as (x & <- & _). reflexivity.
Qed.

Theorem inv_init progs : Inv (heap (mk_sys progs)) (thr (mk_sys progs)).
Proof.
  pose proof (at_thr_mk progs) as Hidle.
  assert (Hnone : forall f : pc -> option nat, f PIdle = None ->
                  forall i p, at_thr (thr (mk_sys progs)) i p -> f p = None).
  { intros f E i p Ha. now rewrite (Hidle i p Ha). }
  apply inv_parts.
  refine {| p_ub := eq_refl; p_fixed := ?[fixed]; p_wr := ?[wr]; p_build := ?[build];
            p_mem := layer_init hm dm _ (Hnone hm eq_refl); p_buf := layer_init hb db _ (Hnone hb eq_refl);
            p_links := ?[links]; p_dev := ?[dev]; p_bytes := ?[bytes] |}; cbn.
  [fixed]: { intros i p Ha. now rewrite (Hidle i p Ha). }
  [wr]: { constructor; try discriminate. intros m h. split; [intros []|intros [H _]; discriminate]. }
  [build]: { intros i p h Ha E. rewrite (Hnone hw eq_refl i p Ha) in E. discriminate. }
  [links]: { constructor; try discriminate. intros b m. split; [intros []|intros [H _]; discriminate]. }
  [dev]: { constructor; [|constructor]. intros b. split; [intros []|discriminate]. }
  [bytes]: now rewrite sum_pend_idle.
Qed.

Lemma sys_step_inv c t : Inv (heap c) (thr c) -> Inv (heap (sys_step fixed c t)) (thr (sys_step fixed c t)).
Proof.
  intros HI. unfold sys_step. destruct (nth_error (thr c) t) as [th|] eqn:E; [|exact HI].
  destruct (tstep fixed t (heap c) th) as [s' th'] eqn:Es. cbn [heap thr]. eapply step_inv; eassumption.
Qed.

Theorem run_inv c sched : Inv (heap c) (thr c) -> Inv (heap (sys_run fixed c sched)) (thr (sys_run fixed c sched)).
Proof.
  apply (fold_left_inv (fun c => Inv (heap c) (thr c))). intros a b. apply sys_step_inv.
Qed.

Theorem inv_good c : Inv (heap c) (thr c) -> Good c.
Proof.
  intros HI. destruct (proj1 (inv_parts _ _) HI) as [Hub Hfix W Bd Lm Lb K D B]. set (s := heap c) in *.
  constructor; fold s.
  - exact Hub.
  - apply (layer_once hm dm Lm). intros p. destruct p; cbn; auto.
  - apply (layer_once hb db Lb). intros p. destruct p; cbn; auto.
  - intros t v h m Hv Hh. destruct (handle_facts HI Hv Hh) as (Hin & Hne & Hal & Hd0).
    split; [assumption|]. split; [assumption|].
    destruct (i_mbuf_some _ _ HI m Hal) as [b Hb]. exists b. split; [assumption|].
    destruct (memory_facts HI Hal Hd0 Hb) as (Hib & _ & Hbal & _).
    split; [assumption|]. split; [assumption|]. now apply (i_dring _ _ HI).
  - intros Hq.
    pose proof (layer_quiet hm dm Lm (fun m => not_held_idle hm _ m Hq eq_refl)) as Qm.
    pose proof (layer_quiet hb db Lb (fun b => not_held_idle hb _ b Hq eq_refl)) as Qb.
    split; [|split].
    + intros m Hlt. destruct (Qm m Hlt) as [Q ->]. split; [rewrite Q|reflexivity].
      split; intros (h & H); exists h; [apply (i_mring _ _ HI) in H|apply (i_mring _ _ HI)]; tauto.
    + intros b Hlt. destruct (Qb b Hlt) as [Q ->]. split; [rewrite Q|reflexivity]. split.
      * intros (m & H). exists m. apply (i_bring _ _ HI) in H. tauto.
      * intros (m & Ha & Hb). exists m. apply (i_bring _ _ HI). repeat split; [assumption..|].
        destruct (Qm m (i_malive_lt _ _ HI m Ha)) as [_ ->]. now rewrite Ha.
    + rewrite (sum_pend_idle _ _ Hq), Z.add_0_r in B. exact B.
Qed.

Theorem race_free progs sched : Good (sys_run fixed (mk_sys progs) sched).
Proof. apply inv_good. apply run_inv. apply inv_init. Qed.

Record MInv (c : msys) : Prop := {
  mi_bad  : bad_unlock (mxs c) = 0;
  mi_unp  : unprotected (mxs c) = 0;
  mi_hold : forall i th, nth_error (mthr c) i = Some th -> mcur th <> MIdle -> holder (mxs c) = Some i
}.

Lemma minv_init calls : MInv (mk_msys calls).
Proof.
  constructor; cbn; try reflexivity. intros i th Hn Hc. apply nth_error_In in Hn. apply in_map_iff in Hn as (x & <- & _).
  cbn in Hc. contradiction.
Qed.

Lemma mstep_inv c t : MInv c -> MInv (msys_step fixed c t).
Proof.
  intros HM. pose proof HM as [Hb Hu Hh]. unfold msys_step. destruct (nth_error (mthr c) t) as [th|] eqn:E; [|exact HM].
  assert (Hsame : MInv {| mxs := mxs c; mthr := upd_nth (mthr c) t th |}) by (rewrite (upd_nth_id _ _ _ E); now constructor).
  assert (Hoth : forall i th', nth_error (upd_nth (mthr c) t th') i = (if Nat.eq_dec i t then Some th' else nth_error (mthr c) i)).
  { intros i th'. destruct (Nat.eq_dec i t) as [->|Hn]; [eapply nth_error_upd_nth_same; eassumption|apply nth_error_upd_nth_other; congruence]. }
  destruct th as [k p].
  (* inside the region t is the holder, so every other thread is at MIdle *)
  assert (Hin : p <> MIdle -> holder (mxs c) = Some t) by exact (Hh t _ E).
  assert (Hkeep : p <> MIdle -> forall x' p', (p' <> MIdle -> holder x' = Some t) ->
            forall i th', nth_error (upd_nth (mthr c) t {| todo := k; mcur := p' |}) i = Some th' ->
                          mcur th' <> MIdle -> holder x' = Some i).
  { intros Hp x' p' Hx i th' Hn Hc. rewrite Hoth in Hn. destruct (Nat.eq_dec i t) as [->|Hne].
    - inversion Hn; subst. now apply Hx.
    - pose proof (Hh i th' Hn Hc). pose proof (Hin Hp). congruence. }
  unfold mstep. cbn [mcur todo v_multi fixed]. destruct p.
  - (* mutex.lock(): nothing to do, blocked, or acquired *)
    destruct k as [|k]; [exact Hsame|]. destruct (holder (mxs c)) as [o|] eqn:Eh; [exact Hsame|].
    constructor; cbn [mxs mthr holder bad_unlock unprotected]; try assumption.
    intros i th' Hn Hc. rewrite Hoth in Hn. destruct (Nat.eq_dec i t) as [->|Hne]; [reflexivity|].
    pose proof (Hh i th' Hn Hc). congruence.
  - (* rings.find; ring.removeRef(entry, false) *)
    unfold mx_touch. rewrite Hin, Nat.eqb_refl by discriminate.
    constructor; cbn [mxs mthr]; try assumption. apply Hkeep; [discriminate|]. intros _. now apply Hin.
  - (* rings.erase; re-key *)
    unfold mx_touch. rewrite Hin, Nat.eqb_refl by discriminate.
    constructor; cbn [mxs mthr]; try assumption. apply Hkeep; [discriminate|]. intros _. now apply Hin.
  - (* mutex.unlock() *)
    unfold mx_unlock. rewrite Hin, Nat.eqb_refl by discriminate.
    constructor; cbn [mxs mthr bad_unlock unprotected]; try assumption. apply Hkeep; [discriminate|]. intros N. now destruct N.
Qed.

Theorem multi_ring_locks calls sched : MGood (msys_run fixed (mk_msys calls) sched).
Proof.
  destruct (fold_left_inv MInv (msys_step fixed) sched mstep_inv _ (minv_init calls)). now split.
Qed.
