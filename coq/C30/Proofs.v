(* C30 — every step of every thread preserves the invariant (code after the fixes): the invariant
   in parts over the fields each part reads, one lemma per kind of shared step, [step_inv].  A kind
   that occurs at one pc takes the model's step itself ([tstep … = (s', th')]); one that occurs at
   several takes the successor thread as a parameter. *)
From Coq Require Import List Arith Bool ZArith Lia.
From OV.C30 Require Import Model Statements Lemmas.
Import ListNotations.

Ltac simpl_st :=
  cbn [nh nm nb vars hptr mring mbuf malive mdes bring bsize balive bdes dring bytes ub
       set_nh set_nm set_nb set_vars set_hptr set_mring set_mbuf set_malive set_mdes set_bring
       set_bsize set_balive set_bdes set_dring set_bytes set_ub flag prog cur at_pc] in *.

(* the wrapper a thread is constructing, beside [hm] and [hb] *)
Definition hw (p : pc) : option nat :=
  match p with PMal1 h _ _ _ | PMal2 h _ _ _ _ | PSl1 h _ => Some h | _ => None end.

(* how often the destructor of the object held at p has run *)
Definition dm (p : pc) : nat :=
  match p with PBuf1 _ _ _ | PBufBytes _ _ | PBufWr _ _ _ | PBufDev _ _ | PMemEnd _ => 1 | _ => 0 end.
Definition db (p : pc) : nat :=
  match p with PBufBytes _ _ | PBufWr _ _ _ | PBufDev _ _ => 1 | _ => 0 end.
(* the pcs of the code after the fixes *)
Definition pc_fixed (p : pc) : Prop :=
  match p with PDrop1 _ None | PBuf1 _ _ None | PMalWr _ _ _ | PBufWr _ _ _ => False | _ => True end.

Lemma local_iff s i p :
  local s i p <->
  pc_fixed p /\ (forall m, hm p = Some m -> mheld s m (dm p)) /\
  (forall b, hb p = Some b -> bheld s b (db p)) /\ (forall h, hw p = Some h -> building s i h).
Proof.
  destruct p as [|h b sz d|h b m' sz d|sz d|sz v d|d|d|h m'|m' [[|]|]|m'|m' b [[|]|]|m' b|m' b v|m' b|m']; cbn;
    (split; [intros H; split; [tauto|]; split; [|split]; intros x E; try discriminate E; injection E as <-; tauto
            |intros (F & A & B & C); try contradiction; auto]).
Qed.

Lemma pend_stable s s' p :
  (forall b, hb p = Some b -> bsize s' b = bsize s b) -> pend s' p = pend s p.
Proof.
  destruct p; cbn; intros H; try reflexivity. now rewrite H.
Qed.

(* the counter clause reads the state only through [balive] and [bsize] *)
Lemma sum_pend_frame s s' ths : bsize s' = bsize s -> sum_pend s' ths = sum_pend s ths.
Proof. intros E. apply sum_pend_ext. intros. apply pend_stable. intros. now rewrite E. Qed.
Lemma live_bytes_frame s s' n : balive s' = balive s -> bsize s' = bsize s -> live_bytes s' n = live_bytes s n.
Proof. intros Ea Es. apply live_bytes_ext. intros. now rewrite Ea, Es. Qed.

(* holds nothing, builds nothing, nothing pending: PIdle, PMalEnd, PMalRet, PDrop1 _ (Some false) *)
Definition holds_nothing (p : pc) : Prop :=
  pc_fixed p /\ hm p = None /\ hb p = None /\ hw p = None /\ forall s, pend s p = 0%Z.

(* at q a thread holds, builds and knows what it did at p *)
Definition keeps (p q : pc) : Prop :=
  pc_fixed q /\ hw q = hw p /\ hm q = hm p /\ hb q = hb p /\
  (hm q = None \/ dm q = dm p) /\ (hb q = None \/ db q = db p).

Lemma holds_nothing_keeps p q : holds_nothing p -> holds_nothing q -> keeps p q.
Proof. intros (_ & A & B & C & _) (F & A' & B' & C' & _). repeat split; try congruence; auto. Qed.

(* Each group takes the fields it reads, not the state: a step that does not write them hands the
   group on by conversion.  [local] is spread over the groups by [local_iff]. *)
(* [bound s h] is [boundv (vars s) h] *)
Definition boundv (vs : nat -> nat -> option nat) (h : nat) : Prop := exists t v, vs t v = Some h.

Record Wrappers (n_h n_m : nat) (vs : nat -> nat -> option nat) (hp : nat -> option nat)
                (mr : nat -> list nat) : Prop := {
  w_vars_lt  : forall t v h, vs t v = Some h -> h < n_h;
  w_vars_inj : forall t v t' v' h, vs t v = Some h -> vs t' v' = Some h -> t = t' /\ v = v';
  w_hptr_lt  : forall h m, hp h = Some m -> h < n_h /\ m < n_m;
  w_mring    : forall m h, In h (mr m) <-> (hp h = Some m /\ boundv vs h) }.

Definition Build (vs : nat -> nat -> option nat) (hp : nat -> option nat) (ths : list thread) : Prop :=
  forall i p h, at_thr ths i p -> hw p = Some h -> hp h = None /\ exists v, vs i v = Some h.

Record Links (n_b : nat) (mb : nat -> option nat) (ma : nat -> bool) (md : nat -> nat)
             (br : nat -> list nat) : Prop := {
  k_mbuf_lt   : forall m b, mb m = Some b -> b < n_b;
  k_mbuf_some : forall m, ma m = true -> exists b, mb m = Some b;
  k_bring     : forall b m, In m (br b) <-> (ma m = true /\ mb m = Some b /\ md m = 0) }.

Record Dev (ba : nat -> bool) (dr : list nat) : Prop := {
  d_dring : forall b, In b dr <-> ba b = true;
  d_nd    : NoDup dr }.

Arguments w_vars_lt {n_h n_m vs hp mr}.
Arguments w_mring {n_h n_m vs hp mr}.
Arguments k_mbuf_some {n_b mb ma md br}.
Arguments k_bring {n_b mb ma md br}.

Record Parts (s : st) (ths : list thread) : Prop := {
  p_ub    : ub s = false;
  p_fixed : forall i p, at_thr ths i p -> pc_fixed p;
  p_wr    : Wrappers (nh s) (nm s) (vars s) (hptr s) (mring s);
  p_build : Build (vars s) (hptr s) ths;
  p_mem   : Layer hm dm (nm s) (malive s) (mring s) (mdes s) ths;
  p_buf   : Layer hb db (nb s) (balive s) (bring s) (bdes s) ths;
  p_links : Links (nb s) (mbuf s) (malive s) (mdes s) (bring s);
  p_dev   : Dev (balive s) (dring s);
  p_bytes : (bytes s + sum_pend s ths = live_bytes s (nb s))%Z }.

(* the state of a [Parts] being built comes from the goal, not from the first group given *)
Arguments Build_Parts s ths & _ _ _ _ _ _ _ _ _.

Lemma inv_parts s ths : Inv s ths <-> Parts s ths.
Proof.
  split.
  - intros []. assert (K := fun i p Ha => proj1 (local_iff s i p) (i_local i p Ha)).
    constructor; try assumption.
    + intros i p Ha. apply (K i p Ha).
    + constructor; assumption.
    + intros i p h Ha. apply (K i p Ha).
    + constructor; try assumption. intros i p m Ha. apply (K i p Ha).
    + constructor; try assumption. intros i p b Ha. apply (K i p Ha).
    + constructor; assumption.
    + constructor; assumption.
  - intros [Hub F W Bd Lm Lb K D B].
    pose proof (l_know Lm) as Km. pose proof (l_know Lb) as Kb.
    destruct W, Lm, Lb, K, D. constructor; try assumption.
    intros i p Ha. apply local_iff. split; [eauto|]. split; [|split]; intros x E.
    + exact (Km i p x Ha E).
    + exact (Kb i p x Ha E).
    + exact (Bd i p x Ha E).
Qed.

Lemma boundv_bind {vs t v x} h :
  vs t v = None -> (boundv (upd2 vs t v (Some x)) h <-> h = x \/ boundv vs h).
Proof.
  intros Hv. unfold boundv. split.
  - intros (a & b & H). destruct (upd2_cases vs t v (Some x) a b) as [(-> & -> & E)|(Hd & E)];
      rewrite E in H; [left; congruence|right; eauto].
  - intros [->|(a & b & H)].
    + exists t, v. apply upd2_same.
    + exists a, b. rewrite upd2_differ; congruence.
Qed.

Lemma boundv_unbind {vs t v x} :
  (forall a b a' b' y, vs a b = Some y -> vs a' b' = Some y -> a = a' /\ b = b') ->
  vs t v = Some x ->
  forall h, boundv (upd2 vs t v None) h <-> (boundv vs h /\ h <> x).
Proof.
  intros Hinj Hv h. unfold boundv. split.
  - intros (a & b & H). destruct (upd2_cases vs t v None a b) as [(-> & -> & E)|(Hd & E)]; rewrite E in H; [discriminate|].
    split; [eauto|]. intros ->. destruct (Hinj _ _ _ _ _ H Hv) as [-> ->]. destruct Hd; congruence.
  - intros [(a & b & H) Hne]. exists a, b. rewrite upd2_differ; congruence.
Qed.

Lemma wrappers_unbind {n_h n_m vs hp mr mr' t v h} :
  Wrappers n_h n_m vs hp mr -> vs t v = Some h ->
  (forall m x, In x (mr' m) <-> In x (mr m) /\ x <> h) ->
  Wrappers n_h n_m (upd2 vs t v None) hp mr'.
Proof.
  intros [Wlt Winj Whl Wmr] Hv Hr. constructor; try assumption.
  - intros a b x H. destruct (upd2_cases vs t v None a b) as [(-> & -> & E)|(Hd & E)]; rewrite E in H; [discriminate|].
    eapply Wlt; eassumption.
  - intros a b a' b' x H H'.
    destruct (upd2_cases vs t v None a b) as [(-> & -> & E)|(Hd & E)]; rewrite E in H; [discriminate|].
    destruct (upd2_cases vs t v None a' b') as [(-> & -> & E')|(Hd' & E')]; rewrite E' in H'; [discriminate|].
    eapply Winj; eassumption.
  - intros m x. rewrite Hr, (boundv_unbind Winj Hv x), Wmr. tauto.
Qed.

Lemma handle_facts s ths t v h m :
  Inv s ths -> vars s t v = Some h -> hptr s h = Some m ->
  In h (mring s m) /\ mring s m <> [] /\ malive s m = true /\ mdes s m = 0.
Proof.
  intros HI Hv Hh. assert (Hin : In h (mring s m)). { apply (i_mring _ _ HI). split; [assumption|]. now exists t, v. }
  assert (Hne : mring s m <> []). { intros E. rewrite E in Hin. destruct Hin. }
  destruct (i_mref _ _ HI m Hne). now repeat split.
Qed.
Arguments handle_facts {s ths t v h m}.

Lemma memory_facts s ths m b :
  Inv s ths -> malive s m = true -> mdes s m = 0 -> mbuf s m = Some b ->
  In m (bring s b) /\ bring s b <> [] /\ balive s b = true /\ bdes s b = 0.
Proof.
  intros HI Ha Hd Hb. assert (Hin : In m (bring s b)) by (apply (i_bring _ _ HI); now repeat split).
  assert (Hne : bring s b <> []). { intros E. rewrite E in Hin. destruct Hin. }
  destruct (i_bref _ _ HI b Hne). now repeat split.
Qed.
Arguments memory_facts {s ths m b}.

Lemma others_not_building s ths t i p h :
  Inv s ths -> at_thr ths i p -> i <> t -> (nh s <= h \/ exists v, vars s t v = Some h) -> hw p <> Some h.
Proof.
  intros HI Ha Hn Hh E. destruct (p_build _ _ (proj1 (inv_parts _ _) HI) i p h Ha E) as (_ & v & Hv).
  destruct Hh as [Hge|(v' & Hv')].
  - apply (i_vars_lt _ _ HI) in Hv. lia.
  - destruct (i_vars_inj _ _ HI _ _ _ _ _ Hv Hv'). contradiction.
Qed.

Lemma inv_new_handle s ths t v :
  Inv s ths -> vars s t v = None ->
  Inv (snd (new_handle s t v)) ths /\ building (snd (new_handle s t v)) t (nh s).
Proof.
  intros HI Hv.
  assert (Hfresh : hptr s (nh s) = None).
  { destruct (hptr s (nh s)) eqn:E; [|reflexivity]. apply (i_hptr_lt _ _ HI) in E. lia. }
  split.
  2:{ unfold new_handle, building. cbn [snd]. simpl_st. split; [assumption|]. exists v. apply upd2_same. }
  destruct (proj1 (inv_parts _ _) HI) as [Hub Hfix W Bd Lm Lb K D B].
  apply inv_parts. unfold new_handle. cbn [snd]. refine {| p_ub := Hub; p_fixed := Hfix; p_wr := ?[wr]; p_build := ?[build]; p_mem := Lm;
            p_buf := Lb; p_links := K; p_dev := D; p_bytes := ?[bytes] |}; simpl_st.
  [wr]: { destruct W as [Wlt Winj Whl Wmr]. constructor.
    + intros a b h H. destruct (upd2_cases (vars s) t v (Some (nh s)) a b) as [(-> & -> & E)|(Hd & E)]; rewrite E in H.
      * inversion H. lia.
      * apply Wlt in H. lia.
    + intros a b a' b' h H H'.
      destruct (upd2_cases (vars s) t v (Some (nh s)) a b) as [(-> & -> & E)|(Hd & E)]; rewrite E in H;
      destruct (upd2_cases (vars s) t v (Some (nh s)) a' b') as [(-> & -> & E')|(Hd' & E')]; rewrite E' in H'.
      * now split.
      * inversion H; subst. apply Wlt in H'. lia.
      * inversion H'; subst. apply Wlt in H. lia.
      * eapply Winj; eauto.
    + intros h m H. apply Whl in H. lia.
    + intros m h. rewrite (boundv_bind h Hv), Wmr. split; [tauto|].
      intros [H [->|H']]; [congruence|tauto]. }
  [build]: { intros i p h Ha E. destruct (Bd i p h Ha E) as (A & v0 & H0). split; [assumption|]. exists v0.
    rewrite upd2_differ; congruence. }
  [bytes]: now rewrite (sum_pend_frame s), (live_bytes_frame s).
Qed.

Lemma flag_false s : flag s false = s.
Proof. destruct s. unfold flag. cbn. now rewrite orb_false_r. Qed.

(* the state change of [start_op] at [OMalloc] after [new_handle], named so that its lemma can be stated *)
Definition alloc_buffer (s : st) (size : Z) : st :=
  let b := nb s in
  set_dring (set_bsize (set_balive (set_nb s (S b)) (upd (balive s) b true)) (upd (bsize s) b size))
            (ring_add (dring s) b).

Section Step.
Variables (s : st) (ths : list thread) (t : nat) (th0 : thread).
Hypothesis HI : Inv s ths.
Hypothesis Ht : nth_error ths t = Some th0.

(* the groups of the invariant at s: a step hands on by name those whose fields it does not write *)
Let P := proj1 (inv_parts s ths) HI.
Let Hub := p_ub _ _ P.
Let Hfix := p_fixed _ _ P.
Let W := p_wr _ _ P.
Let Bd := p_build _ _ P.
Let Lm := p_mem _ _ P.
Let Lb := p_buf _ _ P.
Let Lk := p_links _ _ P.
Let Dv := p_dev _ _ P.
Let Bt := p_bytes _ _ P.
Let Hself : local s t (cur th0) := i_local _ _ HI t _ (at_thr_self Ht).

Lemma fixed_step th' : pc_fixed (cur th') -> forall i p, at_thr (upd_nth ths t th') i p -> pc_fixed p.
Proof. intros F i p Ha. apply (at_thr_upd Ht) in Ha as [[_ <-]|[_ Ha]]; eauto. Qed.

Lemma build_step vs' hp' th' :
  (forall h, hw (cur th') = Some h -> hp' h = None /\ exists v, vs' t v = Some h) ->
  (forall i p h, at_thr ths i p -> i <> t -> hw p = Some h ->
     hp' h = hptr s h /\ forall v, vars s i v = Some h -> vs' i v = Some h) ->
  Build vs' hp' (upd_nth ths t th').
Proof.
  intros Kt Ko i p h Ha E. apply (at_thr_upd Ht) in Ha as [[-> <-]|[Hn Ha]]; [auto|].
  destruct (Ko i p h Ha Hn E) as (-> & Hv), (Bd i p h Ha E) as (A & v & B). eauto.
Qed.

Lemma build_keep th' : hw (cur th') = hw (cur th0) -> Build (vars s) (hptr s) (upd_nth ths t th').
Proof.
  intros E. apply build_step; [|auto]. intros h Eh. rewrite E in Eh. exact (Bd t _ h (at_thr_self Ht) Eh).
Qed.

(* stated as the counter clause reads once the fields of s' are computed *)
Lemma bytes_frame s' th' :
  balive s' = balive s -> bsize s' = bsize s -> pend s (cur th') = pend s (cur th0) ->
  (bytes s + sum_pend s' (upd_nth ths t th') = live_bytes s' (nb s))%Z.
Proof.
  intros Ea Es Ep. rewrite (sum_pend_frame s), (live_bytes_frame s), (sum_pend_upd Ht), Ep by assumption. lia.
Qed.

Lemma keeps_groups th' :
  keeps (cur th0) (cur th') ->
  (forall i p, at_thr (upd_nth ths t th') i p -> pc_fixed p) /\ Build (vars s) (hptr s) (upd_nth ths t th') /\
  Layer hm dm (nm s) (malive s) (mring s) (mdes s) (upd_nth ths t th') /\
  Layer hb db (nb s) (balive s) (bring s) (bdes s) (upd_nth ths t th').
Proof.
  intros (F & Eu & Em & Eb & Dm & Db).
  exact (conj (fixed_step th' F) (conj (build_keep th' Eu)
          (conj (layer_same hm dm Ht Lm Em Dm) (layer_same hb db Ht Lb Eb Db)))).
Qed.

Lemma inv_pc_only th' :
  keeps (cur th0) (cur th') -> pend s (cur th') = pend s (cur th0) -> Inv s (upd_nth ths t th').
Proof.
  intros K Ep. destruct (keeps_groups th' K) as (F' & Bd' & Lm' & Lb'). apply inv_parts.
  exact {| p_ub := Hub; p_fixed := F'; p_wr := W; p_build := Bd'; p_mem := Lm'; p_buf := Lb'; p_links := Lk;
           p_dev := Dv; p_bytes := bytes_frame s th' eq_refl eq_refl Ep |}.
Qed.

(* bytesAllocated += / -=: what leaves the pending bytes of the thread enters the counter *)
Lemma inv_set_bytes th' d :
  keeps (cur th0) (cur th') -> pend s (cur th0) = (pend s (cur th') + d)%Z ->
  Inv (set_bytes s (bytes s + d)%Z) (upd_nth ths t th').
Proof.
  intros K Hp. destruct (keeps_groups th' K) as (F' & Bd' & Lm' & Lb'). apply inv_parts.
  refine {| p_ub := Hub; p_fixed := F'; p_wr := W; p_build := Bd'; p_mem := Lm'; p_buf := Lb'; p_links := Lk;
            p_dev := Dv; p_bytes := _ |}; simpl_st.
  rewrite (sum_pend_frame s), (live_bytes_frame s), (sum_pend_upd Ht) by reflexivity. lia.
Qed.

(* modeBuffer_t constructor *)
Lemma inv_alloc_buffer rest h sz dst :
  cur th0 = PIdle -> building s t h ->
  Inv (alloc_buffer s sz) (upd_nth ths t (at_pc (PMal1 h (nb s) sz dst) rest)).
Proof.
  intros Hc Hbld. destruct (layer_fresh hb db (nb s) Lb (le_n _)) as [Hba Hbr].
  apply inv_parts. unfold alloc_buffer. refine {| p_ub := Hub; p_fixed := ?[fixed]; p_wr := W; p_build := ?[build]; p_mem := ?[mem];
            p_buf := ?[buf]; p_links := ?[links]; p_dev := ?[dev]; p_bytes := ?[bytes] |}; simpl_st.
  [fixed]: now apply fixed_step.
  [build]: { apply build_step; [|auto]. intros h' E. now inversion E; subst. }
  [mem]: apply (layer_same hm dm Ht Lm); rewrite Hc; auto.
  [buf]: apply (layer_new hb db Ht Lb); [now rewrite Hc|reflexivity..].
  [links]: { destruct Lk as [Klt Ksome Kbr]. constructor; [|assumption..]. intros m b Hb. apply Klt in Hb. lia. }
  [dev]: { destruct Dv as [Din Dnd]. constructor.
    + intros b. rewrite ring_add_In, Din.
      destruct (upd_cases (balive s) (nb s) true b) as [[-> E]|[Hn E]]; rewrite E; [tauto|].
      split; [intros [H|H]; [assumption|contradiction]|tauto].
    + apply ring_add_NoDup; [assumption|]. rewrite Din. congruence. }
  [bytes]: { rewrite (sum_pend_upd Ht). rewrite Hc. cbn [pend cur at_pc].
    rewrite (sum_pend_ext s).
    2:{ intros i p Ha. apply pend_stable. intros b' E. simpl_st. rewrite upd_other; [reflexivity|].
        destruct (l_know Lb i p b' Ha E) as (A & _). apply (l_lt Lb) in A. lia. }
    rewrite (live_bytes_new s _ (nb s) sz); simpl_st; [lia|apply upd_same|apply upd_same|].
    intros k Hk. rewrite !upd_other by lia. now split. }
Qed.

(* modeMemory_t constructor *)
Lemma inv_new_memory th' b :
  pc_fixed (cur th') -> hm (cur th0) = None -> hm (cur th') = Some (nm s) -> dm (cur th') = 0 -> hb (cur th') = None ->
  ((hb (cur th0) = Some b /\ db (cur th0) = 0) \/ (hb (cur th0) = None /\ bring s b <> [])) ->
  pend s (cur th') = pend s (cur th0) ->
  (forall h, hw (cur th') = Some h -> building s t h) ->
  Inv (snd (new_memory s b)) (upd_nth ths t th').
Proof.
  intros F Hm0 Hm' Hd' Hb' Hb0 Hp Hbld.
  assert (Hbal : balive s b = true).
  { destruct Hb0 as [[E _]|[_ Hne]]; [apply (l_know Lb t _ b (at_thr_self Ht) E)|now apply (l_ref Lb)]. }
  assert (Hmnotin : forall b', ~ In (nm s) (bring s b')).
  { intros b' H. apply (k_bring Lk) in H as [H _]. apply (l_lt Lm) in H. lia. }
  apply inv_parts. unfold new_memory. cbn [snd]. refine {| p_ub := ?[ub]; p_fixed := ?[fixed]; p_wr := ?[wr]; p_build := ?[build]; p_mem := ?[mem];
            p_buf := ?[buf]; p_links := ?[links]; p_dev := Dv; p_bytes := ?[bytes] |}; simpl_st.
  [ub]: now rewrite Hub, Hbal.
  [fixed]: now apply fixed_step.
  [wr]: { destruct W as [Wlt Winj Whl Wmr]. constructor; try assumption. intros h m H. apply Whl in H. lia. }
  [build]: apply build_step; auto.
  [mem]: exact (layer_new hm dm Ht Lm Hm0 Hm' Hd').
  [buf]: { apply (layer_add hb db Ht Lb b (nm s) (Hmnotin b)).
    destruct Hb0 as [[E0 D0]|[E0 Hne]]; [left; now repeat split|right]. repeat split; [assumption|congruence|now left]. }
  [links]: { destruct Lk as [Klt Ksome Kbr]. constructor.
    + intros m b0 H. destruct (upd_cases (mbuf s) (nm s) (Some b) m) as [[-> E]|[Hn E]]; rewrite E in H.
      * inversion H; subst. now apply (l_lt Lb).
      * now apply Klt in H.
    + intros m Ha. destruct (Nat.eq_dec m (nm s)) as [->|Hn]; [rewrite upd_same; eauto|].
      rewrite upd_other in Ha by assumption. rewrite upd_other by assumption. now apply Ksome.
    + intros b0 m.
      destruct (Nat.eq_dec b0 b) as [->|Hnb]; [rewrite upd_same|rewrite (upd_other (bring s)) by assumption];
      (destruct (Nat.eq_dec m (nm s)) as [->|Hnm]; [rewrite !upd_same|rewrite !upd_other by assumption]).
      * rewrite ring_add_In. split; [intros _; repeat split; apply (l_fresh Lm), le_n|now right].
      * rewrite ring_add_In, Kbr. split; [intros [H|H]; [assumption|contradiction]|tauto].
      * split; [intros H; now apply Hmnotin in H|intros (_ & H & _); congruence].
      * apply Kbr. }
  [bytes]: apply (bytes_frame _ _); [reflexivity..|exact Hp].
Qed.

(* the constructors of memory: setModeMemory *)
Lemma inv_register th' h m :
  hptr s h = None -> bound s h ->
  (forall i p, at_thr ths i p -> i <> t -> hw p <> Some h) ->
  ((hm (cur th0) = Some m /\ dm (cur th0) = 0 /\ hm (cur th') = None) \/
   (hm (cur th0) = None /\ hm (cur th') = None /\ mring s m <> [])) ->
  pc_fixed (cur th') -> hw (cur th') = None ->
  hb (cur th') = hb (cur th0) -> hb (cur th') = None \/ db (cur th') = db (cur th0) ->
  pend s (cur th') = pend s (cur th0) ->
  Inv (register s h m) (upd_nth ths t th').
Proof.
  intros Hh Hbd Hhu Hcase F Eu Hhb Db Hp.
  assert (Hal : malive s m = true).
  { destruct Hcase as [(E0 & _)|(_ & _ & Hne)]; [apply (l_know Lm t _ m (at_thr_self Ht) E0)|now apply (l_ref Lm)]. }
  assert (Hnotin : forall m0, ~ In h (mring s m0)).
  { intros m0 H. apply (w_mring W) in H as [H _]. congruence. }
  assert (Hhlt : h < nh s). { destruct Hbd as (a & b & H). eapply (w_vars_lt W); eassumption. }
  apply inv_parts. unfold register. refine {| p_ub := ?[ub]; p_fixed := ?[fixed]; p_wr := ?[wr]; p_build := ?[build]; p_mem := ?[mem];
            p_buf := ?[buf]; p_links := Lk; p_dev := Dv; p_bytes := ?[bytes] |}; simpl_st.
  [ub]: now rewrite Hub, Hal.
  [fixed]: now apply fixed_step.
  [wr]: { destruct W as [Wlt Winj Whl Wmr]. constructor; try assumption.
    + intros h0 m0 H. destruct (Nat.eq_dec h0 h) as [->|Hn]; [rewrite upd_same in H|rewrite upd_other in H by assumption].
      * inversion H; subst. split; [assumption|now apply (l_lt Lm)].
      * now apply Whl.
    + intros m0 h0.
      destruct (Nat.eq_dec m0 m) as [->|Hnm]; [rewrite upd_same|rewrite (upd_other (mring s)) by assumption];
      (destruct (Nat.eq_dec h0 h) as [->|Hnh]; [rewrite upd_same|rewrite upd_other by assumption]).
      * rewrite ring_add_In. split; [intros _; now split|now right].
      * rewrite ring_add_In, Wmr. split; [intros [H|H]; [assumption|contradiction]|tauto].
      * split; [intros H; now apply Hnotin in H|intros [H _]; congruence].
      * apply Wmr. }
  [build]: { apply build_step; [intros h' E; congruence|]. intros i p h' Ha Hn E.
    rewrite upd_other; [now split|]. intros ->. exact (Hhu i p Ha Hn E). }
  [mem]: { apply (layer_add hm dm Ht Lm m h (Hnotin m)).
    destruct Hcase as [(E0 & D0 & E1)|(E0 & E1 & Hne)]; [left; now repeat split|right]. repeat split; [assumption|congruence|now left]. }
  [buf]: exact (layer_same hb db Ht Lb Hhb Db).
  [bytes]: apply (bytes_frame _ _); [reflexivity..|exact Hp].
Qed.

Lemma build_unbind v th' :
  hw (cur th') = None -> Build (upd2 (vars s) t v None) (hptr s) (upd_nth ths t th').
Proof.
  intros E. apply build_step; [intros h' E'; congruence|]. intros i p h' Ha Hn Eh. split; [reflexivity|].
  intros v0 H0. rewrite upd2_other; [assumption|now left].
Qed.

Lemma other_ring h m x : hptr s h <> Some m -> (In x (mring s m) <-> In x (mring s m) /\ x <> h).
Proof.
  intros N. split; [|tauto]. intros H. split; [assumption|]. intros ->. apply (w_mring W) in H as [H _]. contradiction.
Qed.

(* ~memory: the variable is gone; if the wrapper points to a modeMemory_t,
   modeMemory->removeMemoryRef(this) under the ring's lock, together with the test "was it the last one" *)
Lemma inv_do_drop v rest s' th' :
  holds_nothing (cur th0) -> do_drop fixed t s v rest = (s', th') -> Inv s' (upd_nth ths t th').
Proof.
  intros Hq Hs. pose proof Hq as (_ & Hm0 & Hb0 & _ & Hp0). unfold do_drop in Hs.
  destruct (vars s t v) as [h|] eqn:Hv.
  2:{ inversion Hs; subst s' th'. apply inv_pc_only; [|now rewrite Hp0].
      apply holds_nothing_keeps; [assumption|now repeat split]. }
  cbn [hptr set_vars] in Hs. destruct (hptr s h) as [m|] eqn:Hh; cbn in Hs; inversion Hs; subst s' th'; apply inv_parts.
  - destruct (handle_facts HI Hv Hh) as (Hin & Hne & Hal & Hd0).
    refine {| p_ub := ?[ub]; p_fixed := ?[fixed]; p_wr := ?[wr]; p_build := ?[build];
              p_mem := ?[mem]; p_buf := ?[buf]; p_links := Lk; p_dev := Dv; p_bytes := ?[bytes] |}; simpl_st.
    [ub]: now rewrite Hub, Hal.
    [fixed]: now apply fixed_step.
    [wr]: { apply (wrappers_unbind W Hv). intros m0 x.
      destruct (Nat.eq_dec m0 m) as [->|Hnm]; [rewrite upd_same; apply ring_rem_In, (l_nd Lm)|].
      rewrite upd_other by assumption. apply other_ring. congruence. }
    [build]: now apply build_unbind.
    [mem]: apply (layer_rem hm dm Ht Lm m h Hin Hm0); reflexivity.
    [buf]: { apply (layer_same hb db Ht Lb); [|now left]. rewrite Hb0. now destruct (is_nil _). }
    [bytes]: apply (bytes_frame _ _); [reflexivity..|now rewrite Hp0].
  - (* removeMemoryRef returns at once *)
    refine {| p_ub := Hub; p_fixed := ?[fixed]; p_wr := ?[wr]; p_build := ?[build];
              p_mem := ?[mem]; p_buf := ?[buf]; p_links := Lk; p_dev := Dv; p_bytes := ?[bytes] |}; simpl_st.
    [fixed]: now apply fixed_step.
    [wr]: { apply (wrappers_unbind W Hv). intros m x. apply other_ring. congruence. }
    [build]: now apply build_unbind.
    [mem]: apply (layer_same hm dm Ht Lm); [now rewrite Hm0|now left].
    [buf]: apply (layer_same hb db Ht Lb); [now rewrite Hb0|now left].
    [bytes]: apply (bytes_frame _ _); [reflexivity..|now rewrite Hp0].
Qed.

(* ~modeMemory_t up to and including modeBuffer->removeModeMemoryRef(this) with its test *)
Lemma inv_memrel m s' th' :
  cur th0 = PMemRel m -> tstep fixed t s th0 = (s', th') -> Inv s' (upd_nth ths t th').
Proof.
  intros Hc Hs.
  pose proof Hself as Hl. rewrite Hc in Hl. destruct Hl as (Hal & Hmr & Hd0).
  destruct (k_mbuf_some Lk m Hal) as [b Hmb].
  unfold tstep in Hs. rewrite Hc in Hs. simpl (mbuf _ m) in Hs. rewrite Hmb in Hs. inversion Hs; subst s' th'.
  destruct (memory_facts HI Hal Hd0 Hmb) as (Hin & Hne & Hbal & Hbd0).
  (* the thread knows that the memoryRing is empty: the loop over it and its reset change nothing *)
  assert (Emr : forall m0, upd (mring s) m [] m0 = mring s m0).
  { intros m0. destruct (Nat.eq_dec m0 m) as [->|Hn]; [now rewrite upd_same|now apply upd_other]. }
  apply inv_parts. refine {| p_ub := ?[ub]; p_fixed := ?[fixed]; p_wr := ?[wr]; p_build := ?[build]; p_mem := ?[mem];
            p_buf := ?[buf]; p_links := ?[links]; p_dev := Dv; p_bytes := ?[bytes] |}; simpl_st.
  [ub]: now rewrite Hub, Hal, Hd0, Hbal.
  [fixed]: now apply fixed_step.
  [wr]: { rewrite Hmr. destruct W as [Wlt Winj Whl Wmr]. constructor; try assumption. intros m0 h. rewrite Emr. apply Wmr. }
  [build]: { rewrite Hmr. apply build_keep. now rewrite Hc. }
  [mem]: { apply (layer_ring_ext hm dm _ _ (mring s)); [exact Emr|].
    apply (layer_des hm dm Ht Lm m); rewrite ?Hc; reflexivity. }
  [buf]: apply (layer_rem hb db Ht Lb b m Hin); [now rewrite Hc|reflexivity..].
  [links]: { destruct Lk as [Klt Ksome Kbr]. constructor; try assumption. intros b0 m0.
    destruct (Nat.eq_dec b0 b) as [->|Hnb]; [rewrite upd_same|rewrite (upd_other (bring s)) by assumption];
    (destruct (Nat.eq_dec m0 m) as [->|Hnm]; [rewrite upd_same|rewrite upd_other by assumption]).
    + rewrite ring_rem_In by apply (l_nd Lb). split; [intros [_ H]; now destruct H|intros (_ & _ & H); discriminate].
    + rewrite ring_rem_In by apply (l_nd Lb). rewrite Kbr. tauto.
    + rewrite Kbr. split; [intros (_ & H & _); congruence|intros (_ & _ & H); discriminate].
    + apply Kbr. }
  [bytes]: apply (bytes_frame _ _); [reflexivity..|now rewrite Hc].
Qed.

(* delete modeBuffer decided: ~modeBuffer_t entered *)
Lemma inv_bufdtor m b s' th' :
  cur th0 = PBuf1 m b (Some true) -> tstep fixed t s th0 = (s', th') -> Inv s' (upd_nth ths t th').
Proof.
  intros Hc Hs. pose proof Hself as Hl. rewrite Hc in Hl. destruct Hl as (_ & (Hbal & Hbr & Hbd0)).
  unfold tstep in Hs. rewrite Hc in Hs. inversion Hs; subst s' th'.
  apply inv_parts. refine {| p_ub := ?[ub]; p_fixed := ?[fixed]; p_wr := W; p_build := ?[build]; p_mem := ?[mem];
            p_buf := ?[buf]; p_links := Lk; p_dev := Dv; p_bytes := ?[bytes] |}; simpl_st.
  [ub]: now rewrite Hub, Hbal, Hbd0, Hbr.
  [fixed]: now apply fixed_step.
  [build]: { apply build_keep. now rewrite Hc. }
  [mem]: apply (layer_same hm dm Ht Lm); rewrite Hc; auto.
  [buf]: apply (layer_des hb db Ht Lb b); rewrite ?Hc; reflexivity.
  [bytes]: apply (bytes_frame _ _); [reflexivity..|now rewrite Hc].
Qed.

(* end of ~modeBuffer_t: modeDevice->removeMemoryRef(this); deallocation *)
Lemma inv_bufkill m b s' th' :
  cur th0 = PBufDev m b -> tstep fixed t s th0 = (s', th') -> Inv s' (upd_nth ths t th').
Proof.
  intros Hc Hs. pose proof Hself as Hl. rewrite Hc in Hl. destruct Hl as (_ & (Hbal & Hbr & Hbd1)).
  assert (Hblt : b < nb s) by now apply (l_lt Lb).
  unfold tstep in Hs. rewrite Hc in Hs. inversion Hs; subst s' th'.
  apply inv_parts. refine {| p_ub := ?[ub]; p_fixed := ?[fixed]; p_wr := W; p_build := ?[build]; p_mem := ?[mem];
            p_buf := ?[buf]; p_links := Lk; p_dev := ?[dev]; p_bytes := ?[bytes] |}; simpl_st.
  [ub]: now rewrite Hub, Hbal.
  [fixed]: now apply fixed_step.
  [build]: { apply build_keep. now rewrite Hc. }
  [mem]: apply (layer_same hm dm Ht Lm); rewrite Hc; auto.
  [buf]: apply (layer_kill hb db Ht Lb b); rewrite ?Hc; reflexivity.
  [dev]: { destruct Dv as [Din Dnd]. constructor.
    + intros b0. rewrite ring_rem_In by assumption. rewrite Din.
      destruct (upd_cases (balive s) b false b0) as [[-> E]|[Hn E]]; rewrite E;
        [split; [intros [_ H]; now destruct H|discriminate]|tauto].
    + now apply ring_rem_NoDup. }
  [bytes]: { rewrite (sum_pend_upd Ht). rewrite Hc. cbn [pend cur at_pc].
    (* the buffer leaves the live bytes, its size leaves what the thread has pending *)
    rewrite (sum_pend_frame s) by reflexivity.
    rewrite (live_bytes_kill s _ (nb s) b); simpl_st;
      [lia|assumption|assumption|apply upd_same|intros; now apply upd_other|reflexivity]. }
Qed.

(* end of ~modeMemory_t: modeBuffer = NULL; deallocation *)
Lemma inv_memkill m s' th' :
  cur th0 = PMemEnd m -> tstep fixed t s th0 = (s', th') -> Inv s' (upd_nth ths t th').
Proof.
  intros Hc Hs. pose proof Hself as Hl. rewrite Hc in Hl. destruct Hl as (_ & _ & Hd1).
  unfold tstep in Hs. rewrite Hc in Hs. inversion Hs; subst s' th'.
  apply inv_parts.
  refine {| p_ub := Hub; p_fixed := ?[fixed]; p_wr := W; p_build := ?[build]; p_mem := ?[mem]; p_buf := ?[buf];
            p_links := ?[links]; p_dev := Dv; p_bytes := ?[bytes] |}; simpl_st.
  [fixed]: now apply fixed_step.
  [build]: apply build_keep; now rewrite Hc.
  [mem]: apply (layer_kill hm dm Ht Lm m); rewrite ?Hc; reflexivity.
  [buf]: apply (layer_same hb db Ht Lb); rewrite Hc; auto.
  [links]: { destruct Lk as [Klt Ksome Kbr]. constructor.
    + intros m0 b0 H. destruct (upd_cases (mbuf s) m None m0) as [[-> E]|[Hn E]]; rewrite E in H; [discriminate|].
      eapply Klt; eassumption.
    + intros m0 Ha. destruct (Nat.eq_dec m0 m) as [->|Hn]; [rewrite upd_same in Ha; discriminate|].
      rewrite upd_other in Ha by assumption. rewrite upd_other by assumption. now apply Ksome.
    + intros b0 m0. destruct (Nat.eq_dec m0 m) as [->|Hnm]; [rewrite !upd_same|rewrite !upd_other by assumption; apply Kbr].
      rewrite Kbr. split; [intros (_ & _ & H); congruence|intros (H & _); discriminate]. }
  [bytes]: apply (bytes_frame _ _); [reflexivity..|now rewrite Hc].
Qed.
End Step.

Lemma upd_nth_id {A} (l : list A) i x : nth_error l i = Some x -> upd_nth l i x = l.
Proof.
  revert i. induction l as [|a l IH]; intros [|i] H; cbn in *; try discriminate; [congruence|]. f_equal. now apply IH.
Qed.

Lemma inv_do_copy s ths t th0 th' a t' d :
  Inv s ths -> nth_error ths t = Some th0 -> holds_nothing (cur th0) -> holds_nothing (cur th') ->
  Inv (do_copy t s a t' d) (upd_nth ths t th').
Proof.
  intros HI Ht Q0 Q1.
  assert (Hp : forall s1 s2, pend s1 (cur th') = pend s2 (cur th0)).
  { intros s1 s2. destruct Q0 as (_ & _ & _ & _ & ->), Q1 as (_ & _ & _ & _ & ->). reflexivity. }
  assert (Hskip : Inv s (upd_nth ths t th')) by (apply (inv_pc_only s ths t _ HI Ht); [now apply holds_nothing_keeps|apply Hp]).
  unfold do_copy.
  destruct (vars s t a) as [hs|] eqn:Es; [|exact Hskip].
  destruct (vars s t' d) eqn:Ev; [exact Hskip|].
  destruct (hptr s hs) as [m|] eqn:Eh; [|exact Hskip].
  destruct (handle_facts HI Es Eh) as (Hin & Hne & Hal & Hd0).
  destruct (inv_new_handle s ths t' d HI Ev) as [HI1 [Hnone Hvar]].
  unfold new_handle. cbn [fst snd]. destruct Q0 as (_ & Hm0 & Hb0 & _), Q1 as (F & Hm1 & Hb1 & Hu1 & _).
  refine (inv_register (snd (new_handle s t' d)) ths t _ HI1 Ht th' (nh s) m Hnone _ _ _ F Hu1 _ _ (Hp _ _)).
  - destruct Hvar as [v Hv]. now exists t', v.
  - intros i p Ha Hn. apply (others_not_building s ths t i p (nh s) HI Ha Hn). left. apply le_n.
  - right. now repeat split.
  - congruence.
  - now left.
Qed.

Theorem step_inv s ths t th s' th' :
  Inv s ths -> nth_error ths t = Some th -> tstep fixed t s th = (s', th') -> Inv s' (upd_nth ths t th').
Proof.
  intros HI Ht Hs. pose proof Hs as Hs0. destruct th as [rest p].
  pose proof (i_local _ _ HI t _ (at_thr_self Ht)) as Hl. cbn [cur] in Hl.
  unfold tstep in Hs. cbn [cur prog] in Hs.
  destruct p as [|h b sz d|h b m sz d|sz d|sz v d|d|d|h m|m [[|]|]|m|m b [[|]|]|m b|m b v|m b|m]; cbn [local] in Hl; try contradiction.
  - (* PIdle *)
    destruct rest as [|o rest'].
    { inversion Hs; subst. rewrite (upd_nth_id _ _ _ Ht). exact HI. }
    (* an operation whose operands are not as it needs them does nothing *)
    assert (Hskip : (s, at_pc PIdle rest') = (s', th') -> Inv s' (upd_nth ths t th')).
    { intros E. inversion E; subst. apply (inv_pc_only s' ths t _ HI Ht); [repeat split; auto|reflexivity]. }
    unfold start_op in Hs. destruct o as [dst size|src dst|src t' dst|src dst|v].
    + (* malloc *)
      destruct (vars s t (uv dst)) eqn:Ev; [exact (Hskip Hs)|].
      destruct (vars s t (tv dst)) eqn:Ev2; [exact (Hskip Hs)|].
      destruct (size <=? 0)%Z; [exact (Hskip Hs)|].
      destruct (inv_new_handle s ths t (uv dst) HI Ev) as [HI1 Hb1].
      unfold new_handle in Hs. cbn in Hs. inversion Hs; subst.
      exact (inv_alloc_buffer (snd (new_handle s t (uv dst))) ths t _ HI1 Ht rest' (nh s) size dst eq_refl Hb1).
    + (* copy *)
      inversion Hs; subst. apply (inv_do_copy s ths t _ (at_pc PIdle rest') (uv src) t (uv dst) HI Ht); now repeat split.
    + (* hand over *)
      inversion Hs; subst. apply (inv_do_copy s ths t _ (at_pc PIdle rest') (uv src) t' (uv dst) HI Ht); now repeat split.
    + (* slice *)
      destruct (vars s t (uv src)) as [hs|] eqn:Es; [|exact (Hskip Hs)].
      destruct (vars s t (uv dst)) eqn:Ev; [exact (Hskip Hs)|].
      destruct (hptr s hs) as [m|] eqn:Eh; [|exact (Hskip Hs)].
      destruct (handle_facts HI Es Eh) as (Hin & Hne & Hal & Hd0).
      rewrite Hal in Hs. cbn [negb] in Hs. rewrite flag_false in Hs.
      destruct (mbuf s m) as [b|] eqn:Eb; [|exact (Hskip Hs)].
      destruct (memory_facts HI Hal Hd0 Eb) as (_ & Hbne & _).
      destruct (inv_new_handle s ths t (uv dst) HI Ev) as [HI1 Hb1].
      unfold new_handle, new_memory in Hs. cbn in Hs. inversion Hs; subst.
      refine (inv_new_memory (snd (new_handle s t (uv dst))) ths t _ HI1 Ht (at_pc (PSl1 (nh s) (nm s)) rest') b
                I eq_refl eq_refl eq_refl eq_refl _ eq_refl _).
      * right. split; [reflexivity|exact Hbne].
      * intros h E. now inversion E; subst.
    + (* delete *)
      apply (inv_do_drop s ths t _ HI Ht (uv v) rest' s' th'); [now repeat split|exact Hs].
  - (* PMal1 *)
    destruct Hl as [Hbld (Hbal & Hbr & Hbd)].
    unfold new_memory in Hs. cbn in Hs. inversion Hs; subst.
    refine (inv_new_memory s ths t _ HI Ht (at_pc (PMal2 h b (nm s) sz d) rest) b I eq_refl eq_refl eq_refl eq_refl _ eq_refl _).
    + left. now split.
    + intros h' E. now inversion E; subst.
  - (* PMal2 *)
    destruct Hl as [[Hh [v Hv]] _]. inversion Hs; subst.
    refine (inv_register s ths t _ HI Ht (at_pc (PMal3 sz d) rest) h m Hh _ _ _ I eq_refl eq_refl _ eq_refl).
    + now exists t, v.
    + intros i p Ha Hn. eapply (others_not_building s); eauto.
    + left. now repeat split.
    + now left.
  - cbn in Hs. inversion Hs; subst. apply (inv_set_bytes s ths t _ HI Ht _ sz); [repeat split; auto|reflexivity].
  - (* PMalEnd *)
    inversion Hs; subst. apply (inv_do_copy s ths t _ (at_pc (PMalRet d) rest) (uv d) t (tv d) HI Ht); now repeat split.
  - (* PMalRet *)
    apply (inv_do_drop s ths t _ HI Ht (tv d) rest s' th'); [now repeat split|exact Hs].
  - (* PSl1 *)
    destruct Hl as [[Hh [v Hv]] _]. inversion Hs; subst.
    refine (inv_register s ths t _ HI Ht (at_pc PIdle rest) h m Hh _ _ _ I eq_refl eq_refl _ eq_refl).
    + now exists t, v.
    + intros i p Ha Hn. eapply (others_not_building s); eauto.
    + left. now repeat split.
    + now left.
  - (* PDrop1, last: the thread goes on holding m *)
    inversion Hs; subst. apply (inv_pc_only s' ths t _ HI Ht (at_pc (PMemRel m) rest)); [repeat split; auto|reflexivity].
  - (* PDrop1, not last *)
    inversion Hs; subst. apply (inv_pc_only s' ths t _ HI Ht (at_pc PIdle rest)); [repeat split; auto|reflexivity].
  - exact (inv_memrel s ths t _ HI Ht m s' th' eq_refl Hs0).
  - exact (inv_bufdtor s ths t _ HI Ht m b s' th' eq_refl Hs0).
  - (* PBuf1, not last: the thread goes on holding m *)
    inversion Hs; subst. apply (inv_pc_only s' ths t _ HI Ht (at_pc (PMemEnd m) rest)); [repeat split; auto|reflexivity].
  - cbn in Hs. inversion Hs; subst. apply (inv_set_bytes s ths t _ HI Ht _ (- bsize s b)); [repeat split; auto|cbn; lia].
  - exact (inv_bufkill s ths t _ HI Ht m b s' th' eq_refl Hs0).
  - exact (inv_memkill s ths t _ HI Ht m s' th' eq_refl Hs0).
Qed.
