(* C18 — proofs.  The arithmetic core ([tiles_cover], [tiles_exact]) is stated over progressions and
   natural block counts, independently of expression trees; [tile_covers] / [tile_nocheck]
   instantiate it with the values of the three statements tile.cpp builds. *)
From Coq Require Import List ZArith Bool Lia Arith.
From OV.C17 Require Import Expr ExprProofs Loop LoopProofs.
From OV.C18 Require Import Model Spec.
Import ListNotations.
Local Open Scope Z_scope.

Lemma in_progression : forall x i0 d n, In x (progression i0 d n) ->
  exists j, (j < n)%nat /\ x = i0 + Z.of_nat j * d.
Proof.
  unfold progression. intros x i0 d n H. apply in_map_iff in H. destruct H as [j [E Hj]].
  apply in_seq in Hj. exists j. split; [lia|congruence].
Qed.

Theorem tiles_exact : forall i0 d (t nb : nat),
  flat_map (fun j => progression (i0 + Z.of_nat j * (Z.of_nat t * d)) d t) (seq 0 nb)
  = progression i0 d (nb * t).
Proof.
  intros i0 d t nb. induction nb as [|nb IH]; [reflexivity|].
  rewrite seq_S, flat_map_app, IH. cbn [plus flat_map]. rewrite app_nil_r.
  change (S nb * t)%nat with (t + nb * t)%nat.
  rewrite (Nat.add_comm t), progression_app, Nat2Z.inj_mul, Z.mul_assoc. reflexivity.
Qed.

Lemma filter_progression : forall (N n : nat) i0 d (P : Z -> bool),
  (forall q : nat, P (i0 + Z.of_nat q * d) = (q <? n)%nat) ->
  filter P (progression i0 d N) = progression i0 d (Nat.min N n).
Proof.
  induction N as [|N IH]; intros n i0 d P HP; [reflexivity|].
  assert (Hd : forall q : nat, P (i0 + d + Z.of_nat q * d) = (S q <? n)%nat).
  { intros q. rewrite <- HP. f_equal. lia. }
  pose proof (HP 0%nat) as H0. rewrite Z.mul_0_l, Z.add_0_r in H0.
  rewrite progression_S. cbn [filter]. rewrite H0. destruct n as [|n].
  - rewrite (IH 0%nat (i0 + d) d P Hd), Nat.min_0_r. reflexivity.
  - cbn [Nat.min]. rewrite progression_S, (IH n (i0 + d) d P Hd). reflexivity.
Qed.

Theorem tiles_cover : forall i0 d (t nb n : nat) (P : Z -> bool),
  (n <= nb * t)%nat ->
  (forall q : nat, P (i0 + Z.of_nat q * d) = (q <? n)%nat) ->
  flat_map (fun j => filter P (progression (i0 + Z.of_nat j * (Z.of_nat t * d)) d t)) (seq 0 nb)
  = progression i0 d n.
Proof.
  intros i0 d t nb n P Hn HP.
  rewrite flat_map_concat_map,
    <- (map_map (fun j => progression (i0 + Z.of_nat j * (Z.of_nat t * d)) d t) (filter P)),
    concat_filter_map, <- flat_map_concat_map, tiles_exact.
  rewrite (filter_progression _ n) by exact HP. rewrite Nat.min_r by exact Hn. reflexivity.
Qed.

(* block j is launched iff the element of index j * t is in range *)
Lemma lt_block_count : forall D s t (j : nat), 0 < s -> 0 < t ->
  ((j < Z.to_nat (cdiv_count D (t * s)))%nat <-> (j * Z.to_nat t < Z.to_nat (cdiv_count D s))%nat).
Proof.
  intros D s t j Hs Ht.
  rewrite (lt_count D (t * s) j (Z.mul_pos_pos _ _ Ht Hs)), (lt_count D s _ Hs).
  rewrite Nat2Z.inj_mul, (Z2Nat.id t (Z.lt_le_incl _ _ Ht)), Z.mul_assoc. reflexivity.
Qed.

Lemma count_blocks_cover : forall D s t, 0 < s -> 0 < t ->
  (Z.to_nat (cdiv_count D s) <= Z.to_nat (cdiv_count D (t * s)) * Z.to_nat t)%nat.
Proof.
  intros D s t Hs Ht. apply Nat.le_ngt. intro H.
  apply (lt_block_count D s t _ Hs Ht) in H. exact (Nat.lt_irrefl _ H).
Qed.

Lemma count_blocks_exact : forall D s t (m : nat), 0 < s -> 0 < t ->
  Z.to_nat (cdiv_count D s) = (m * Z.to_nat t)%nat -> Z.to_nat (cdiv_count D (t * s)) = m.
Proof.
  intros D s t m Hs Ht E.
  apply Nat.le_antisymm; apply Nat.le_ngt; intro H.
  - apply (lt_block_count D s t _ Hs Ht) in H. rewrite E in H. exact (Nat.lt_irrefl _ H).
  - apply (Nat.mul_lt_mono_pos_r (Z.to_nat t)) in H;
      [|apply (Z2Nat.inj_lt 0 t (Z.le_refl 0) (Z.lt_le_incl _ _ Ht)), Ht].
    rewrite <- E in H. apply (lt_block_count D s t _ Hs Ht) in H. exact (Nat.lt_irrefl _ H).
Qed.

Lemma multiple_of_mod : forall (n : nat) t, 0 < t -> Z.of_nat n mod t = 0 ->
  exists m : nat, n = (m * Z.to_nat t)%nat.
Proof.
  intros n t Ht H. apply Z.mod_divide in H; [|lia]. destruct H as [z Hz].
  assert (0 <= z) by (apply (Z.mul_nonneg_cancel_r z t Ht); lia).
  exists (Z.to_nat z). rewrite <- Z2Nat.inj_mul, <- Hz, Nat2Z.id by lia. reflexivity.
Qed.

Lemma cdiv_count_block : forall t s, 0 < s -> 0 <= t -> cdiv_count (t * s) s = t.
Proof.
  intros t s Hs Ht. unfold cdiv_count. symmetry.
  pose proof (Z.mul_nonneg_nonneg t s Ht (Z.lt_le_incl _ _ Hs)).
  apply (Z.quot_unique _ _ _ (s - 1)); lia.
Qed.

Lemma distance_strict_ahead : forall c u x n, distance (strict c) u x (x + dir u * n) = n.
Proof.
  intros c u x n. unfold distance.
  replace (inclusive (strict c)) with false by (destruct c; reflexivity).
  rewrite Z.add_simpl_l, Z.mul_assoc, dir_sq, Z.add_0_r. apply Z.mul_1_l.
Qed.

Lemma wf_tile_parts : forall h T, wf_tile h T = true ->
  wf_operand (h_init h) = true /\ wf_operand (h_bound h) = true /\
  (forall s, update_value (h_upd h) = Some s -> wf_operand s = true) /\ wf_operand T = true.
Proof.
  unfold wf_tile. intros h T H. apply andb_prop in H as [H HT].
  destruct (wf_header_parts h H) as [Hi [Hb Hs]]. auto.
Qed.

(* the block step is an operand like the others: a tree a parser produces, over program variables *)
Lemma wf_block_step : forall h T, wf_tile h T = true -> wf_operand (block_step h T) = true.
Proof.
  intros h T H. destruct (wf_tile_parts h T H) as [_ [_ [Hs HT]]]. unfold block_step.
  destruct (update_value (h_upd h)) as [inc|] eqn:E; [|exact HT].
  specialize (Hs inc eq_refl). unfold wf_operand, closed_under in *.
  apply andb_prop in HT as [ST CT]. apply andb_prop in Hs as [Ss Cs].
  cbn [wrap safe eprec bprec vars]. rewrite !safe_wrap, !eprec_wrap, !vars_wrap, forallb_app, ST, Ss, CT, Cs.
  reflexivity.
Qed.

Lemma eval_block_step : forall rho h T,
  eval rho (block_step h T) = eval rho T * step_val rho (h_upd h).
Proof.
  intros rho h T. unfold block_step, step_val.
  destruct (update_value (h_upd h)) as [inc|]; [|lia].
  cbn [wrap eval bin_sem]. rewrite !eval_wrap. reflexivity.
Qed.

Lemma eval_inner_bound : forall rho x h T, wf_tile h T = true ->
  eval (upd_env rho xT_id x) (inner_bound t_fixed h T) =
  x + dir (h_upd h) * (eval rho T * step_val rho (h_upd h)).
Proof.
  intros rho x h T H. unfold inner_bound, dir. cbn [tv_inner_covers_block t_fixed].
  rewrite eval_wrap.
  destruct (positive_update (h_upd h)); cbn [eval bin_sem];
    rewrite eval_wrap, (eval_upd_wf _ xT_id _ _ (wf_block_step _ _ H) eq_refl), eval_block_step;
    unfold upd_env; rewrite Z.eqb_refl; lia.
Qed.

(* the block loop keeps the direction of the original update and steps by T times its step *)
Lemma block_upd : forall rho h T,
  positive_update (h_upd (block_header h T)) = positive_update (h_upd h) /\
  step_val rho (h_upd (block_header h T)) = eval rho T * step_val rho (h_upd h).
Proof.
  intros rho h T. unfold block_header. cbn [h_upd].
  destruct (positive_update (h_upd h)); (split; [reflexivity|apply eval_block_step]).
Qed.

Lemma reread_upd_safe : forall u,
  match update_value u with Some s => safe s = true | None => True end -> reread_upd u = Some u.
Proof.
  intros u H. destruct u as [| |s|s]; cbn [reread_upd update_value] in *; try reflexivity;
    rewrite reread_safe by exact H; reflexivity.
Qed.

Lemma reread_header_safe : forall h,
  safe (h_init h) = true -> safe (h_bound h) = true ->
  match update_value (h_upd h) with Some s => safe s = true | None => True end ->
  reread_header h = Some h.
Proof.
  intros [i c l b u] Hi Hb Hu. unfold reread_header. cbn [h_init h_bound h_upd h_cmp h_left] in *.
  rewrite (reread_safe _ Hi), (reread_safe _ Hb), (reread_upd_safe _ Hu). reflexivity.
Qed.

Lemma reread_block_header : forall h T, wf_tile h T = true ->
  reread_header (block_header h T) = Some (block_header h T).
Proof.
  intros h T H. destruct (wf_tile_parts h T H) as [Hi [Hb _]].
  apply reread_header_safe; cbn [block_header h_init h_bound h_upd].
  - exact (wf_operand_safe _ Hi).
  - exact (wf_operand_safe _ Hb).
  - destruct (positive_update (h_upd h)); exact (wf_operand_safe _ (wf_block_step h T H)).
Qed.

Lemma reread_inner_header : forall h T, wf_tile h T = true ->
  reread_header (inner_header t_fixed h T) = Some (inner_header t_fixed h T).
Proof.
  intros h T H. destruct (wf_tile_parts h T H) as [_ [_ [Hs _]]].
  pose proof (wf_operand_safe _ (wf_block_step h T H)) as Sb.
  apply reread_header_safe; cbn [inner_header h_init h_bound h_upd].
  - reflexivity.
  - unfold inner_bound. cbn [tv_inner_covers_block t_fixed].
    destruct (positive_update (h_upd h)); cbn [wrap safe eprec bprec];
      rewrite safe_wrap, eprec_wrap, Sb; reflexivity.
  - destruct (update_value (h_upd h)) as [s|] eqn:E; [|exact I].
    exact (wf_operand_safe _ (Hs s eq_refl)).
Qed.

Lemma collect_map_some : forall (A B : Type) (g : A -> option (list B)) (f : A -> list B) l,
  (forall x, In x l -> g x = Some (f x)) -> collect (map g l) = Some (flat_map f l).
Proof.
  intros A B g f l. induction l as [|a t IH]; intros H; [reflexivity|].
  cbn [map collect flat_map]. rewrite (H a (or_introl eq_refl)).
  rewrite IH by (intros; apply H; right; assumption). reflexivity.
Qed.

Section Tiled.
  Variables (rho : env) (h : header) (T : expr).
  Hypothesis Hwf : wf_tile h T = true.
  Hypothesis Hdir : direction_ok h = true.
  Hypothesis Hstep : step_positive rho h.
  Hypothesis HT : 0 < eval rho T.

  Let i0 := eval rho (h_init h).
  Let b := eval rho (h_bound h).
  Let s := step_val rho (h_upd h).
  Let t := eval rho T.
  Let d := dir (h_upd h) * s.
  Let D := distance (h_cmp h) (h_upd h) i0 b.
  Let nb := Z.to_nat (cdiv_count D (t * s)).
  Let Hs : 0 < s := Hstep.
  Let tn := Z.to_nat t.

  Lemma block_values :
    seq_values rho (block_header h T) = Some (progression i0 (Z.of_nat tn * d) nb).
  Proof.
    destruct (block_upd rho h T) as [Ep Es]. fold t s in Es.
    rewrite seq_values_progression.
    - assert (Ed : dir (h_upd (block_header h T)) = dir (h_upd h)) by (unfold dir; rewrite Ep; reflexivity).
      cbv zeta. unfold distance. rewrite Es, Ed. do 2 f_equal.
      unfold d, tn. rewrite (Z2Nat.id t (Z.lt_le_incl _ _ HT)). apply Z.mul_shuffle3.
    - unfold direction_ok in *. rewrite Ep. exact Hdir.
    - unfold step_positive. rewrite Es. apply Z.mul_pos_pos; assumption.
  Qed.

  Lemma inner_values : forall xb,
    seq_values (upd_env rho xT_id xb) (inner_header t_fixed h T) = Some (progression xb d tn).
  Proof.
    intros xb.
    destruct (wf_tile_parts h T Hwf) as [_ [_ [Hops _]]].
    assert (Es : step_val (upd_env rho xT_id xb) (h_upd h) = s).
    { unfold s, step_val. destruct (update_value (h_upd h)) as [inc|] eqn:E; [|reflexivity].
      apply eval_upd_wf; [apply Hops|]; reflexivity. }
    rewrite seq_values_progression.
    - cbv zeta. cbn [inner_header h_init h_bound h_upd h_cmp eval].
      rewrite Es, (eval_inner_bound _ _ _ _ Hwf). unfold upd_env. rewrite Z.eqb_refl. fold t s d.
      rewrite distance_strict_ahead, (cdiv_count_block t s Hs (Z.lt_le_incl _ _ HT)). reflexivity.
    - unfold direction_ok, ascending in *. cbn [inner_header h_cmp h_left h_upd].
      destruct (h_cmp h); exact Hdir.
    - unfold step_positive. cbn [inner_header h_upd]. rewrite Es. exact Hs.
  Qed.

  Lemma tiled_as_blocks : forall check,
    tiled_values t_fixed rho h T check =
    Some (flat_map (fun j =>
                      let xs := progression (i0 + Z.of_nat j * (Z.of_nat tn * d)) d tn in
                      if check then filter (fun x => test (h_cmp h) (h_left h) x b) xs else xs)
                   (seq 0 nb)).
  Proof.
    intros check. unfold tiled_values.
    destruct (wf_tile_parts h T Hwf) as [_ [Hb _]].
    rewrite reread_block_header, reread_inner_header by exact Hwf.
    rewrite (reread_safe _ (wf_operand_safe _ Hb)).
    rewrite block_values.
    rewrite (collect_map_some _ _ _
               (fun xb => let xs := progression xb d tn in
                          if check then filter (fun x => test (h_cmp h) (h_left h) x b) xs else xs)).
    - unfold progression. rewrite !flat_map_concat_map, map_map. reflexivity.
    - intros xb _. rewrite inner_values. cbv zeta.
      rewrite (eval_upd_wf rho xT_id xb _ Hb eq_refl). reflexivity.
  Qed.

  Theorem tile_covers : tiled_values t_fixed rho h T true = spec_values rho h.
  Proof.
    rewrite tiled_as_blocks. unfold spec_values.
    rewrite seq_values_progression by assumption. fold i0 b s D d. f_equal.
    apply tiles_cover.
    - apply count_blocks_cover; assumption.
    - intros q. unfold d. rewrite test_progression by exact Hdir. apply ltb_count, Hs.
  Qed.

  Theorem tile_nocheck : forall l,
    spec_values rho h = Some l -> Z.of_nat (length l) mod eval rho T = 0 ->
    tiled_values t_fixed rho h T false = Some l.
  Proof.
    intros l Hl Hmod.
    rewrite tiled_as_blocks. unfold spec_values in Hl.
    rewrite seq_values_progression in Hl by assumption. fold i0 b s D d in Hl.
    injection Hl as <-. f_equal. cbv zeta. rewrite tiles_exact. f_equal.
    unfold progression in Hmod. rewrite map_length, seq_length in Hmod. fold t in Hmod, HT.
    destruct (multiple_of_mod _ _ HT Hmod) as [m Hm].
    unfold nb. rewrite (count_blocks_exact D s t m Hs HT Hm). symmetry. exact Hm.
  Qed.
End Tiled.
