(* C18 — @tile covers the original loop's iterations exactly once.  The lemmas are in Proofs.v; the witnesses
   and examples are evaluated here.  Vocabulary: C17/Expr.v, C17/Loop.v, C18/Model.v (the three statements tile.cpp builds,
   operands re-read from their printed text), C18/Spec.v (the untiled sequential loop). *)
From Coq Require Import List ZArith Bool Lia.
From OV.C17 Require Import Expr Loop LoopProofs.
From OV.C18 Require Import Model Spec Proofs.
Import ListNotations.
Local Open Scope Z_scope.

(* check = true (the default): for every header whose update moves towards its bound, every tile-size
   expression, every environment with a positive step and a positive tile size, the block loop, the
   inner loop and the `if` execute the body for exactly the iterator values of the original loop, in
   the same order. *)
Theorem tile_covers : forall rho h T,
  wf_tile h T = true -> direction_ok h = true -> step_positive rho h -> 0 < eval rho T ->
  tiled_values t_fixed rho h T true = spec_values rho h.
Proof. exact Proofs.tile_covers. Qed.
Print Assumptions tile_covers.

(* check = false: the same whenever the original iteration count is a multiple of the tile size. *)
Theorem tile_nocheck : forall rho h T l,
  wf_tile h T = true -> direction_ok h = true -> step_positive rho h -> 0 < eval rho T ->
  spec_values rho h = Some l -> Z.of_nat (length l) mod eval rho T = 0 ->
  tiled_values t_fixed rho h T false = Some l.
Proof. intros rho h T l H1 H2 H3 H4. exact (Proofs.tile_nocheck rho h T H1 H2 H3 H4 l). Qed.
Print Assumptions tile_nocheck.

(* The arithmetic core, independent of expression trees: nb blocks of t consecutive
   elements of a progression, cut by a test that holds for exactly its first n elements. *)
Theorem tiles_cover : forall i0 d (t nb n : nat) (P : Z -> bool),
  (n <= nb * t)%nat ->
  (forall q : nat, P (i0 + Z.of_nat q * d) = (q <? n)%nat) ->
  flat_map (fun j => filter P (progression (i0 + Z.of_nat j * (Z.of_nat t * d)) d t)) (seq 0 nb)
  = progression i0 d n.
Proof. exact Proofs.tiles_cover. Qed.
Print Assumptions tiles_cover.

Theorem tiles_exact : forall i0 d (t nb : nat),
  flat_map (fun j => progression (i0 + Z.of_nat j * (Z.of_nat t * d)) d t) (seq 0 nb)
  = progression i0 d (nb * t).
Proof. exact Proofs.tiles_exact. Qed.
Print Assumptions tiles_exact.

Theorem count_blocks_cover : forall D s t, 0 < s -> 0 < t ->
  (Z.to_nat (cdiv_count D s) <= Z.to_nat (cdiv_count D (t * s)) * Z.to_nat t)%nat.
Proof. exact Proofs.count_blocks_cover. Qed.
Print Assumptions count_blocks_cover.

Definition N : expr := Var 0.
Definition M : expr := Var 1.
Definition rho92 : env := fun x => if x =? 0 then 9 else 2.

(* for (i = 1; i < N; i += 2; @tile(4)): blocks advance by 8, the pinned inner loop covers
   [xT, xT + 4): with N = 9 the values 5 and 7 are never visited *)
Theorem tile_step_refuted : exists h T rho,
  wf_tile h T = true /\ direction_ok h = true /\ step_positive rho h /\ 0 < eval rho T /\
  spec_values rho h = Some [1; 3; 5; 7] /\ tiled_values t_pinned rho h T true = Some [1; 3].
Proof.
  exists (mkHeader (Num 1) CLt true N (UAdd (Num 2))), (Num 4), rho92.
  repeat split; reflexivity.
Qed.
Print Assumptions tile_step_refuted.

(* for (j = N; M <= j; j--; @tile(M + 1)): the pinned inner bound is (xT - M + 1), i.e. xT - 1 for
   M = 2 instead of xT - 3: one value per block of three *)
Theorem tile_size_parens_refuted : exists h T rho,
  wf_tile h T = true /\ direction_ok h = true /\ step_positive rho h /\ 0 < eval rho T /\
  spec_values rho h = Some [9; 8; 7; 6; 5; 4; 3; 2] /\
  tiled_values t_pinned rho h T true = Some [9; 6; 3].
Proof.
  exists (mkHeader N CLe false M UDec), (Bin Add M (Num 1)), rho92.
  repeat split; reflexivity.
Qed.
Print Assumptions tile_size_parens_refuted.

Example ex_tile_step :
  let h := mkHeader (Num 1) CLt true N (UAdd (Num 2)) in
  tiled_values t_fixed rho92 h (Num 4) true = Some [1; 3; 5; 7] /\
  tiled_values t_fixed rho92 h (Num 4) false = Some [1; 3; 5; 7] /\
  tiled_values t_fixed rho92 h (Num 3) true = Some [1; 3; 5; 7] /\
  (* 4 iterations are not a multiple of 3: without the check two values beyond the bound run *)
  tiled_values t_fixed rho92 h (Num 3) false = Some [1; 3; 5; 7; 9; 11].
Proof. repeat split; reflexivity. Qed.

Example ex_tile_down :
  let h := mkHeader N CLe false M UDec in
  tiled_values t_fixed rho92 h (Bin Add M (Num 1)) true = Some [9; 8; 7; 6; 5; 4; 3; 2].
Proof. reflexivity. Qed.
