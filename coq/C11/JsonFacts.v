(* C11 — the fuel fromJson supplies (jdepth j + 1) is enough (fuel_enough); from there on fromJson
   is used through its equations on the JSON objects toJson builds, which mention no fuel. *)
From Coq Require Import List ZArith Bool String Lia.
From OV.C11 Require Import Model.
Import ListNotations.
Local Open Scope Z_scope.
Local Open Scope string_scope.

Lemma builtin_json_nf : forall h,
  builtin_json h = JObj [("name", JStr (h_name h)); ("type", JStr "builtin")].
Proof. reflexivity. Qed.

Lemma custom_json_nf : forall h,
  custom_json h = JObj [("bytes", JInt (h_bytes h)); ("name", JStr (h_name h)); ("type", JStr "custom")].
Proof. reflexivity. Qed.

Lemma jget_depth : forall k j, (jdepth (jget k j) <= pred (jdepth j))%nat.
Proof.
  intros k [| | | | |kv]; cbn; try lia.
  induction kv as [|[k' x] kv IH]; cbn; [lia|].
  destruct (String.eqb k k'); [apply Nat.le_max_l|]. etransitivity; [exact IH|apply Nat.le_max_r].
Qed.

Lemma j_array_depth : forall j x, In x (j_array j) -> (jdepth x <= pred (jdepth j))%nat.
Proof.
  intros [| | | |l|] x H; cbn in *; try contradiction.
  induction l as [|y l IH]; [contradiction|]. cbn. destruct H as [->|H]; [apply Nat.le_max_l|].
  etransitivity; [apply IH, H|apply Nat.le_max_r].
Qed.

Lemma fields_loop_ext : forall rec1 rec2 p l i acc,
  (forall x q, In x l -> rec1 q (jget "dtype" x) = rec2 q (jget "dtype" x)) ->
  fields_loop rec1 p i l acc = fields_loop rec2 p i l acc.
Proof.
  induction l as [|fj l IH]; intros i acc H; cbn [fields_loop]; [reflexivity|].
  rewrite (H fj (p ++ [i])%list (or_introl eq_refl)).
  destruct (rec2 (p ++ [i])%list (jget "dtype" fj)); [|reflexivity].
  rewrite IH; [reflexivity|]. intros x q Hin. apply H. right. exact Hin.
Qed.

Lemma fuel_enough : forall v n m p j,
  (jdepth j < n)%nat -> (jdepth j < m)%nat -> fromJson_n v n p j = fromJson_n v m p j.
Proof.
  intros v. induction n as [|n IH]; intros [|m] p j Hn Hm; try lia.
  (* only an object has keys: on anything else both sides fail at "type" *)
  destruct j as [| | | | l |kv]; try reflexivity.
  assert (H1 : (1 <= jdepth (JObj kv))%nat) by (cbn [jdepth]; lia).
  set (j := JObj kv) in *. cbn [fromJson_n].
  rewrite (fields_loop_ext (fromJson_n v n) (fromJson_n v m) p (j_array (jget "fields" j)) 0 []),
          (IH m (p ++ [0])%list (jget "dtype" j)); [reflexivity|..].
  1,2: pose proof (jget_depth "dtype" j); lia.
  intros x q Hin. pose proof (j_array_depth _ _ Hin). pose proof (jget_depth "dtype" x).
  pose proof (jget_depth "fields" j). apply IH; lia.
Qed.

Lemma fuel_fromJson : forall v n p j, (jdepth j < n)%nat -> fromJson_n v n p j = fromJson v p j.
Proof. intros. apply fuel_enough; [assumption|apply Nat.lt_succ_diag_r]. Qed.

Lemma fromJson_builtin : forall v p h,
  fromJson v p (builtin_json h) =
  (if is_none_obj (getBuiltin (h_name h)) then None else Some (copy (getBuiltin (h_name h)))).
Proof. reflexivity. Qed.

Lemma fromJson_custom : forall v p h,
  fromJson v p (custom_json h) = Some (DLeaf (mkH p (h_name h) (h_bytes h) false)).
Proof. reflexivity. Qed.

Lemma fromJson_enum : forall v p nm ns,
  fromJson v p (enum_json nm ns) =
  match enum_names (map (fun n => jset "name" (JStr n) JNone) ns) [] with
  | Some ns' => Some (DEnum (mkH p nm 0 false) ns')
  | None => None
  end.
Proof.
  (* toJson writes no "name" for the empty name and fromJson reads the missing key as "": two shapes *)
  intros. unfold enum_json, jset_name. destruct (String.eqb_spec nm ""); subst; reflexivity.
Qed.

Lemma enum_names_cons : forall n r acc,
  enum_names (jset "name" (JStr n) JNone :: r) acc =
  if str_in n acc then None else enum_names r (acc ++ [n])%list.
Proof. reflexivity. Qed.

(* s: struct or union *)
Lemma fromJson_fields : forall v p (s : bool) nm l,
  fromJson v p (fields_json (if s then "struct" else "union") nm l) =
  match fields_loop (fromJson v) p 0 l [] with
  | Some fs =>
      let h := mkH p nm (if v_from_bytes v then sum_bytes fs else 0) false in
      Some (if s then DStruct h fs else DUnion h fs)
  | None => None
  end.
Proof.
  intros v p s nm l. unfold fromJson at 1. set (J := fields_json _ nm l).
  assert (HJ : (jdepth (JArr l) < jdepth J)%nat).
  { subst J. unfold fields_json, jset_name. destruct s, (String.eqb nm ""); cbn; lia. }
  rewrite (fields_loop_ext (fromJson v) (fromJson_n v (jdepth J)) p l 0 []).
  - subst J. unfold fields_json, jset_name. destruct s, (String.eqb_spec nm ""); subst; reflexivity.
  - intros x q Hx. symmetry. apply fuel_fromJson.
    pose proof (j_array_depth (JArr l) x Hx). pose proof (jget_depth "dtype" x). lia.
Qed.

Lemma fields_loop_cons : forall rec p i n dj r acc,
  fields_loop rec p i (field_json n dj :: r) acc =
  match rec (p ++ [i])%list dj with
  | Some fd => if has_field n acc then None
               else fields_loop rec p (i + 1) r (acc ++ [(n, copy fd)])%list
  | None => None
  end.
Proof. reflexivity. Qed.

Lemma fromJson_tuple : forall v p nm ej s,
  fromJson v p (tuple_json nm ej s) =
  match fromJson v (p ++ [0])%list ej with
  | Some e => Some (DTuple (mkH p nm (if v_from_bytes v then d_bytes e * s else 0) false) (copy e) s)
  | None => None
  end.
Proof.
  intros v p nm ej s. unfold fromJson at 1. set (J := tuple_json nm ej s).
  assert (HJ : (jdepth ej < jdepth J)%nat).
  { subst J. unfold tuple_json, jset_name. destruct (String.eqb nm ""); cbn; lia. }
  rewrite <- (fuel_fromJson v (jdepth J) (p ++ [0])%list ej HJ).
  subst J. unfold tuple_json, jset_name. destruct (String.eqb_spec nm ""); subst; reflexivity.
Qed.
