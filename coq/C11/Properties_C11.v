(* C11 — Dtype and kernel-metadata JSON serialization round-trips.

   Vocabulary (coq/C11/Model.v, Spec.v, Statements.v):
     toJson v d nm    dtype_t::toJson(j, nm)           fromJson v p j   dtype_t::fromJson(j), the new
                                                                        objects get the addresses p, p++[i], ...
     repaired / pinned : the source with / without fixes/C11-1..3.patch
     canBeCastedTo    dtype_t::canBeCastedTo (None = the integer division by zero in isCyclic, which
                      fixes/C10-3 guards: canBeCastedTo' in coq/C10/Model.v)
     wf d             references point to objects, an object at a builtin's address is that builtin,
                      field names / enumerators are unique
     user_prefix p    p starts with something else than -1: no builtin global lives at p or below it
     names_kept, bytes_derived, builtin_leaves : the three guards (Statements.v), each the exact
                      complement of a recorded finding. *)
From Coq Require Import List ZArith Bool String.
From OV.C11 Require Import Model Spec Statements Proofs.
Import ListNotations.
Local Open Scope Z_scope.
Local Open Scope string_scope.

(* Full statement of the property (NOT provable for the code, see the _refuted theorems):
     forall d nm p, wf d -> user_prefix p = true ->
       exists d', roundtrip p d nm = Some d' /\ equiv d' d.
   What is proved: the same with the two guards names_kept nm d and bytes_derived d.  What is
   missing is exactly: names of user-defined struct/union/tuple/enum dtypes that are not handed
   to toJson by the caller (nested ones never are), and byte sizes given explicitly to an enum /
   struct / union (not derivable from the fields).  Without any guard, fromJson still never
   throws on toJson's output (roundtrip_total). *)
Theorem roundtrip_equiv_partial : forall (d : dtype) (nm : string) (p : ident),
  wf d -> user_prefix p = true ->
  names_kept nm d = true -> bytes_derived d = true ->
  exists d', roundtrip p d nm = Some d' /\ equiv d' d.
Proof. exact Proofs.roundtrip_equiv_partial. Qed.
Print Assumptions roundtrip_equiv_partial.

Theorem roundtrip_total : forall (d : dtype) (nm : string) (p : ident),
  wf d -> user_prefix p = true -> exists d', roundtrip p d nm = Some d'.
Proof. exact Proofs.roundtrip_total. Qed.
Print Assumptions roundtrip_total.

(* bytes_derived is an invariant of the construction API: one addField step keeps it, and the
   0-byte dtype_t a struct / union starts from has it trivially (so the guard only excludes
   explicitly given byte sizes) *)
Theorem add_field_keeps_bytes_derived : forall obj f d n obj',
  wf d -> bytes_derived d = true -> bytes_derived obj = true ->
  (forall h, obj = DLeaf h -> h_bytes h = 0) ->
  is_builtin_obj (hdr_of obj) = false ->
  add_field repaired obj f d n = Some obj' -> bytes_derived obj' = true.
Proof. exact Proofs.add_field_keeps_bytes_derived. Qed.
Print Assumptions add_field_keeps_bytes_derived.

(* Full statement: for wf a, wf b and user prefixes, canBeCastedTo (rt a) (rt b) = canBeCastedTo a b.
   Proved for all dtypes whose flattened leaves are builtins (this covers the dtypes the OKL
   parser produces for kernel arguments from the primitive types getBuiltin knows, the vector
   types, typedefs, arrays and structs of these), whatever their names and byte sizes, for the
   three combinations (both round-tripped, only the target, only the source).  Missing: leaves
   that are custom dtypes / enums / dtype::none (also what the parser gives a parameter of a
   type getBuiltin does not know: size_t, ptrdiff_t, wchar_t, char16_t, char32_t, auto) /
   occa::memory — compared by address, and a deserialised copy has a new address
   (cast_shared_leaf_refuted). *)
Theorem cast_preserved_partial : forall (a b : dtype) (nma nmb : string) (p q : ident),
  wf a -> wf b -> user_prefix p = true -> user_prefix q = true ->
  builtin_leaves a -> builtin_leaves b ->
  exists a' b',
    roundtrip p a nma = Some a' /\ roundtrip q b nmb = Some b' /\
    canBeCastedTo a' b' = canBeCastedTo a b /\
    canBeCastedTo a b' = canBeCastedTo a b /\
    canBeCastedTo a' b = canBeCastedTo a b.
Proof. exact Proofs.cast_preserved. Qed.
Print Assumptions cast_preserved_partial.

(* argMetadata_t / kernelMetadata_t: flags, argument names, kernel name and order always come
   back; the dtypes as in roundtrip_equiv_partial (they are serialised with name = ""). *)
Theorem arg_roundtrip_partial : forall (a : argmeta) (p : ident),
  wf (a_dtype a) -> user_prefix p = true ->
  names_kept "" (a_dtype a) = true -> bytes_derived (a_dtype a) = true ->
  exists a', arg_fromJson repaired p (arg_toJson repaired a) = Some a' /\ arg_equiv a' a.
Proof. exact Proofs.arg_roundtrip. Qed.
Print Assumptions arg_roundtrip_partial.

Theorem metadata_roundtrip_partial : forall (k : kmeta) (p : ident),
  user_prefix p = true ->
  Forall (fun a => wf (a_dtype a) /\ names_kept "" (a_dtype a) = true /\
                   bytes_derived (a_dtype a) = true) (k_args k) ->
  exists k', k_fromJson repaired p (k_toJson repaired k) = Some k' /\ kmeta_equiv k' k.
Proof. exact Proofs.metadata_roundtrip. Qed.
Print Assumptions metadata_roundtrip_partial.

Definition float_ref : dtype := DRef g_float.
Lemma wf_float_ref : wf float_ref.
Proof. apply wf_ref; [reflexivity|exact (wf_getBuiltin "float")]. Qed.

Lemma wf_xy : forall h, is_bid (h_id h) = false -> wf (DStruct h [("x", float_ref); ("y", float_ref)]).
Proof.
  intros h Hh. apply wf_struct; [exact Hh| |].
  - repeat constructor; cbn; intuition discriminate.
  - repeat (apply Forall_cons; [exact wf_float_ref|]). apply Forall_nil.
Qed.

(* struct vec2 { float x, y; } built as dtype_t("vec2").addField("x", float_).addField("y", float_) *)
Definition vec2 : dtype :=
  DStruct (mkH [5] "vec2" 8 false) [("x", float_ref); ("y", float_ref)].
Lemma wf_vec2 : wf vec2.
Proof. apply wf_xy. reflexivity. Qed.

(* the name of a user-defined struct does not come back (also on the repaired source) *)
Theorem name_lost_refuted :
  exists d p, wf d /\ user_prefix p = true /\ bytes_derived d = true /\
    exists d', roundtrip p d "" = Some d' /\ ~ equiv d' d.
Proof.
  exists vec2, [7]. split; [exact wf_vec2|]. split; [reflexivity|]. split; [reflexivity|].
  eexists. split; [vm_compute; reflexivity|]. unfold equiv. vm_compute. discriminate.
Qed.

(* ... unless the caller hands it to toJson: the guard is tight *)
Example name_kept_when_passed :
  exists d', roundtrip [7] vec2 "vec2" = Some d' /\ equiv d' vec2.
Proof. eexists. split; [vm_compute; reflexivity|]. unfold equiv. vm_compute. reflexivity. Qed.

(* an enum that was given a byte size comes back with 0 bytes *)
Definition color4 : dtype := DEnum (mkH [5] "" 4 false) ["red"; "green"].
Theorem explicit_bytes_lost_refuted :
  exists d p, wf d /\ user_prefix p = true /\ names_kept "" d = true /\
    exists d', roundtrip p d "" = Some d' /\ ~ equiv d' d.
Proof.
  exists color4, [7]. split.
  { apply wf_enum; [reflexivity|]. repeat constructor; cbn; intuition discriminate. }
  split; [reflexivity|]. split; [reflexivity|].
  eexists. split; [vm_compute; reflexivity|]. unfold equiv. vm_compute. discriminate.
Qed.

(* two structs that hold the same registered custom dtype can be cast into each other; their
   round trips cannot *)
Definition reg_custom : dtype := DLeaf (mkH [1] "r" 8 true).
Definition holder (k : Z) (f : string) : dtype := DStruct (mkH [k] "" 8 false) [(f, DRef reg_custom)].
Theorem cast_shared_leaf_refuted :
  exists a b p q a' b', wf a /\ wf b /\ user_prefix p = true /\ user_prefix q = true /\
    roundtrip p a "" = Some a' /\ roundtrip q b "" = Some b' /\
    canBeCastedTo a b = Some true /\ canBeCastedTo a' b' = Some false.
Proof.
  assert (Hw : forall k f, is_bid [k] = false -> wf (holder k f)).
  { intros k f Hk. apply wf_struct; [exact Hk| |].
    - repeat constructor; cbn; intuition.
    - apply Forall_cons; [|apply Forall_nil]. cbn [snd]. apply wf_ref; [reflexivity|].
      apply wf_leaf. reflexivity. }
  exists (holder 2 "a"), (holder 3 "b"), [10], [11]. do 2 eexists.
  split; [apply Hw; reflexivity|]. split; [apply Hw; reflexivity|].
  split; [reflexivity|]. split; [reflexivity|].
  split; [vm_compute; reflexivity|]. split; [vm_compute; reflexivity|].
  split; vm_compute; reflexivity.
Qed.

(* the pinned source (before fixes/C11-1..3.patch) *)
Definition anon2 : dtype := DStruct (mkH [5] "" 8 false) [("x", float_ref); ("y", float_ref)].

(* fromJson left bytes_ = 0 for struct / tuple / union: 8 bytes came back as 0 *)
Theorem pinned_bytes_lost_refuted :
  names_kept "" anon2 = true /\ bytes_derived anon2 = true /\
  exists d', fromJson pinned [7] (toJson pinned anon2 "") = Some d' /\ d_bytes anon2 = 8 /\ d_bytes d' = 0.
Proof. split; [reflexivity|]. split; [reflexivity|]. eexists. split; [vm_compute; reflexivity|]. split; reflexivity. Qed.

(* ... and the repaired source brings them back *)
Example repaired_bytes_kept :
  exists d', roundtrip [7] anon2 "" = Some d' /\ d_bytes d' = 8 /\ equiv d' anon2.
Proof. eexists. split; [vm_compute; reflexivity|]. split; [reflexivity|]. unfold equiv. vm_compute. reflexivity. Qed.

(* a custom dtype that shares a builtin's name was serialised as that builtin: dtype_t("float", 7)
   came back as the 4-byte builtin float *)
Definition fake_float : dtype := DLeaf (mkH [5] "float" 7 false).
Theorem pinned_builtin_shadow_refuted :
  exists d', fromJson pinned [7] (toJson pinned fake_float "") = Some d' /\
             view_of fake_float = VCustom "float" 7 /\ view_of d' = VBuiltin "float" 4.
Proof. eexists. split; [vm_compute; reflexivity|]. split; vm_compute; reflexivity. Qed.

Example repaired_fake_float_kept :
  exists d', roundtrip [7] fake_float "" = Some d' /\ view_of d' = VCustom "float" 7.
Proof. eexists. split; vm_compute; reflexivity. Qed.

(* the builtin vector types were serialised structurally: float2 lost its name and size *)
Theorem pinned_vector_lost_refuted :
  exists d', fromJson pinned [7] (toJson pinned (getBuiltin "float2") "") = Some d' /\
             d_name (getBuiltin "float2") = "float2" /\ d_bytes (getBuiltin "float2") = 8 /\
             d_name d' = "" /\ d_bytes d' = 0.
Proof. eexists. split; [vm_compute; reflexivity|]. repeat split; reflexivity. Qed.

Example repaired_vector_kept :
  roundtrip [7] (getBuiltin "float2") "" = Some (DRef (getBuiltin "float2")).
Proof. vm_compute. reflexivity. Qed.

(* addField / tuple took the raw bytes_ of their argument, which is 0 in a reference (dtype::int8,
   dtype::get<T>()): a struct of one int8 had 0 bytes *)
Theorem pinned_ref_bytes_refuted :
  exists s, add_field pinned (mk_leaf "" 0 false) "x" (DRef g_char) 1 = Some s /\ d_bytes s = 0.
Proof. eexists. split; [vm_compute; reflexivity|]. reflexivity. Qed.

Example repaired_ref_bytes :
  exists s, add_field repaired (mk_leaf "" 0 false) "x" (DRef g_char) 1 = Some s /\ d_bytes s = 1.
Proof. eexists. split; [vm_compute; reflexivity|]. reflexivity. Qed.

(* non-vacuity: a nested dtype (struct of {tuple of 3 structs of 2 floats, custom, enum,
   reference to a registered struct}) meets the hypotheses of the theorems *)
Definition nested : dtype :=
  DStruct (mkH [9] "" 43 false)
    [("t", DTuple (mkH [9; 0] "" 24 false) anon2 3);
     ("c", DLeaf (mkH [9; 1] "foo" 7 false));
     ("e", DEnum (mkH [9; 2] "" 0 false) ["on"; "off"]);
     ("r", DRef (DStruct (mkH [4] "" 12 true) [("v", DRef (getBuiltin "float3"))]))].

Example nested_meets_hypotheses :
  wf nested /\ names_kept "" nested = true /\ bytes_derived nested = true /\ height nested = 3%nat.
Proof.
  split; [|split; [reflexivity|split; reflexivity]].
  apply wf_struct; [reflexivity| |].
  - repeat constructor; cbn; intuition discriminate.
  - repeat apply Forall_cons; try apply Forall_nil; cbn [snd].
    + apply wf_tuple; [reflexivity|]. apply wf_xy. reflexivity.
    + apply wf_leaf. reflexivity.
    + apply wf_enum; [reflexivity|]. repeat constructor; cbn; intuition discriminate.
    + apply wf_ref; [reflexivity|]. apply wf_struct; [reflexivity| |].
      * repeat constructor; cbn; intuition.
      * apply Forall_cons; [|apply Forall_nil]. cbn [snd]. apply wf_ref; [reflexivity|].
        apply wf_getBuiltin.
Qed.

Example nested_roundtrip :
  exists d', roundtrip [7] nested "" = Some d' /\ equiv d' nested /\ d_bytes d' = 43.
Proof. eexists. split; [vm_compute; reflexivity|]. split; [unfold equiv; vm_compute; reflexivity|reflexivity]. Qed.

(* cast compatibility on builtin-leaved dtypes: float[6] <-> struct{float2 a; float b} (3 | 6) *)
Example cast_example :
  let a := DTuple (mkH [2] "" 24 false) float_ref 6 in
  let b := DStruct (mkH [3] "" 12 false) [("a", DRef (getBuiltin "float2")); ("b", float_ref)] in
  canBeCastedTo a b = Some true /\ canBeCastedTo b (getBuiltin "float2") = Some false.
Proof. split; vm_compute; reflexivity. Qed.
