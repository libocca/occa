(* C11 — proofs.  roundtrip_main (by induction on the dtype) is the one theorem about
   fromJson (toJson d); the round-trip theorems of Properties_C11.v and cached = fresh of C10 are
   read off it.  add_field_keeps_bytes_derived stands on its own; the last part shows Spec.v's
   executable cast rule equal to the declarative one. *)
From Coq Require Import List ZArith Bool String Lia.
From OV.C11 Require Import Model Spec Statements JsonFacts.
Import ListNotations.
Local Open Scope Z_scope.
Local Open Scope string_scope.
Local Open Scope list_scope.

Lemma ident_eqb_eq : forall a b, ident_eqb a b = true <-> a = b.
Proof.
  induction a as [|x a IH]; destruct b as [|y b]; cbn; try (split; congruence).
  rewrite andb_true_iff, Z.eqb_eq, IH. split; [intros []; congruence|intros [= -> ->]; auto].
Qed.

Lemma user_prefix_app : forall p q, user_prefix p = true -> user_prefix (p ++ q) = true.
Proof. intros [|x p] q H; cbn in *; auto; discriminate. Qed.

Lemma assoc_in : forall (A : Type) k (l : list (string * A)) v, assoc k l = Some v -> In v (map snd l).
Proof.
  induction l as [|[k' v'] l IH]; cbn; intros v H; try discriminate.
  destruct (String.eqb k k').
  - inversion H. auto.
  - right. auto.
Qed.

Lemma getBuiltin_in : forall name, In (getBuiltin name) globals.
Proof.
  intro name. unfold getBuiltin. destruct (assoc name builtin_map) eqn:E.
  - eapply assoc_in; eauto.
  - unfold globals. left. reflexivity.
Qed.

Lemma wf_getBuiltin : forall name, wf (getBuiltin name).
Proof. intro name. apply wf_global, getBuiltin_in. Qed.

(* Three facts about the 48 entries of getBuiltin's table, each one evaluation over it.  The second
   holds because the aliases int8, uint8, ... lead to entries whose own name is char, ... *)
Lemma globals_objects :
  forallb (fun g => negb (is_ref g) && h_reg (hdr_of g) && negb (user_prefix (d_id g))) globals = true.
Proof. reflexivity. Qed.

Lemma globals_own_name : map (fun g => getBuiltin (h_name (hdr_of g))) globals = globals.
Proof. reflexivity. Qed.

Lemma globals_none : filter is_none_obj globals = [g_none].
Proof. reflexivity. Qed.

Lemma self_nonref : forall d, is_ref d = false -> self d = d.
Proof. destruct d; [discriminate|reflexivity..]. Qed.

Lemma global_prop : forall g, In g globals ->
  is_ref g = false /\ h_reg (hdr_of g) = true /\ user_prefix (d_id g) = false /\
  getBuiltin (h_name (hdr_of g)) = g.
Proof.
  intros g H. pose proof (proj1 (forallb_forall _ _) globals_objects g H) as E. cbn beta in E.
  rewrite !andb_true_iff, !negb_true_iff in E. destruct E as [[Hr Hreg] Hu]. repeat split; auto.
  exact (ext_in_map (eq_trans globals_own_name (eq_sym (map_id _))) g H).
Qed.

Lemma global_builtin : forall g, In g globals -> is_none_obj g = false ->
  is_builtin_obj (hdr_of g) = true.
Proof.
  intros g H Hn. destruct (global_prop g H) as (Hs & _ & _ & Hg). apply self_nonref in Hs.
  unfold is_builtin_obj, is_none_obj, d_id in *. rewrite Hs in Hn.
  rewrite Hn, Hg, Hs. apply ident_eqb_eq. reflexivity.
Qed.

Lemma not_bid_not_builtin : forall h, is_bid (h_id h) = false -> is_builtin_obj h = false.
Proof.
  intros h H. destruct (is_builtin_obj h) eqn:E; [|reflexivity].
  apply andb_true_iff in E. destruct E as [E1 E2]. rewrite <- H. unfold is_bid. rewrite E1.
  symmetry. apply existsb_exists. eauto using getBuiltin_in.
Qed.

Lemma user_not_bid : forall p, user_prefix p = true -> is_bid p = false.
Proof.
  intros p H. destruct (is_bid p) eqn:E; auto. unfold is_bid in E.
  apply andb_true_iff in E. destruct E as [_ E]. apply existsb_exists in E.
  destruct E as [g [Hin He]]. apply ident_eqb_eq in He. subst p.
  destruct (global_prop g Hin) as (_ & _ & Hu & _). congruence.
Qed.

Lemma not_bid_not_byte : forall d, is_bid (d_id d) = false -> is_byte_obj d = false.
Proof.
  intros d H. unfold is_byte_obj. destruct (ident_eqb (d_id d) (gid 2)) eqn:E; auto.
  apply ident_eqb_eq in E. rewrite E in H. discriminate H.
Qed.

(* wf, opened once: a builtin other than dtype::none, or the premises of the rule of the
   constructor (dtype::none counts as a leaf: is_bid excludes its address) *)
Lemma wf_inv : forall d, wf d ->
  (In d globals /\ is_none_obj d = false) \/
  match d with
  | DRef t => is_ref t = false /\ wf t
  | DLeaf h => is_bid (h_id h) = false
  | DEnum h ns => is_bid (h_id h) = false /\ NoDup ns
  | DStruct h fs | DUnion h fs =>
      is_bid (h_id h) = false /\ NoDup (map fst fs) /\ Forall (fun nf => wf (snd nf)) fs
  | DTuple h e _ => is_bid (h_id h) = false /\ wf e
  end.
Proof.
  destruct 1 as [t| g Hg | | | | |]; auto.
  destruct (is_none_obj g) eqn:E; auto.
  assert (Hf : In g (filter is_none_obj globals)) by (apply filter_In; auto).
  rewrite globals_none in Hf. destruct Hf as [<-|[]]. right. reflexivity.
Qed.

Lemma wf_self_nonref : forall d, wf d -> is_ref (self d) = false.
Proof.
  intros d H. destruct H; cbn; auto.
  destruct (global_prop _ H) as [Hr _]. rewrite (self_nonref g Hr). exact Hr.
Qed.

Definition rt_post (nm : string) (d d' : dtype) : Prop :=
  (names_kept nm d = true -> bytes_derived d = true ->
   view_of d' = view_of d /\ d_bytes d' = d_bytes d) /\
  (builtin_leaves d -> flat d' = flat d) /\
  is_byte_obj d' = is_byte_obj d /\
  is_ref (self d') = false.

Lemma rt_post_fresh : forall nm d d',
  is_bid (d_id d) = false -> user_prefix (d_id d') = true -> is_ref d' = false ->
  (names_kept nm d = true -> bytes_derived d = true ->
   view_of d' = view_of d /\ d_bytes d' = d_bytes d) ->
  (builtin_leaves d -> flat d' = flat d) -> rt_post nm d d'.
Proof.
  intros nm d d' Hd Hd' Hr Hv Hf. unfold rt_post.
  rewrite (self_nonref d' Hr), !not_bid_not_byte; auto using user_not_bid.
Qed.

Lemma view_copy : forall d, view_of (copy d) = view_of d.
Proof. intro d. unfold copy. destruct d; cbn [self]; destruct (h_reg _); reflexivity. Qed.

Lemma flat_copy : forall d, flat (copy d) = flat d.
Proof. intro d. unfold copy. destruct d; cbn [self]; destruct (h_reg _); reflexivity. Qed.

Lemma bytes_derived_copy : forall d, bytes_derived (copy d) = bytes_derived d.
Proof. intro d. unfold copy. destruct d; cbn [self]; destruct (h_reg _); reflexivity. Qed.

Lemma self_copy : forall d, is_ref (self d) = false -> self (copy d) = self d.
Proof.
  intros d H. unfold copy. destruct (h_reg _); [reflexivity|apply self_nonref, H].
Qed.

Lemma d_bytes_copy : forall d, is_ref (self d) = false -> d_bytes (copy d) = d_bytes d.
Proof. intros d H. unfold d_bytes. rewrite self_copy by assumption. reflexivity. Qed.

Lemma rt_post_copy : forall nm d d', rt_post nm d d' -> rt_post nm d (copy d').
Proof.
  intros nm d d' (Hv & Hf & Hb & Hr). unfold rt_post, is_byte_obj, d_id.
  rewrite view_copy, flat_copy, d_bytes_copy, self_copy by exact Hr. auto.
Qed.

Lemma has_field_false : forall n (acc : list (string * dtype)),
  ~ In n (map fst acc) -> has_field n acc = false.
Proof.
  intros n acc H. unfold has_field.
  induction acc as [|[k v] acc IH]; cbn in *; [reflexivity|].
  destruct (String.eqb_spec n k) as [->|]; [exfalso|apply IH]; auto.
Qed.

Lemma str_in_false : forall n (acc : list string), ~ In n acc -> str_in n acc = false.
Proof.
  intros n acc H. unfold str_in. induction acc as [|k acc IH]; cbn in *; [reflexivity|].
  destruct (String.eqb_spec n k) as [->|]; [exfalso|apply IH]; auto.
Qed.

Lemma NoDup_app_mid : forall (A : Type) (a : list A) x b,
  NoDup (a ++ x :: b) -> ~ In x a /\ NoDup ((a ++ [x]) ++ b).
Proof.
  intros A a x b H. split.
  - apply NoDup_remove_2 in H. intro Hin. apply H. apply in_or_app. auto.
  - rewrite <- app_assoc. exact H.
Qed.

Lemma enum_names_rt : forall ns acc,
  NoDup (acc ++ ns) ->
  enum_names (map (fun n => jset "name" (JStr n) JNone) ns) acc = Some (acc ++ ns).
Proof.
  induction ns as [|n ns IH]; intros acc H; cbn [map].
  - rewrite app_nil_r. reflexivity.
  - destruct (NoDup_app_mid _ _ _ _ H) as [Hn Hd].
    rewrite enum_names_cons, (str_in_false _ _ Hn), IH by exact Hd. rewrite <- app_assoc. reflexivity.
Qed.

Lemma sum_bytes_cons : forall nf fs, sum_bytes (nf :: fs) = d_bytes (snd nf) + sum_bytes fs.
Proof.
  intros nf fs. unfold sum_bytes. cbn [fold_left]. generalize 0, (d_bytes (snd nf)).
  induction fs as [|x fs IH]; intros z c; cbn [fold_left]; [apply Z.add_comm|].
  rewrite <- IH. f_equal. lia.
Qed.

Definition rt_stmt (d : dtype) : Prop :=
  forall nm p, wf d -> user_prefix p = true ->
    exists d', roundtrip p d nm = Some d' /\ rt_post nm d d'.

Definition field_rt (nf nf' : string * dtype) : Prop :=
  fst nf' = fst nf /\ rt_post "" (snd nf) (snd nf').

Lemma fields_loop_rt : forall p fs i acc,
  user_prefix p = true ->
  Forall (fun nf => rt_stmt (snd nf)) fs -> Forall (fun nf => wf (snd nf)) fs ->
  NoDup (map fst acc ++ map fst fs) ->
  exists fs',
    fields_loop (fromJson repaired) p i
      (map (fun nf => field_json (fst nf) (toJson repaired (snd nf) "")) fs) acc
    = Some (acc ++ fs') /\ Forall2 field_rt fs fs'.
Proof.
  intros p fs. induction fs as [|[n f] fs IH]; intros i acc Hp Hall Hwf Hnd.
  - exists []. cbn. rewrite app_nil_r. split; [reflexivity|constructor].
  - inversion Hall as [|? ? Hf Hrest]; inversion Hwf as [|? ? Hwf1 Hwfr]; subst.
    cbn [map fst snd] in *.
    destruct (Hf "" (p ++ [i]) Hwf1 (user_prefix_app _ _ Hp)) as [d' [Hrec Hpost]].
    destruct (NoDup_app_mid _ _ _ _ Hnd) as [Hn Hd].
    destruct (IH (i + 1) (acc ++ [(n, copy d')]) Hp Hrest Hwfr) as [fs' [Hloop Hf2]].
    { rewrite map_app. exact Hd. }
    exists ((n, copy d') :: fs'). split.
    + unfold roundtrip in Hrec. rewrite fields_loop_cons, Hrec, (has_field_false _ _ Hn), Hloop, <- app_assoc.
      reflexivity.
    + constructor; [|exact Hf2]. split; [reflexivity|]. apply rt_post_copy. exact Hpost.
Qed.

(* the two guards are names_kept nm / bytes_derived of DStruct h fs and of DUnion h fs alike *)
Lemma fields_view : forall h nm fs fs',
  is_builtin_obj h = false -> Forall2 field_rt fs fs' ->
  is_builtin_obj h ||
    (String.eqb (h_name h) nm && forallb (fun nf => names_kept "" (snd nf)) fs) = true ->
  is_builtin_obj h ||
    (Z.eqb (h_bytes h) (sum_bytes fs) && forallb (fun nf => bytes_derived (snd nf)) fs) = true ->
  nm = h_name h /\ sum_bytes fs' = h_bytes h /\
  map (fun nf => (fst nf, view_of (snd nf))) fs' = map (fun nf => (fst nf, view_of (snd nf))) fs.
Proof.
  intros h nm fs fs' Hnb H Hnm Hby.
  rewrite Hnb in Hnm, Hby. apply andb_true_iff in Hnm, Hby.
  destruct Hnm as [Hnm1 Hnm2], Hby as [Hby1 Hby2].
  apply String.eqb_eq in Hnm1. apply Z.eqb_eq in Hby1. rewrite Hby1. split; [auto|]. clear Hnm1 Hby1.
  induction H as [|nf nf' fs fs' [Hn [Hv _]] _ IH]; cbn [forallb map] in *; [auto|].
  apply andb_true_iff in Hnm2. destruct Hnm2 as [Hnm1 Hnm2].
  apply andb_true_iff in Hby2. destruct Hby2 as [Hby1 Hby2].
  destruct (IH Hnm2 Hby2) as [IH1 IH2], (Hv Hnm1 Hby1) as [Ev Eb].
  rewrite !sum_bytes_cons, IH1, IH2, Hn, Ev, Eb. auto.
Qed.

Lemma fields_flat : forall fs fs',
  Forall2 field_rt fs fs' ->
  Forall (fun i => is_bid i = true) (flat_map (fun nf => flat (snd nf)) fs) ->
  flat_map (fun nf => flat (snd nf)) fs' = flat_map (fun nf => flat (snd nf)) fs.
Proof.
  induction 1 as [|nf nf' fs fs' [Hn (_ & Hfl & _)] _ IH]; cbn; intro Hb; [reflexivity|].
  apply Forall_app in Hb. destruct Hb as [Hb1 Hb2].
  rewrite IH, (Hfl Hb1) by exact Hb2. reflexivity.
Qed.

Lemma rt_global : forall g, In g globals -> is_none_obj g = false -> rt_stmt g.
Proof.
  intros g Hin Hn nm p _ _. destruct (global_prop g Hin) as (Hr & Hreg & _ & Hg).
  pose proof (self_nonref g Hr) as Hs.
  pose proof (global_builtin g Hin Hn) as Hb.
  exists (DRef g). split.
  - assert (Hj : toJson repaired g nm = builtin_json (hdr_of g)).
    { destruct g; try discriminate Hr; cbn [toJson repaired v_builtin_id hdr_of] in *; rewrite Hb; reflexivity. }
    unfold roundtrip. rewrite Hj, fromJson_builtin, Hg, Hn. unfold copy. rewrite Hs, Hreg. reflexivity.
  - unfold rt_post, is_byte_obj, d_id, d_bytes. cbn [self view_of flat]. rewrite Hs. auto.
Qed.

Lemma rt_fields : forall (s : bool) h fs,
  Forall (fun nf => rt_stmt (snd nf)) fs ->
  is_bid (h_id h) = false /\ NoDup (map fst fs) /\ Forall (fun nf => wf (snd nf)) fs ->
  rt_stmt ((if s then DStruct else DUnion) h fs).
Proof.
  intros s h fs IH (Hbid & Hnd & Hwfs) nm p _ Hp.
  pose proof (not_bid_not_builtin _ Hbid) as Hnb.
  destruct (fields_loop_rt p fs 0 [] Hp IH Hwfs Hnd) as [fs' [Hloop Hf2]].
  exists ((if s then DStruct else DUnion) (mkH p nm (sum_bytes fs') false) fs'). split.
  - unfold roundtrip. destruct s; cbn [toJson repaired v_builtin_id]; rewrite Hnb; cbn [andb].
    + rewrite (fromJson_fields _ _ true), Hloop. reflexivity.
    + rewrite (fromJson_fields _ _ false), Hloop. reflexivity.
  - destruct s; (apply rt_post_fresh; [exact Hbid|exact Hp|reflexivity| |]).
    + (* struct, view *)
      intros Hnm Hby. destruct (fields_view _ _ _ _ Hnb Hf2 Hnm Hby) as (-> & -> & E).
      cbn [view_of h_name h_bytes]. rewrite E. split; reflexivity.
    + (* struct, flat *) intro Hbl. apply fields_flat; assumption.
    + (* union, view *)
      intros Hnm Hby. destruct (fields_view _ _ _ _ Hnb Hf2 Hnm Hby) as (-> & -> & E).
      cbn [view_of h_name h_bytes]. rewrite E. split; reflexivity.
    + (* union, flat *) intro Hbl. apply fields_flat; assumption.
Qed.

Theorem roundtrip_main : forall d, rt_stmt d.
Proof.
  induction d as [t IHt|h|h ns|h fs IHfs|h e s IHe|h fs IHfs] using dtype_ind'; intros nm p Hwf Hp;
    (destruct (wf_inv _ Hwf) as [[Hg Hn]|Hinv]; [exact (rt_global _ Hg Hn nm p Hwf Hp)|]).
  - (* DRef *)
    destruct Hinv as [Hr Hwt]. destruct (IHt nm p Hwt Hp) as [d' [He Hpost]].
    exists d'. split; [exact He|].
    (* t is an object: what rt_post asks of DRef t computes to what it asks of t *)
    destruct t; [discriminate Hr|exact Hpost..].
  - (* DLeaf, dtype::none included *)
    pose proof (not_bid_not_builtin _ Hinv) as Hnb.
    exists (DLeaf (mkH p (h_name h) (h_bytes h) false)). split.
    + unfold roundtrip. cbn [toJson repaired v_builtin_id]. rewrite Hnb. apply fromJson_custom.
    + apply rt_post_fresh; [exact Hinv|exact Hp|reflexivity| |].
      * cbn [view_of]. rewrite Hnb, (not_bid_not_builtin (mkH p _ _ _) (user_not_bid p Hp)). auto.
      * (* no builtin leaf: the flat clause is vacuous *)
        intro Hbl. apply Forall_inv in Hbl. cbn in Hbl. congruence.
  - (* DEnum *)
    destruct Hinv as [Hbid Hnd]. pose proof (not_bid_not_builtin _ Hbid) as Hnb.
    exists (DEnum (mkH p nm 0 false) ns). split.
    + unfold roundtrip. cbn [toJson repaired v_builtin_id]. rewrite Hnb. cbn [andb].
      rewrite fromJson_enum, enum_names_rt by exact Hnd. reflexivity.
    + apply rt_post_fresh; [exact Hbid|exact Hp|reflexivity| |]; cbn [view_of h_name h_bytes].
      * intros Hnm Hby. cbn [names_kept bytes_derived] in Hnm, Hby.
        rewrite Hnb in Hnm, Hby.
        apply String.eqb_eq in Hnm. apply Z.eqb_eq in Hby. rewrite Hnm, Hby. split; [reflexivity|exact (eq_sym Hby)].
      * intro Hbl. apply Forall_inv in Hbl. cbn in Hbl. congruence.
  - (* DStruct *) apply (rt_fields true); assumption.
  - (* DTuple *)
    destruct Hinv as [Hbid Hwe]. pose proof (not_bid_not_builtin _ Hbid) as Hnb.
    destruct (IHe "" (p ++ [0]) Hwe (user_prefix_app _ _ Hp)) as [e' [He Hpost]].
    destruct Hpost as (Hv & Hf & _ & Hr).
    exists (DTuple (mkH p nm (d_bytes e' * s) false) (copy e') s). split.
    + unfold roundtrip in *. cbn [toJson repaired v_builtin_id]. rewrite Hnb. cbn [andb].
      rewrite fromJson_tuple, He. reflexivity.
    + apply rt_post_fresh; [exact Hbid|exact Hp|reflexivity| |]; cbn [view_of h_name h_bytes].
      * intros Hnm Hby. cbn [names_kept bytes_derived] in Hnm, Hby.
        rewrite Hnb in Hnm, Hby. apply andb_true_iff in Hnm, Hby.
        destruct Hnm as [Hnm1 Hnm2], Hby as [Hby1 Hby2].
        apply String.eqb_eq in Hnm1. apply Z.eqb_eq in Hby1.
        destruct (Hv Hnm2 Hby2) as [Ev Eb]. rewrite view_copy, Ev, Eb, Hnm1, <- Hby1. split; reflexivity.
      * intro Hbl. unfold builtin_leaves in Hbl. cbn [flat] in *. rewrite flat_copy.
        (* size 0 flattens to []; otherwise the first repetition gives builtin_leaves e *)
        destruct (Z.to_nat s) eqn:Es; [reflexivity|].
        rewrite Hf; [reflexivity|]. cbn [repeat concat] in Hbl. apply Forall_app in Hbl. apply Hbl.
  - (* DUnion *) apply (rt_fields false); assumption.
Qed.

Theorem roundtrip_total : forall d nm p,
  wf d -> user_prefix p = true -> exists d', roundtrip p d nm = Some d'.
Proof.
  intros d nm p Hwf Hp. destruct (roundtrip_main d nm p Hwf Hp) as [d' [He _]]. eauto.
Qed.

Theorem roundtrip_equiv_partial : forall d nm p,
  wf d -> user_prefix p = true -> names_kept nm d = true -> bytes_derived d = true ->
  exists d', roundtrip p d nm = Some d' /\ equiv d' d.
Proof.
  intros d nm p Hwf Hp Hnm Hby. destruct (roundtrip_main d nm p Hwf Hp) as [d' [He [Hv _]]].
  exists d'. split; [exact He|]. exact (proj1 (Hv Hnm Hby)).
Qed.

Theorem cast_preserved : forall a b nma nmb p q,
  wf a -> wf b -> user_prefix p = true -> user_prefix q = true ->
  builtin_leaves a -> builtin_leaves b ->
  exists a' b',
    roundtrip p a nma = Some a' /\ roundtrip q b nmb = Some b' /\
    canBeCastedTo a' b' = canBeCastedTo a b /\
    canBeCastedTo a b' = canBeCastedTo a b /\
    canBeCastedTo a' b = canBeCastedTo a b.
Proof.
  intros a b nma nmb p q Hwa Hwb Hp Hq Hla Hlb.
  destruct (roundtrip_main a nma p Hwa Hp) as [a' [Hea (_ & Hfa & Hba & _)]].
  destruct (roundtrip_main b nmb q Hwb Hq) as [b' [Heb (_ & Hfb & Hbb & _)]].
  exists a', b'. unfold canBeCastedTo.
  rewrite Hba, Hbb, (Hfa Hla), (Hfb Hlb). auto.
Qed.

Lemma arg_fromJson_toJson : forall v v' p a,
  arg_fromJson v p (arg_toJson v' a) =
  match fromJson v p (toJson v' (a_dtype a) "") with
  | Some d => Some (mkArg (a_const a) (a_ptr a) (copy d) (a_name a))
  | None => None
  end.
Proof. reflexivity. Qed.

Lemma k_fromJson_toJson : forall v v' p k,
  k_fromJson v p (k_toJson v' k) =
  match args_loop v p 0 (map (arg_toJson v') (k_args k)) with
  | Some args => Some (mkK (k_name k) args)
  | None => None
  end.
Proof. reflexivity. Qed.

(* Any relation R that follows from rt_post (under a guard P) holds position by position after the
   round trip of the kernel metadata: R = arg_equiv below, R = cast_same in C10. *)
Section ArgsRoundtrip.
  Variable P : argmeta -> Prop.
  Variable R : argmeta -> argmeta -> Prop.
  Hypothesis HR : forall a d', P a -> rt_post "" (a_dtype a) d' ->
                               R (mkArg (a_const a) (a_ptr a) d' (a_name a)) a.

  Lemma arg_roundtrip_rel : forall a p,
    wf (a_dtype a) /\ P a -> user_prefix p = true ->
    exists a', arg_fromJson repaired p (arg_toJson repaired a) = Some a' /\ R a' a.
  Proof.
    intros a p [Hwf HP] Hp. destruct (roundtrip_main _ "" p Hwf Hp) as [d' [He Hpost]].
    eexists. split; [|apply (HR a (copy d') HP), rt_post_copy, Hpost].
    rewrite arg_fromJson_toJson. unfold roundtrip in He. rewrite He. reflexivity.
  Qed.

  Lemma args_loop_rel : forall args p i,
    user_prefix p = true -> Forall (fun a => wf (a_dtype a) /\ P a) args ->
    exists args', args_loop repaired p i (map (arg_toJson repaired) args) = Some args' /\
                  Forall2 R args' args.
  Proof.
    intros args p i Hp Hall. revert i.
    induction Hall as [|a args Ha _ IH]; intro i; cbn [map args_loop].
    - exists []. split; [reflexivity|constructor].
    - destruct (arg_roundtrip_rel a (p ++ [i]) Ha (user_prefix_app _ _ Hp)) as [a' [Ha' Heq]].
      destruct (IH (i + 1)) as [args' [Hl Hf2]].
      exists (a' :: args'). rewrite Ha', Hl. split; [reflexivity|]. constructor; assumption.
  Qed.

  Lemma metadata_roundtrip_rel : forall k p,
    user_prefix p = true -> Forall (fun a => wf (a_dtype a) /\ P a) (k_args k) ->
    exists args', k_fromJson repaired p (k_toJson repaired k) = Some (mkK (k_name k) args') /\
                  Forall2 R args' (k_args k).
  Proof.
    intros k p Hp Hall. destruct (args_loop_rel (k_args k) p 0 Hp Hall) as [args' [Hl Hf2]].
    exists args'. rewrite k_fromJson_toJson, Hl. auto.
  Qed.
End ArgsRoundtrip.

Lemma arg_equiv_rt : forall a d',
  names_kept "" (a_dtype a) = true /\ bytes_derived (a_dtype a) = true ->
  rt_post "" (a_dtype a) d' -> arg_equiv (mkArg (a_const a) (a_ptr a) d' (a_name a)) a.
Proof. intros a d' [Hnm Hby] [Hv _]. repeat split. exact (proj1 (Hv Hnm Hby)). Qed.

Theorem arg_roundtrip : forall a p,
  wf (a_dtype a) -> user_prefix p = true ->
  names_kept "" (a_dtype a) = true -> bytes_derived (a_dtype a) = true ->
  exists a', arg_fromJson repaired p (arg_toJson repaired a) = Some a' /\ arg_equiv a' a.
Proof. intros a p Hwf Hp Hnm Hby. apply (arg_roundtrip_rel _ _ arg_equiv_rt); auto. Qed.

Theorem metadata_roundtrip : forall k p,
  user_prefix p = true ->
  Forall (fun a => wf (a_dtype a) /\ names_kept "" (a_dtype a) = true /\ bytes_derived (a_dtype a) = true)
         (k_args k) ->
  exists k', k_fromJson repaired p (k_toJson repaired k) = Some k' /\ kmeta_equiv k' k.
Proof.
  intros k p Hp Hall.
  destruct (metadata_roundtrip_rel _ _ arg_equiv_rt k p Hp Hall) as [args' [He Hf2]].
  exists (mkK (k_name k) args'). repeat split; assumption.
Qed.

Lemma sum_bytes_app : forall fs f d, sum_bytes (fs ++ [(f, d)]) = sum_bytes fs + d_bytes d.
Proof. intros. unfold sum_bytes. rewrite fold_left_app. reflexivity. Qed.

(* is_builtin_obj reads the address and the name only, which addField leaves alone *)
Lemma fields_grow : forall h fs f fv,
  is_builtin_obj h ||
    (Z.eqb (h_bytes h) (sum_bytes fs) && forallb (fun nf => bytes_derived (snd nf)) fs) = true ->
  bytes_derived fv = true ->
  let h' := mkH (h_id h) (h_name h) (h_bytes h + d_bytes fv) (h_reg h) in
  is_builtin_obj h' ||
    (Z.eqb (h_bytes h') (sum_bytes (fs ++ [(f, fv)])) &&
     forallb (fun nf => bytes_derived (snd nf)) (fs ++ [(f, fv)])) = true.
Proof.
  intros h fs f fv H Hfv. cbn zeta. change (is_builtin_obj (mkH _ _ _ _)) with (is_builtin_obj h).
  destruct (is_builtin_obj h); [reflexivity|]. cbn [orb h_bytes] in *.
  apply andb_true_iff in H. destruct H as [H1 H2]. apply Z.eqb_eq in H1.
  rewrite sum_bytes_app, forallb_app, H1, H2, Z.eqb_refl. cbn. rewrite Hfv. reflexivity.
Qed.

Lemma stored_field_ok : forall d n,
  is_ref (self d) = false -> bytes_derived d = true ->
  let fv := if Z.eqb n 1 then copy d else copy (tuple_of repaired d n false) in
  d_bytes fv = d_bytes d * n /\ bytes_derived fv = true.
Proof.
  intros d n Hr Hby. pose proof (d_bytes_copy d Hr) as Hc.
  rewrite <- bytes_derived_copy in Hby.
  cbn zeta. destruct (Z.eqb_spec n 1) as [->|].
  - split; [rewrite Hc; lia|exact Hby].
  - (* the tuple made on the spot is not registered: copy clones it *)
    change (copy (tuple_of repaired d n false)) with (tuple_of repaired d n false).
    unfold tuple_of. cbn [arg_bytes repaired v_ref_bytes]. split; [reflexivity|].
    cbn [bytes_derived h_bytes]. rewrite Hc, Z.eqb_refl, Hby.
    apply orb_true_r.
Qed.

Theorem add_field_keeps_bytes_derived : forall obj f d n obj',
  wf d -> bytes_derived d = true -> bytes_derived obj = true ->
  (forall h, obj = DLeaf h -> h_bytes h = 0) ->
  is_builtin_obj (hdr_of obj) = false ->
  add_field repaired obj f d n = Some obj' -> bytes_derived obj' = true.
Proof.
  intros obj f d n obj' Hwf Hbd Hbo Hleaf Hnb Hadd. unfold add_field in Hadd.
  destruct (Z.leb n 0); [discriminate|].
  destruct (stored_field_ok d n (wf_self_nonref d Hwf) Hbd) as [Hfb Hfd].
  set (fv := if Z.eqb n 1 then _ else _) in *. clearbody fv.
  change (arg_bytes repaired d) with (d_bytes d) in Hadd. rewrite <- Hfb in Hadd.
  destruct obj as [t|h|h ns|h fs|h e s|h fs]; try discriminate; cbn [bytes_derived] in Hbo.
  - (* DLeaf *)
    injection Hadd as <-. apply (fields_grow h []); [|exact Hfd].
    rewrite (Hleaf h eq_refl). apply orb_true_r.
  - (* DStruct *)
    destruct (has_field f fs); [discriminate|]. injection Hadd as <-. apply fields_grow; assumption.
  - (* DUnion *)
    destruct (has_field f fs); [discriminate|]. injection Hadd as <-. apply fields_grow; assumption.
Qed.

Local Open Scope nat_scope.

Lemma length_concat_repeat : forall (A : Type) (blk : list A) c,
  List.length (List.concat (repeat blk c)) = c * List.length blk.
Proof.
  intros A blk c. induction c as [|c IH]; cbn; [reflexivity|]. rewrite app_length, IH. reflexivity.
Qed.

Definition rule (a b : list ident) : Prop := a = b \/ repeats a b \/ repeats b a.

Lemma ids_eqb_eq : forall a b, ids_eqb a b = true <-> a = b.
Proof.
  induction a as [|x a IH]; destruct b as [|y b]; cbn; try (split; congruence).
  rewrite andb_true_iff, ident_eqb_eq, IH. split; [intros []; congruence|intros [= -> ->]; auto].
Qed.

Lemma repeatsb_spec : forall s b, repeatsb s b = true <-> repeats s b.
Proof.
  intros s b. unfold repeatsb, repeats. destruct s as [|x s].
  - split; [discriminate|]. intros [H _]. congruence.
  - destruct b as [|y b].
    + split; [discriminate|]. intros [_ [k [Hk Hb]]]. destruct k; [lia|]. discriminate.
    + rewrite ids_eqb_eq. split.
      * intro H. split; [discriminate|].
        remember (Nat.div (List.length (y :: b)) (List.length (x :: s))) as k eqn:Ek in *.
        exists k. split; [|exact H]. destruct k; [discriminate|lia].
      * intros [_ [k [Hk Hb]]]. rewrite Hb, length_concat_repeat, Nat.div_mul by (cbn; lia). reflexivity.
Qed.

Lemma ruleb_spec : forall a b : list ident,
  ids_eqb a b || repeatsb a b || repeatsb b a = true <-> rule a b.
Proof. intros a b. rewrite !orb_true_iff, ids_eqb_eq, !repeatsb_spec. apply or_assoc. Qed.

Theorem cast_ruleb_spec : forall a b, cast_ruleb a b = true <-> cast_rule a b.
Proof.
  intros a b. change (cast_rule a b)
    with (is_byte_obj a = true \/ is_byte_obj b = true \/ rule (flat a) (flat b)).
  unfold cast_ruleb. rewrite <- ruleb_spec, <- !orb_assoc, !orb_true_iff. reflexivity.
Qed.
