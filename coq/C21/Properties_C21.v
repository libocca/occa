(* C21 — OpenMP kernels are deterministic for every thread count and schedule: the OpenMP reading of the
   mini-OKL (C21/Model.v) against the Serial reading (C20/Spec.v run_seq). *)
From Coq Require Import List ZArith Bool Arith.
From OV.C20 Require Import Util Confluence Lang Spec Model Frame Diamond SeqRun Proofs Examples.
From OV.C21 Require Import Model Spec Proofs.
Import ListNotations.

(* omp_eq_serial.  For every kernel that passes the independence check and EVERY complete schedule (per parallel
   region, any sequence of "task b executes its next statement" that ends with all tasks finished: any
   distribution of the outer iterations over any number of threads, interleaved at statement granularity),
   the final global memory is the Serial one. *)
Theorem omp_eq_serial : forall (k : kernel) (v : env) (scheds : list (list nat)) (G G' : mem),
  independent k = true -> run_omp scheds k v G = Some G' -> G' = run_serial k v G.
Proof. exact Proofs.omp_eq_serial. Qed.
Print Assumptions omp_eq_serial.

Theorem omp_complete_exists : forall (k : kernel) (v : env) (G : mem), independent k = true ->
  exists scheds, run_omp scheds k v G = Some (run_serial k v G).
Proof. exact Proofs.omp_complete_exists. Qed.
Print Assumptions omp_complete_exists.

(* every OpenMP schedule is one of the schedules of C20's launch model *)
Theorem omp_schedule_is_launch_schedule : forall E secs sched s e,
  oruns false E secs sched s = Some e -> exists gs, gruns false E secs gs s = Some e /\ length gs = length sched.
Proof. exact Proofs.oruns_gruns. Qed.
Print Assumptions omp_schedule_is_launch_schedule.

(* race_free.  In every reachable state, the next steps of two different (outer tuple, inner tuple) pairs — in
   particular of two different tasks b <> c — do not race on global memory: neither stores to a cell the other
   reads, stores to, or updates atomically, and an atomically updated cell is never read or plainly stored to. *)
Theorem race_free : forall (v : env) (ob : oblock) (s : gst) (b i c j : nat) (B C : blk) (p q p' q' : priv) (a1 a2 : action),
  let E := mk_senv (v_args v) ob in
  independent_ob ob = true -> Inv E (ob_secs ob) s -> (b, i) <> (c, j) ->
  nth_error (s_blks s) b = Some B -> nth_error (s_blks s) c = Some C ->
  nth_error (k_thr B) i = Some p -> nth_error (k_thr C) j = Some q ->
  tstep false E b i (s_G s) (k_sh B) p = Some (p', a1) ->
  tstep false E c j (s_G s) (k_sh C) q = Some (q', a2) ->
  ~ races (step_greads E b i (s_G s) (k_sh B) p) a1 (step_greads E c j (s_G s) (k_sh C) q) a2.
Proof.
  intros v ob s b i c j B C p q p' q' a1 a2 E Hind HI Hne HB HC Hp Hq H1 H2.
  destruct (thr_facts E (ob_secs ob) s b B i p p' a1 HI HB Hp H1) as (Hi & Hokp & Hal1).
  destruct (thr_facts E (ob_secs ob) s c C j q q' a2 HI HC Hq H2) as (Hj & Hokq & Hal2).
  eapply no_race; eauto.
Qed.
Print Assumptions race_free.

(* privacy: a step of task b changes global memory and the record of b only (its @shared arrays, the @exclusive
   values and locals of its inner tuples); the records of all other tasks are untouched *)
Theorem task_state_is_private : forall E secs b s s', ostep false E secs b s = Some s' ->
  forall c, c <> b -> nth_error (s_blks s') c = nth_error (s_blks s) c.
Proof. exact (Proofs.ostep_private false). Qed.
Print Assumptions task_state_is_private.

(* atomic_not_lost.  With `#pragma omp atomic` (one indivisible step) every @atomic update arrives: whatever the
   schedule, every cell — in particular the cells of arrays that are only updated atomically — ends with the value
   the Serial run gives it, i.e. the initial value plus every update exactly once. *)
Theorem atomic_not_lost : forall (k : kernel) (v : env) (scheds : list (list nat)) (G G' : mem) (a : nat) (i : Z),
  independent k = true -> atomic_array k a -> run_omp scheds k v G = Some G' ->
  rd2 G' a i = rd2 (run_serial k v G) a i.
Proof. intros. erewrite (Proofs.omp_eq_serial k v scheds G G'); eauto. Qed.
Print Assumptions atomic_not_lost.

(* four tasks add 5, 6, 7, 8 into one cell; tasks interleaved 3,0,2,1 *)
Definition at4_ob : oblock :=
  {| ob_odims := [BConst 4]; ob_idims := [BConst 1]; ob_kinds := [KAtom]; ob_shared := [];
     ob_secs := [ {| sec_wr := []; sec_body := SAtom 0 (EConst 0) (EBin OAdd (EOut 0) (EConst 5)) |} ] |}.
Definition no_args : env := {| v_args := []; v_uninit := 0%Z |}.

Example atomic_sum_any_order :
  run_omp [[3; 0; 2; 1; 1; 2; 0; 3]] [at4_ob] no_args [[100]]%Z = Some [[126]]%Z /\ run_serial [at4_ob] no_args [[100]]%Z = [[126]]%Z.
Proof. vm_compute. auto. Qed.

(* the same kernel when the pragma is missing (`x += v` = load step, store step): task 1 loads, task 0 runs
   completely, task 1 stores: the update of task 0 is lost.  This is the structural premise tools/C21_emit.py
   checks on every emitted OpenMP source. *)
Example missing_omp_atomic_loses_update :
  run_omp_gen true [[1; 0; 0; 0; 1; 1; 2; 2; 2; 3; 3; 3]] [at4_ob] no_args [[100]]%Z = Some [[121]]%Z.
Proof. vm_compute. reflexivity. Qed.

(* a two-thread run: thread 0 executes tasks 0 then 1, thread 1 executes tasks 2 then 3, steps alternating *)
Example two_thread_schedule :
  thread_schedule [[0; 1]; [2; 3]] [0; 2; 0; 2; 1; 3; 1; 3] = true /\
  thread_schedule [[0; 1]; [2; 3]] [1; 0; 0; 1; 2; 2; 3; 3] = false /\
  run_omp [[0; 2; 0; 2; 1; 3; 1; 3]] [at4_ob] no_args [[100]]%Z = Some [[126]]%Z.
Proof. vm_compute. auto. Qed.

(* round-robin over the tasks that still have a step *)
Fixpoint rr_sched (fuel : nat) (E : senv) (secs : list section) (n cur : nat) (s : gst) : list nat :=
  match fuel with
  | O => []
  | S f =>
    match find (fun b => match ostep false E secs b s with Some _ => true | None => false end)
               (map (fun d => Nat.modulo (cur + d) n) (seq 0 n)) with
    | Some b => match ostep false E secs b s with
                | Some s' => b :: rr_sched f E secs n (S b) s'
                | None => []
                end
    | None => []
    end
  end.

(* an @outer body with @shared, @exclusive and a barrier (C20's example kernel), the two tasks alternating *)
Definition ex_osched := rr_sched 200 ex_E (ob_secs ex_ob) 2 1 (init_gst ex_E 0 ex_ob 2 ex_G).

Example omp_shared_exclusive_example :
  firstn 6 ex_osched = [1; 0; 1; 0; 1; 0] /\
  run_omp [ex_osched] [ex_ob] ex_env ex_G = Some (run_serial [ex_ob] ex_env ex_G).
Proof. vm_compute. auto. Qed.
