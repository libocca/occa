(* C21/Proofs.v — an OpenMP schedule is a launch schedule, so omp_eq_serial is C20's confluence; complete schedules
   exist by progress and the length bound of launch schedules; race freedom from the ownership of cells. *)
From Coq Require Import List ZArith Lia Bool Arith.
From OV.C20 Require Import Util Confluence Lang Spec Model Frame Diamond SeqRun Proofs.
From OV.C21 Require Import Model Spec.
Import ListNotations.
Open Scope nat_scope.

(* every OpenMP schedule is a schedule of the launch model *)
Lemma oruns_gruns E secs : forall sched s e, oruns false E secs sched s = Some e ->
  exists gs, gruns false E secs gs s = Some e /\ length gs = length sched.
Proof.
  induction sched as [|b r IH]; simpl; intros s e H.
  - exists []. auto.
  - unfold ostep in H. destruct (nth_error (s_blks s) b) as [B|]; try discriminate.
    destruct (gstep false E secs (next_label b B) s) as [s'|] eqn:Hs; try discriminate.
    destruct (IH s' e H) as [gs [Hg Hl]]. exists (next_label b B :: gs). simpl. rewrite Hs. auto.
Qed.

Theorem omp_oblock_eq_seq v ob sched G G' :
  independent_ob ob = true -> omp_oblock false v ob sched G = Some G' -> G' = seq_oblock v G ob.
Proof.
  unfold omp_oblock. intros Hind H.
  destruct (oruns false _ _ sched _) as [e|] eqn:R; try discriminate.
  destruct (oruns_gruns _ _ _ _ _ R) as [gs [Hg _]].
  apply (launch_oblock_eq_seq v ob gs G G' Hind). unfold launch_oblock. rewrite Hg. exact H.
Qed.

Theorem omp_eq_serial : forall k v scheds G G',
  independent k = true -> run_omp scheds k v G = Some G' -> G' = run_serial k v G.
Proof.
  unfold run_omp, run_serial, run_seq, independent.
  induction k as [|ob k IH]; intros v scheds G G' Hind HL; destruct scheds as [|sc scheds]; simpl in *; try discriminate.
  - inversion HL; auto.
  - apply andb_true_iff in Hind as [H1 H2].
    destruct (omp_oblock false v ob sc G) as [G1|] eqn:HL1; try discriminate.
    apply omp_oblock_eq_seq in HL1; auto. subst G1. eapply IH; eauto.
Qed.

Lemma first_busy_none : forall thr i, first_busy i thr = None -> forallb (fun p => is_nil (p_k p)) thr = true.
Proof. induction thr; simpl; intros i H; auto. destruct (is_nil (p_k a)); try discriminate. simpl. eauto. Qed.

Lemma first_busy_some : forall thr i j, first_busy i thr = Some j ->
  exists n p, j = i + n /\ nth_error thr n = Some p /\ p_k p <> [].
Proof.
  induction thr as [|a thr IH]; simpl; intros i j H; try discriminate.
  destruct (p_k a) eqn:Hn; simpl in H.
  - destruct (IH (S i) j H) as (n & p & -> & Hp). exists (S n), p. split; [lia|exact Hp].
  - injection H as <-. exists 0, a. rewrite Hn. split; [lia|split; [reflexivity|discriminate]].
Qed.

Lemma tstep_some split E lo li G Sh p : p_k p <> [] -> tstep split E lo li G Sh p <> None.
Proof. unfold tstep. destruct (p_k p) as [|[s|j c n s|a i v] k]; intros H; try congruence; discriminate. Qed.

Section Progress.
  Variables (E : senv) (secs : list section).
  Hypothesis Hind : forall s, In s secs -> okS E (sec_wr s) false (sec_body s) = true.

  Lemma ostep_progress s : Inv E secs s -> finished secs s = false -> exists b s', ostep false E secs b s = Some s'.
  Proof.
    intros HI Hf. unfold finished in Hf.
    apply forallb_false in Hf as [B [Hin Hph]]. apply In_nth_error in Hin as [b HB]. apply Nat.eqb_neq in Hph.
    destruct (HI b B HB) as [_ [_ [_ Hle]]].
    exists b. unfold ostep. rewrite HB. unfold next_label.
    destruct (first_busy 0 (k_thr B)) as [j|] eqn:Hfb.
    - destruct (first_busy_some _ _ _ Hfb) as (i & p & -> & Hp & Hk). change (0 + i) with i.
      destruct (tstep false E b i (s_G s) (k_sh B) p) as [[p' act]|] eqn:Ht; [|now apply tstep_some in Ht].
      erewrite thr_intro; eauto.
    - erewrite bar_intro; eauto using first_busy_none. lia.
  Qed.

  (* n bounds the length of every launch schedule from s *)
  Lemma omp_complete_from : forall n s, Inv E secs s ->
    (forall gs e, gruns false E secs gs s = Some e -> length gs < n) ->
    exists os e, oruns false E secs os s = Some e /\ finished secs e = true.
  Proof.
    induction n; intros s HI Hb.
    - specialize (Hb [] s eq_refl). inversion Hb.
    - destruct (finished secs s) eqn:Hf; [exists [], s; auto|].
      destruct (ostep_progress s HI Hf) as [b [s' Hs]]. pose proof Hs as Hs0.
      unfold ostep in Hs. destruct (nth_error (s_blks s) b) as [B|]; try discriminate.
      destruct (IHn s') as [os [e [Ho He]]].
      + eapply Inv_step; eauto.
      + intros gs e Hg. apply Nat.succ_lt_mono, (Hb (next_label b B :: gs) e). simpl. now rewrite Hs.
      + exists (b :: os), e. simpl. rewrite Hs0. auto.
  Qed.
End Progress.

Theorem omp_oblock_complete_exists v ob G : independent_ob ob = true ->
  exists sched, omp_oblock false v ob sched G = Some (seq_oblock v G ob).
Proof.
  intros Hind. pose proof (independent_ob_okS v ob Hind) as Hok.
  set (E := mk_senv (v_args v) ob) in *. set (no := extents (v_args v) (ob_odims ob)).
  set (s0 := init_gst E (v_uninit v) ob no G).
  assert (HI : Inv E (ob_secs ob) s0) by apply init_Inv, Hok.
  destruct (blocks_run E (v_uninit v) ob no [] G eq_refl) as (gs0 & e0 & R0 & _ & F0).
  destruct (omp_complete_from E (ob_secs ob) Hok (S (length gs0)) s0 HI) as [os [e [Ho He]]].
  { intros gs e Hg. apply Nat.lt_succ_r. exact (proj1 (finished_run_bounds E _ Hok s0 gs0 gs e0 e HI R0 F0 Hg)). }
  exists os.
  assert (H : omp_oblock false v ob os G = Some (s_G e)) by (unfold omp_oblock; fold E no s0; now rewrite Ho, He).
  rewrite H. f_equal. now apply (omp_oblock_eq_seq v ob os G).
Qed.

Theorem omp_complete_exists : forall k v G, independent k = true ->
  exists scheds, run_omp scheds k v G = Some (run_serial k v G).
Proof.
  unfold run_omp, run_serial, run_seq, independent. induction k as [|ob k IH]; intros v G Hind.
  - exists []. reflexivity.
  - simpl in Hind. apply andb_true_iff in Hind as [H1 H2].
    destruct (omp_oblock_complete_exists v ob G H1) as [sc Hsc]. destruct (IH v (seq_oblock v G ob) H2) as [scs Hscs].
    exists (sc :: scs). simpl. rewrite Hsc. exact Hscs.
Qed.

Lemma greads_readable E W lo li G Sh ex lc e a idx :
  okE E W e = true -> In (a, idx) (greads E lo li G Sh ex lc e) ->
  kind_of E a = KIn \/ exists st d, kind_of E a = KThr st /\ d < st /\ idx = own_idx E lo li a d.
Proof.
  unfold okE. induction e; simpl; intros Hok Hin; try contradiction.
  - (* EBin *) apply andb_true_iff in Hok as [H1 H2]. apply in_app_or in Hin as [Hin|Hin]; auto.
  - (* EModP *) auto.
  - (* ERdG *) apply andb_true_iff in Hok as [H1 H2]. destruct Hin as [Heq|Hin]; auto.
    injection Heq as -> <-. left. now apply kind_test_in.
  - (* ERdOwn *) destruct Hin as [Heq|[]]. injection Heq as -> <-. right.
    destruct (kind_test_thr E a d Hok) as (st & K & Hd). exists st, d. auto.
  - (* ERdSh *) apply andb_true_iff in Hok as [H1 H2]. auto.
Qed.

Lemma step_greads_readable E W lo li G Sh p a idx :
  ok_priv E W li p -> In (a, idx) (step_greads E lo li G Sh p) ->
  kind_of E a = KIn \/ exists st d, kind_of E a = KThr st /\ d < st /\ idx = own_idx E lo li a d.
Proof.
  unfold ok_priv, step_greads. destruct (p_k p) as [|it k]; simpl; intros Hok Hin; try contradiction.
  apply andb_true_iff in Hok as [Hit _].
  apply in_flat_map in Hin as [e [He Hin]].
  assert (Hoke : okE E W e = true).
  { destruct it as [s|j c n s|b i v]; simpl in He; try contradiction.
    destruct s; simpl in He, Hit; unfold okS in Hit; simpl in Hit; try contradiction;
      repeat match goal with H : _ && _ = true |- _ => apply andb_true_iff in H as [? ?] end;
      repeat match goal with H : _ \/ _ |- _ => destruct H end; try contradiction; subst; auto. }
  eapply greads_readable; eauto.
Qed.

Lemma plain_write_inv act a i : plain_write act = Some (a, i) -> exists v, act = AWrG a i v.
Proof. destruct act; try discriminate. intros [= -> ->]. eauto. Qed.

Lemma atomic_update_inv act a i : atomic_update act = Some (a, i) -> exists v, act = AAddG a i v.
Proof. destruct act; try discriminate. intros [= -> ->]. eauto. Qed.

Lemma owned_not_read E W lo li lo' li' G S r a i :
  (lo, li) <> (lo', li') -> li < e_mi E -> li' < e_mi E ->
  owned E lo li a i -> ok_priv E W li' r -> ~ In (a, i) (step_greads E lo' li' G S r).
Proof.
  intros Hn Hl Hl' Hown Hok Hin.
  destruct (step_greads_readable _ _ _ _ _ _ _ _ _ Hok Hin) as [K|Hown2].
  - now apply owned_kind in Hown.
  - apply (owned_disjoint E lo li lo' li' a i i); auto. left. exact Hown2.
Qed.

Lemma atomic_not_read E W lo li G S r a i :
  kind_of E a = KAtom -> ok_priv E W li r -> ~ In (a, i) (step_greads E lo li G S r).
Proof.
  intros K Hok Hin.
  destruct (step_greads_readable _ _ _ _ _ _ _ _ _ Hok Hin) as [K'|[st [d [K' _]]]]; congruence.
Qed.

Lemma no_race E W W' lo li lo' li' G Sh Sh' p q a1 a2 :
  (lo, li) <> (lo', li') -> li < e_mi E -> li' < e_mi E ->
  ok_priv E W li p -> ok_priv E W' li' q ->
  allowed E W lo li a1 -> allowed E W' lo' li' a2 ->
  ~ races (step_greads E lo li G Sh p) a1 (step_greads E lo' li' G Sh' q) a2.
Proof.
  intros Hne Hl Hl' Hp Hq H1 H2 Hr.
  assert (Hne' : (lo', li') <> (lo, li)) by congruence.
  destruct Hr as [[[a i] [Hw Hc]]|[[[a i] [Hw Hc]]|[[[a i] [Hu Hin]]|[[a i] [Hu Hin]]]]].
  - apply plain_write_inv in Hw as [v ->]. simpl in H1. destruct Hc as [Hin|[Hw2|Hu2]].
    + exact (owned_not_read E W' lo li lo' li' G Sh' q a i Hne Hl Hl' H1 Hq Hin).
    + apply plain_write_inv in Hw2 as [w ->].
      exact (owned_disjoint E lo li lo' li' a i i Hne Hl Hl' H1 H2 eq_refl).
    + apply atomic_update_inv in Hu2 as [w ->]. now apply owned_kind in H1.
  - apply plain_write_inv in Hw as [v ->]. simpl in H2. destruct Hc as [Hin|Hu1].
    + exact (owned_not_read E W lo' li' lo li G Sh p a i Hne' Hl' Hl H2 Hp Hin).
    + apply atomic_update_inv in Hu1 as [w ->]. now apply owned_kind in H2.
  - apply atomic_update_inv in Hu as [v ->]. exact (atomic_not_read E W' lo' li' G Sh' q a i H1 Hq Hin).
  - apply atomic_update_inv in Hu as [v ->]. exact (atomic_not_read E W lo li G Sh p a i H2 Hp Hin).
Qed.

(* a step of task b leaves the records of the other tasks alone: what is declared inside the outer body
   (@shared arrays, @exclusive values, locals, the exclusive index) is private to the iteration *)
Lemma ostep_private split E secs b s s' : ostep split E secs b s = Some s' ->
  forall c, c <> b -> nth_error (s_blks s') c = nth_error (s_blks s) c.
Proof.
  unfold ostep. intros H c Hc. destruct (nth_error (s_blks s) b) as [B|] eqn:HB; try discriminate.
  unfold next_label in H. destruct (first_busy 0 (k_thr B)) as [i|].
  - apply thr_inv in H as [B' [p [p' [act [_ [_ [_ ->]]]]]]]. simpl. apply nth_error_upd_neq. auto.
  - apply bar_inv in H as [B' [_ [_ [_ ->]]]]. simpl. apply nth_error_upd_neq. auto.
Qed.
