(* C23 — the sequential for loops of Model.v as lists.  An upward loop yields the arithmetic
   progression `ups`; a downward loop is the mirror image of an upward one (negate start, end and
   the values); a tiled loop yields what the untiled one does; Spec.s_range_values is ups or downs,
   and range::length counts it. *)
From Coq Require Import List ZArith Bool Lia.
From OV.C23 Require Import Model Spec.
Import ListNotations.
Local Open Scope Z_scope.

Lemma iota_cons : forall c, 0 <= c -> iota (1 + c) = 0 :: map (fun j => j + 1) (iota c).
Proof.
  intros c Hc. unfold iota. replace (Z.to_nat (1 + c)) with (S (Z.to_nat c)) by lia.
  cbn [seq map]. f_equal. rewrite <- seq_shift, !map_map. apply map_ext. intros j. lia.
Qed.

Lemma iota_succ : forall n, 0 <= n -> iota (Z.succ n) = iota n ++ [n].
Proof.
  intros n Hn. unfold iota. rewrite Z2Nat.inj_succ, seq_S, map_app by exact Hn.
  cbn [map Nat.add]. rewrite Z2Nat.id by exact Hn. reflexivity.
Qed.

Lemma iota_length : forall n, length (iota n) = Z.to_nat n.
Proof. intros n. unfold iota. rewrite map_length, seq_length. reflexivity. Qed.

(* how often  for (i = a; i < b; i += s)  runs its body, and the values i takes *)
Definition up_count (a b s : Z) : Z := if a <? b then (b - a - 1) / s + 1 else 0.
Definition ups (a b s : Z) : list Z := map (fun j => a + s * j) (iota (up_count a b s)).

Lemma up_count_nonneg : forall a b s, 0 < s -> 0 <= up_count a b s.
Proof.
  intros a b s Hs. unfold up_count. destruct (a <? b) eqn:E; [|lia].
  apply Z.ltb_lt in E. assert (0 <= (b - a - 1) / s) by (apply Z.div_pos; lia). lia.
Qed.

Lemma up_count_lt : forall a b s, 0 < s -> a < b -> up_count a b s = 1 + up_count (a + s) b s.
Proof.
  intros a b s Hs L. unfold up_count. rewrite (proj2 (Z.ltb_lt a b) L).
  destruct (Z.ltb_spec (a + s) b) as [L2|G2].
  - replace (b - a - 1) with (b - (a + s) - 1 + 1 * s) by ring. rewrite Z.div_add by lia. apply Z.add_comm.
  - rewrite Z.div_small by lia. reflexivity.
Qed.

Lemma ups_ge : forall a b s, b <= a -> ups a b s = [].
Proof. intros a b s G. unfold ups, up_count. rewrite (proj2 (Z.ltb_ge a b) G). reflexivity. Qed.

Lemma ups_lt : forall a b s, 0 < s -> a < b -> ups a b s = a :: ups (a + s) b s.
Proof.
  intros a b s Hs L. unfold ups. rewrite (up_count_lt a b s Hs L), iota_cons by apply up_count_nonneg, Hs.
  cbn [map]. rewrite Z.mul_0_r, Z.add_0_r, map_map. f_equal. apply map_ext. intros j. ring.
Qed.

Lemma run_up : forall b s, 0 < s -> forall fuel a, (Z.to_nat (b - a) < fuel)%nat ->
  run_for fuel a (fun i => i <? b) (fun i => i + s) = Some (ups a b s).
Proof.
  intros b s Hs. induction fuel as [|f IH]; intros a Hf; [lia|].
  cbn [run_for]. destruct (Z.ltb_spec a b) as [L|G].
  - rewrite IH, (ups_lt a b s) by (assumption || lia). reflexivity.
  - rewrite ups_ge by assumption. reflexivity.
Qed.

(* fuel_for a b exceeds the distance b - a, and every round shortens it by s >= 1 *)
Lemma loop_up_ups : forall a b s, 0 < s -> loop_up a b s = Some (ups a b s).
Proof. intros a b s Hs. apply run_up; [assumption | unfold fuel_for; lia]. Qed.

Lemma up_ind : forall (b s : Z) (P : Z -> Prop), 0 < s ->
  (forall a, b <= a -> P a) ->
  (forall a, a < b -> P (a + s) -> P a) ->
  forall a, P a.
Proof.
  intros b s P Hs Hge Hlt.
  assert (H : forall n a, (Z.to_nat (b - a) <= n)%nat -> P a).
  { induction n as [|n IH]; intros a Hn.
    - apply Hge. lia.
    - destruct (Z_lt_ge_dec a b) as [L|G]; [|apply Hge; lia].
      apply Hlt; [assumption|]. apply IH. lia. }
  intros a. apply (H (Z.to_nat (b - a))). lia.
Qed.

Lemma ups_bounds : forall a b s, 0 < s -> forall x, In x (ups a b s) -> a <= x < b.
Proof.
  intros a b s Hs. revert a. refine (up_ind b s _ Hs _ _).
  - intros a G x Hx. rewrite ups_ge in Hx by assumption. destruct Hx.
  - intros a L IH x Hx. rewrite ups_lt in Hx by assumption. destruct Hx as [<-|Hx]; [lia|].
    apply IH in Hx. lia.
Qed.

(* zrange a b is ups a b 1 (ups_1): its append and membership facts are read off the ups ones *)
Lemma zrange_nil : forall a b, b <= a -> zrange a b = [].
Proof. intros a b H. unfold zrange. replace (Z.to_nat (b - a)) with 0%nat by lia. reflexivity. Qed.

Lemma zrange_cons : forall a b, a < b -> zrange a b = a :: zrange (a + 1) b.
Proof.
  intros a b H. unfold zrange. replace (Z.to_nat (b - a)) with (S (Z.to_nat (b - (a + 1)))) by lia.
  cbn [seq map]. f_equal; [lia|]. rewrite <- seq_shift, map_map. apply map_ext. intros j. lia.
Qed.

Lemma ups_1 : forall a b, ups a b 1 = zrange a b.
Proof.
  intros a b. revert a. refine (up_ind b 1 _ Z.lt_0_1 _ _).
  - intros a G. rewrite ups_ge, zrange_nil by assumption. reflexivity.
  - intros a L IH. rewrite ups_lt, zrange_cons by (assumption || exact Z.lt_0_1). f_equal. exact IH.
Qed.

Lemma zrange_app : forall a b c, a <= b -> b <= c -> zrange a b ++ zrange b c = zrange a c.
Proof.
  intros a b c Hab Hbc. revert a Hab.
  refine (up_ind b 1 _ Z.lt_0_1 _ _).
  - intros a G Hab. rewrite (Z.le_antisymm _ _ Hab G), zrange_nil by apply Z.le_refl. reflexivity.
  - intros a L IH _. rewrite (zrange_cons a b L), (zrange_cons a c (Z.lt_le_trans _ _ _ L Hbc)).
    cbn [app]. f_equal. apply IH, Z.le_succ_l, L.
Qed.

Lemma zrange_bounds : forall a b x, In x (zrange a b) -> a <= x < b.
Proof. intros a b x H. rewrite <- ups_1 in H. apply ups_bounds in H; lia. Qed.

Lemma iota_zrange : forall n, iota n = zrange 0 n.
Proof. intros n. unfold iota, zrange. rewrite Z.sub_0_r. apply map_ext. intros j. lia. Qed.

Lemma iota_bounds : forall n x, In x (iota n) -> 0 <= x < n.
Proof. intros n x H. rewrite iota_zrange in H. apply zrange_bounds, H. Qed.

Lemma map_nth_iota : forall idx : list Z,
  map (fun k => nth (Z.to_nat k) idx 0) (iota (Z.of_nat (length idx))) = idx.
Proof.
  intros idx. unfold iota. rewrite Nat2Z.id, map_map.
  erewrite map_ext. 2:{ intros j. rewrite Nat2Z.id. reflexivity. }
  induction idx as [|x idx IH]; [reflexivity|].
  cbn [length seq map nth]. f_equal. rewrite <- seq_shift, map_map. exact IH.
Qed.

Lemma filter_all : forall (A : Type) (P : A -> bool) l, (forall x, In x l -> P x = true) -> filter P l = l.
Proof.
  intros A P. induction l as [|x l IH]; intros H; [reflexivity|].
  cbn [filter]. rewrite (H x) by (left; reflexivity). f_equal. apply IH. intros y Hy. apply H. right. exact Hy.
Qed.

Lemma filter_none : forall (A : Type) (P : A -> bool) l, (forall x, In x l -> P x = false) -> filter P l = [].
Proof.
  intros A P. induction l as [|x l IH]; intros H; [reflexivity|].
  cbn [filter]. rewrite (H x) by (left; reflexivity). apply IH. intros y Hy. apply H. right. exact Hy.
Qed.

Lemma filter_lt_zrange : forall a b e, a <= b ->
  filter (fun i => i <? e) (zrange a b) = zrange a (Z.max a (Z.min b e)).
Proof.
  intros a b e Hab. set (c := Z.max a (Z.min b e)).
  assert (Hc : a <= c <= b)
    by (split; [apply Z.le_max_l | apply Z.max_lub; [exact Hab | apply Z.le_min_l]]).
  rewrite <- (zrange_app a c b) by apply Hc. rewrite filter_app, filter_all, filter_none.
  - apply app_nil_r.
  - intros x Hx. apply zrange_bounds in Hx. destruct Hx as [Hx1 Hx2]. apply Z.ltb_ge.
    apply Z.max_lub_r, Z.min_le_iff in Hx1. destruct Hx1 as [H|H]; [|exact H].
    exfalso. exact (Z.lt_irrefl _ (Z.lt_le_trans _ _ _ Hx2 H)).
  - intros x Hx. apply zrange_bounds in Hx. destruct Hx as [Hx1 Hx2]. apply Z.ltb_lt.
    apply Z.max_lt_iff in Hx2. destruct Hx2 as [H|H]; [|apply Z.min_glb_lt_iff in H; apply H].
    exfalso. exact (Z.lt_irrefl _ (Z.lt_le_trans _ _ _ H Hx1)).
Qed.

Lemma collect_somes : forall (A : Type) (l : list (list A)), collect (map Some l) = Some (concat l).
Proof.
  intros A. induction l as [|x l IH]; [reflexivity|]. cbn [map collect concat]. rewrite IH. reflexivity.
Qed.

Lemma nest_some : forall (A : Type) (l : list Z) (body : Z -> option (list A)) (g : Z -> list A),
  (forall x, In x l -> body x = Some (g x)) ->
  nest (Some l) body = Some (flat_map g l).
Proof.
  intros A l body g H. unfold nest. rewrite flat_map_concat_map, <- collect_somes, map_map.
  f_equal. apply map_ext_in. exact H.
Qed.

Lemma steps_succ : forall a s T, a + Z.succ T * s = a + s + T * s.
Proof. intros a s T. ring. Qed.

Lemma ups_split : forall e s, 0 < s -> forall T, 0 <= T -> forall a,
  ups a e s = filter (fun x => x <? e) (ups a (a + T * s) s) ++ ups (a + T * s) e s.
Proof.
  intros e s Hs. refine (natlike_ind _ _ _).
  - intros a. rewrite Z.mul_0_l, Z.add_0_r, (ups_ge a a) by apply Z.le_refl. reflexivity.
  - intros T HT IH a. pose proof (Z.mul_nonneg_nonneg T s HT (Z.lt_le_incl _ _ Hs)) as Hm.
    rewrite steps_succ.
    destruct (Z_lt_ge_dec a e) as [L|G].
    + rewrite (ups_lt a e), (ups_lt a (a + s + T * s)) by lia.
      cbn [filter]. rewrite (proj2 (Z.ltb_lt a e) L). cbn [app]. f_equal. apply IH.
    + rewrite (ups_ge a e), (ups_ge (a + s + T * s) e) by lia.
      rewrite filter_none; [reflexivity|]. intros x Hx. apply ups_bounds in Hx; [|assumption].
      apply Z.ltb_ge. lia.
Qed.

(* for (xT = a; xT < e; xT += T * s) for (x = xT; x < xT + T * s; x += s) if (x < e) *)
Lemma tiled_up : forall e s T, 0 < s -> 0 < T -> forall a,
  flat_map (fun xT => filter (fun x => x <? e) (ups xT (xT + T * s) s)) (ups a e (T * s)) = ups a e s.
Proof.
  intros e s T Hs HT. assert (HTs : 0 < T * s) by (apply Z.mul_pos_pos; assumption).
  refine (up_ind e (T * s) _ HTs _ _).
  - intros a G. rewrite !ups_ge by assumption. reflexivity.
  - intros a L IH. rewrite (ups_lt a e (T * s)) by assumption. cbn [flat_map]. rewrite IH.
    rewrite (ups_split e s Hs T (Z.lt_le_incl _ _ HT) a). reflexivity.
Qed.

Lemma tiled_loop_up : forall e s T, 0 < s -> 0 < T -> forall a,
  nest (loop_up a e (T * s)) (fun xT =>
    match loop_up xT (xT + T * s) s with
    | Some l => Some (filter (fun x => x <? e) l)
    | None => None
    end) = Some (ups a e s).
Proof.
  intros e s T Hs HT a. rewrite loop_up_ups by (apply Z.mul_pos_pos; assumption).
  rewrite (nest_some _ _ _ (fun xT => filter (fun x => x <? e) (ups xT (xT + T * s) s))).
  - f_equal. apply tiled_up; assumption.
  - intros xT _. rewrite loop_up_ups by assumption. reflexivity.
Qed.

Lemma tiled_up_1 : forall e T, 0 < T -> forall a,
  flat_map (fun xT => filter (fun x => x <? e) (zrange xT (xT + T))) (ups a e T) = zrange a e.
Proof.
  intros e T HT a. rewrite <- ups_1, <- (tiled_up e 1 T Z.lt_0_1 HT a), Z.mul_1_r.
  apply flat_map_ext. intros xT. rewrite ups_1. reflexivity.
Qed.

Lemma tiled_loop_up_1 : forall e T, 0 < T -> forall a,
  nest (loop_up a e T) (fun xT =>
    match loop_up xT (xT + T) 1 with
    | Some l => Some (filter (fun x => x <? e) l)
    | None => None
    end) = Some (zrange a e).
Proof.
  intros e T HT a. rewrite <- ups_1, <- (Z.mul_1_r T). apply tiled_loop_up; [exact Z.lt_0_1 | exact HT].
Qed.

Lemma tile_rows_exact : forall s, 0 < s -> forall T, 0 <= T -> forall a,
  flat_map (fun t => zrange t (t + s)) (ups a (a + T * s) s) = zrange a (a + T * s).
Proof.
  intros s Hs. refine (natlike_ind _ _ _).
  - intros a. rewrite Z.mul_0_l, Z.add_0_r, ups_ge, zrange_nil by apply Z.le_refl. reflexivity.
  - intros T HT IH a. pose proof (Z.mul_nonneg_nonneg T s HT (Z.lt_le_incl _ _ Hs)) as Hm.
    rewrite steps_succ.
    rewrite ups_lt by lia. cbn [flat_map]. rewrite IH. apply zrange_app; lia.
Qed.

Lemma ltb_opp : forall a b, (- a <? - b) = (b <? a).
Proof. intros a b. unfold Z.ltb. rewrite Z.compare_opp. reflexivity. Qed.

Lemma ltb_opp_r : forall a b, (a <? - b) = (b <? - a).
Proof. intros a b. rewrite <- (ltb_opp (- b) a), Z.opp_involutive. reflexivity. Qed.

Lemma run_for_conj : forall (phi : Z -> Z) tst1 nxt1 tst2 nxt2,
  (forall i, tst2 (phi i) = tst1 i) -> (forall i, nxt2 (phi i) = phi (nxt1 i)) ->
  forall fuel a a', a' = phi a ->
  run_for fuel a' tst2 nxt2 =
  match run_for fuel a tst1 nxt1 with Some l => Some (map phi l) | None => None end.
Proof.
  intros phi tst1 nxt1 tst2 nxt2 Ht Hn. induction fuel as [|f IH]; intros a a' ->; [reflexivity|].
  cbn [run_for]. rewrite Ht. destruct (tst1 a); [|reflexivity].
  rewrite (IH (nxt1 a) _ (Hn a)). destruct (run_for f (nxt1 a) tst1 nxt1); reflexivity.
Qed.

Lemma loop_down_up : forall a b s,
  loop_down a b s = match loop_up (- a) (- b) s with Some l => Some (map Z.opp l) | None => None end.
Proof.
  intros a b s. unfold loop_down, loop_up, fuel_for. replace (Z.abs (- b - - a)) with (Z.abs (b - a)) by lia.
  apply (run_for_conj Z.opp); [intros i; apply ltb_opp_r | intros i; symmetry; apply Z.opp_add_distr |].
  symmetry. apply Z.opp_involutive.
Qed.

Definition downs (a b s : Z) : list Z := map Z.opp (ups (- a) (- b) s).

Lemma loop_down_downs : forall a b s, 0 < s -> loop_down a b s = Some (downs a b s).
Proof. intros a b s Hs. rewrite loop_down_up, loop_up_ups by assumption. reflexivity. Qed.

Lemma filter_map_opp : forall e l,
  filter (fun x => e <? x) (map Z.opp l) = map Z.opp (filter (fun x => x <? - e) l).
Proof.
  intros e. induction l as [|x l IH]; [reflexivity|]. cbn [map filter].
  rewrite (ltb_opp_r e x), IH. destruct (x <? - e); reflexivity.
Qed.

(* for (xT = a; xT > e; xT -= T * s) for (x = xT; x > xT - T * s; x -= s) if (x > e) *)
Lemma tiled_down : forall e s T, 0 < s -> 0 < T -> forall a,
  flat_map (fun xT => filter (fun x => e <? x) (downs xT (xT - T * s) s)) (downs a e (T * s)) = downs a e s.
Proof.
  intros e s T Hs HT a. unfold downs. rewrite <- (tiled_up (- e) s T Hs HT (- a)).
  rewrite !flat_map_concat_map, concat_map, !map_map. f_equal. apply map_ext. intros xT. rewrite filter_map_opp.
  replace (- - xT) with xT by lia. replace (- (- xT - T * s)) with (xT + T * s) by lia. reflexivity.
Qed.

Lemma tiled_loop_down : forall e s T, 0 < s -> 0 < T -> forall a,
  nest (loop_down a e (T * s)) (fun xT =>
    match loop_down xT (xT - T * s) s with
    | Some l => Some (filter (fun x => e <? x) l)
    | None => None
    end) = Some (downs a e s).
Proof.
  intros e s T Hs HT a. rewrite loop_down_downs by (apply Z.mul_pos_pos; assumption).
  rewrite (nest_some _ _ _ (fun xT => filter (fun x => e <? x) (downs xT (xT - T * s) s))).
  - f_equal. apply tiled_down; assumption.
  - intros xT _. rewrite loop_down_downs by assumption. reflexivity.
Qed.

(* Spec.walk is run_for with [] in place of None; s_range_values gives it the fuel of loop_up/loop_down *)
Lemma run_for_walk : forall tst nxt s, (forall i, nxt i = i + s) -> forall fuel a l,
  run_for fuel a tst nxt = Some l -> walk fuel a tst s = l.
Proof.
  intros tst nxt s Hn. induction fuel as [|f IH]; intros a l H; [discriminate|].
  cbn [run_for walk] in *. destruct (tst a); [|congruence].
  rewrite Hn in H. destruct (run_for f (a + s) tst nxt) as [l'|] eqn:E; [|discriminate].
  injection H as <-. f_equal. apply IH, E.
Qed.

Lemma s_range_values_up : forall s e st, 0 < st -> s_range_values s e st = ups s e st.
Proof.
  intros s e st P. unfold s_range_values. rewrite (proj2 (Z.ltb_lt 0 st) P).
  apply (run_for_walk _ (fun i => i + st)); [reflexivity | apply loop_up_ups, P].
Qed.

Lemma s_range_values_down : forall s e st, st < 0 -> s_range_values s e st = downs s e (- st).
Proof.
  intros s e st N. unfold s_range_values. rewrite (proj2 (Z.ltb_ge 0 st) (Z.lt_le_incl _ _ N)).
  apply (run_for_walk _ (fun i => i - - st)); [intros i; apply Z.sub_opp_r | apply loop_down_downs, Z.opp_pos_neg, N].
Qed.

Lemma range_length_pos : forall s e st, 0 < st ->
  range_length (mkRange s e st) = if e <? s then 0 else Z.quot (e - s + st - 1) st.
Proof.
  intros s e st P. unfold range_length. cbn [r_start r_end r_step].
  rewrite (proj2 (Z.leb_gt st 0) P), (proj2 (Z.leb_le 0 st) (Z.lt_le_incl _ _ P)), (proj2 (Z.ltb_lt 0 st) P).
  rewrite andb_false_r, andb_true_r. reflexivity.
Qed.

Lemma range_length_neg : forall s e st, st < 0 ->
  range_length (mkRange s e st) = if s <? e then 0 else Z.quot (e - s + st + 1) st.
Proof.
  intros s e st N. unfold range_length. cbn [r_start r_end r_step].
  rewrite (proj2 (Z.leb_le st 0) (Z.lt_le_incl _ _ N)), (proj2 (Z.leb_gt 0 st) N),
    (proj2 (Z.ltb_ge 0 st) (Z.lt_le_incl _ _ N)).
  rewrite andb_true_r, andb_false_r, orb_false_r. reflexivity.
Qed.

(* a range with a negative step is the mirror image of the range from -start to -end by -step *)
Lemma range_length_opp : forall s e st, st < 0 ->
  range_length (mkRange s e st) = range_length (mkRange (- s) (- e) (- st)).
Proof.
  intros s e st N. rewrite range_length_neg by assumption.
  rewrite range_length_pos by (apply Z.opp_pos_neg; assumption).
  rewrite ltb_opp. destruct (s <? e); [reflexivity|].
  rewrite <- (Z.quot_opp_opp (e - s + st + 1) st) by (apply Z.lt_neq; assumption). f_equal. ring.
Qed.

Lemma range_length_up : forall s e st, 0 < st -> range_length (mkRange s e st) = up_count s e st.
Proof.
  intros s e st P. rewrite range_length_pos by assumption. unfold up_count.
  destruct (Z.ltb_spec s e) as [L|G].
  - rewrite (proj2 (Z.ltb_ge e s) (Z.lt_le_incl _ _ L)). rewrite Z.quot_div_nonneg by lia.
    replace (e - s + st - 1) with (e - s - 1 + 1 * st) by ring. apply Z.div_add. apply Z.neq_sym, Z.lt_neq, P.
  - destruct (Z.ltb_spec e s) as [L'|G']; [reflexivity|].
    rewrite (Z.le_antisymm _ _ G G'). apply Z.quot_small. lia.
Qed.

Lemma range_length_count : forall s e st, st <> 0 ->
  range_length (mkRange s e st) = if 0 <? st then up_count s e st else up_count (- s) (- e) (- st).
Proof.
  intros s e st Hst. destruct (Z.ltb_spec 0 st) as [P|N]; [apply range_length_up, P|].
  rewrite range_length_opp by lia. apply range_length_up. lia.
Qed.

Lemma range_length_nonneg : forall s e st, st <> 0 -> 0 <= range_length (mkRange s e st).
Proof.
  intros s e st Hst. rewrite range_length_count by exact Hst.
  destruct (Z.ltb_spec 0 st); apply up_count_nonneg; lia.
Qed.

Theorem range_length_values : forall s e st, st <> 0 ->
  map (range_value (mkRange s e st)) (iota (range_length (mkRange s e st))) = s_range_values s e st.
Proof.
  intros s e st Hst. rewrite range_length_count by exact Hst. destruct (Z.ltb_spec 0 st) as [P|N].
  - rewrite s_range_values_up by exact P. reflexivity.
  - rewrite s_range_values_down by lia. unfold downs, ups. rewrite map_map.
    apply map_ext. intros j. unfold range_value. cbn [r_start r_step]. ring.
Qed.

Lemma range_ctor_step : forall a b c,
  r_step (range1 a) <> 0 /\ r_step (range2 a b) <> 0 /\ r_step (range3 a b c) <> 0.
Proof.
  intros a b c. unfold range1, range2, range3. cbn [r_step]. repeat split.
  - destruct (0 <=? a); discriminate.
  - destruct (a <=? b); discriminate.
  - destruct (c =? 0) eqn:E; [discriminate|]. apply Z.eqb_neq, E.
Qed.
