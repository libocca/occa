(* C23 — the map template visits 0 .. len-1 in order (map_covers_all), so each map kernel is its
   body along iota (every_iota, some_iota, upd_prefix); the 128 block results combined by
   hostReduction are the sequential fold (cpu_reduce_fold).  The loops are in ProofsLoops.v. *)
From Coq Require Import List ZArith Bool Lia.
From OV.C23 Require Import Model Spec Menu ProofsLoops.
Import ListNotations.
Local Open Scope Z_scope.

Lemma filter_flat_map : forall (A B : Type) (P : B -> bool) (g : A -> list B) l,
  filter P (flat_map g l) = flat_map (fun x => filter P (g x)) l.
Proof. intros. rewrite !flat_map_concat_map, <- concat_filter_map, map_map. reflexivity. Qed.

Lemma forallb_map : forall (A B : Type) (f : A -> B) (P : B -> bool) l,
  forallb P (map f l) = forallb (fun x => P (f x)) l.
Proof. intros A B f P. induction l as [|x l IH]; [reflexivity|]. cbn [map forallb]. rewrite IH. reflexivity. Qed.

Lemma existsb_map : forall (A B : Type) (f : A -> B) (P : B -> bool) l,
  existsb P (map f l) = existsb (fun x => P (f x)) l.
Proof. intros A B f P. induction l as [|x l IH]; [reflexivity|]. cbn [map existsb]. rewrite IH. reflexivity. Qed.

Lemma find_map : forall (A B : Type) (f : A -> B) (Q : B -> bool) l,
  find Q (map f l) = option_map f (find (fun x => Q (f x)) l).
Proof.
  intros A B f Q. induction l as [|x l IH]; [reflexivity|]. cbn [map find].
  destruct (Q (f x)); [reflexivity | exact IH].
Qed.

Lemma skipn_nth : forall (A : Type) (d : A) (l : list A) (k : nat), (k < length l)%nat ->
  skipn k l = nth k l d :: skipn (S k) l.
Proof.
  intros A d. induction l as [|x l IH]; intros k Hk; [inversion Hk|].
  destruct k as [|k]; [reflexivity|]. cbn [skipn nth]. apply IH, Nat.succ_lt_mono, Hk.
Qed.

(* Within a block the tile loop and the index loop enumerate zrange B (B + bstep) row by row
   (tile_rows_exact), so the `i < len` test can be taken out of them; the block loop is then a
   tiling of 0 .. len-1 by tiles of bstep consecutive indices (tiled_up_1). *)
Lemma cpu_map_visits_fixed : forall len sts sti, 0 < sts -> 0 < sti ->
  cpu_map_visits fixed len sts sti = Some (zrange 0 len).
Proof.
  intros len sts sti Hts Hti. unfold cpu_map_visits. cbn [v_tile_step fixed].
  set (T := sts * sti). set (bstep := T * sti).
  assert (HT : 0 < T) by (apply Z.mul_pos_pos; assumption).
  assert (Hb : 0 < bstep) by (apply Z.mul_pos_pos; assumption).
  rewrite (loop_up_ups 0 len bstep Hb).
  rewrite (nest_some _ _ _ (fun B => filter (fun i => i <? len) (zrange B (B + bstep)))).
  - f_equal. apply tiled_up_1, Hb.
  - intros B _. rewrite (loop_up_ups B (B + bstep) sti Hti).
    rewrite (nest_some _ _ _ (fun t => filter (fun i => i <? len) (zrange t (t + sti)))).
    + f_equal. rewrite <- filter_flat_map. f_equal. apply (tile_rows_exact sti Hti T (Z.lt_le_incl _ _ HT)).
    + intros t _. rewrite (loop_up_ups t (t + sti) 1 Z.lt_0_1), ups_1. reflexivity.
Qed.

(* the rounded-up quotient (n + d - 1) / d of C++ *)
Lemma ceil_quot : forall n d, 0 <= n -> 0 < d -> n <= d * Z.quot (n + d - 1) d.
Proof.
  intros n d Hn Hd. rewrite Z.quot_div_nonneg by lia.
  pose proof (Z.mul_succ_div_gt (n + d - 1) d Hd). lia.
Qed.

Lemma ceil_quot_pos : forall n d, 0 < n -> 0 < d -> 0 < Z.quot (n + d - 1) d.
Proof.
  intros n d Hn Hd. apply (Z.mul_pos_cancel_l d _ Hd).
  apply (Z.lt_le_trans _ n); [assumption | apply ceil_quot; [apply Z.lt_le_incl, Hn | assumption]].
Qed.

Lemma clamp_pos : forall t n, 0 < n -> 0 < Z.min (Z.max 1 t) n.
Proof.
  intros t n Hn. apply Z.min_glb_lt; [|exact Hn].
  apply (Z.lt_le_trans _ 1); [exact Z.lt_0_1 | apply Z.le_max_l].
Qed.

Lemma safe_tile_pos : forall len ts ti, 0 < len ->
  exists sts sti, safe_tile len ts ti = Ok (sts, sti) /\ 0 < sts /\ 0 < sti.
Proof.
  intros len ts ti Hlen. unfold safe_tile, cdiv.
  set (sts := Z.min (Z.max 1 ts) len). assert (Hs : 0 < sts) by (apply clamp_pos, Hlen).
  rewrite (proj2 (Z.eqb_neq sts 0) (Z.neq_sym _ _ (Z.lt_neq _ _ Hs))).
  exists sts, (Z.min (Z.max 1 ti) (Z.quot (len + sts - 1) sts)). split; [reflexivity|]. split; [assumption|].
  apply clamp_pos, ceil_quot_pos; assumption.
Qed.

Lemma map_covers_all : forall ts ti len, 0 <= len -> map_engine fixed ts ti len = Ok (iota len).
Proof.
  intros ts ti len Hlen. unfold map_engine. cbn [v_empty_guard fixed andb].
  destruct (len =? 0) eqn:E.
  - apply Z.eqb_eq in E. subst. reflexivity.
  - apply Z.eqb_neq in E. destruct (safe_tile_pos len ts ti ltac:(lia)) as (sts & sti & -> & Hs & Hi).
    rewrite cpu_map_visits_fixed by assumption. rewrite iota_zrange. reflexivity.
Qed.

Lemma indexed_from_spec : forall xs a,
  indexed_from a xs = map (fun j => (a + Z.of_nat j, nth j xs 0)) (seq 0 (length xs)).
Proof.
  induction xs as [|x xs IH]; intros a; [reflexivity|].
  cbn [indexed_from length seq map nth]. f_equal; [f_equal; symmetry; apply Z.add_0_r|].
  rewrite IH, <- seq_shift, map_map. apply map_ext. intros j. cbn [nth].
  rewrite Nat2Z.inj_succ, <- Z.add_1_l, Z.add_assoc. reflexivity.
Qed.

Lemma indexed_spec : forall xs, indexed xs = map (fun i => (i, nthz xs i)) (iota (zlen xs)).
Proof.
  intros xs. unfold indexed, iota, zlen. rewrite indexed_from_spec, Nat2Z.id, map_map.
  apply map_ext. intros j. unfold nthz. rewrite Nat2Z.id. reflexivity.
Qed.

Lemma run_every_acc : forall (p : Z -> bool) l r,
  fold_left (fun r i => if p i then r else false) l r = r && forallb p l.
Proof.
  intros p. induction l as [|x l IH]; intros r; cbn [fold_left forallb]; [symmetry; apply andb_true_r|].
  rewrite IH. destruct (p x), r; reflexivity.
Qed.

Lemma every_iota : forall ts ti n p, 0 <= n -> m_every fixed ts ti n p = Ok (forallb p (iota n)).
Proof.
  intros ts ti n p Hn. unfold m_every. rewrite map_covers_all by assumption. cbn [res_map].
  unfold run_every. rewrite run_every_acc. reflexivity.
Qed.

Lemma last_match_first : forall (P : Z -> bool) l (r : Z),
  (forall x y, In x l -> In y l -> P x = true -> P y = true -> x = y) ->
  fold_left (fun r i => if P i then i else r) l r = match find P l with Some m => m | None => r end.
Proof.
  intros P. induction l as [|x l IH]; intros r Hu; [reflexivity|].
  cbn [fold_left find]. rewrite IH by (intros y z Hy Hz; apply Hu; right; assumption).
  destruct (P x) eqn:Ex; [|reflexivity].
  destruct (find P l) as [m|] eqn:Em; [|reflexivity].
  apply find_some in Em. destruct Em as [Hin Hm].
  apply Hu; [right; exact Hin | left; reflexivity | exact Hm | exact Ex].
Qed.

Lemma find_from_spec : forall (q : Z -> Z -> bool) xs a,
  find_from q a xs =
  match find (fun ix => q (snd ix) (fst ix)) (indexed_from a xs) with
  | Some ix => fst ix
  | None => -1
  end.
Proof.
  intros q. induction xs as [|x xs IH]; intros a; [reflexivity|].
  cbn [find_from indexed_from find fst snd]. destruct (q x a); [reflexivity|]. apply IH.
Qed.

Lemma s_findIndex_find : forall (q : Z -> Z -> bool) xs,
  s_findIndex q xs =
  match find (fun ix => q (snd ix) (fst ix)) (indexed xs) with Some ix => fst ix | None => -1 end.
Proof. intros q xs. apply find_from_spec. Qed.

Lemma findIndex_unique : forall ts ti xs (p : Z -> Z -> bool),
  (forall i j, 0 <= i < zlen xs -> 0 <= j < zlen xs ->
               p (nthz xs i) i = true -> p (nthz xs j) j = true -> i = j) ->
  m_findIndex fixed ts ti (zlen xs) (fun i => p (nthz xs i) i) = Ok (s_findIndex p xs).
Proof.
  intros ts ti xs p Hu. unfold m_findIndex. rewrite map_covers_all by apply Nat2Z.is_nonneg. cbn [res_map].
  f_equal. unfold run_findIndex. rewrite s_findIndex_find, indexed_spec, find_map. cbn [fst snd]. rewrite (last_match_first (fun i => p (nthz xs i) i)).
  - destruct (find _ (iota (zlen xs))); reflexivity.
  - intros i j Hi Hj. apply Hu; [apply iota_bounds, Hi | apply iota_bounds, Hj].
Qed.

Lemma run_find_nonneg : forall (p : Z -> bool) l (r : Z), (forall x, In x l -> 0 <= x) ->
  (0 <=? fold_left (fun r i => if p i then i else r) l r) = (0 <=? r) || existsb p l.
Proof.
  intros p. induction l as [|x l IH]; intros r H; cbn [fold_left existsb]; [rewrite orb_false_r; reflexivity|].
  rewrite IH by (intros y Hy; apply H; right; exact Hy).
  destruct (p x) eqn:E; cbn [orb].
  - assert (0 <= x) by (apply H; left; reflexivity).
    replace (0 <=? x) with true by (symmetry; apply Z.leb_le; assumption). rewrite orb_true_r. reflexivity.
  - reflexivity.
Qed.

Lemma some_iota : forall ts ti n p, 0 <= n -> m_some fixed ts ti n p = Ok (existsb p (iota n)).
Proof.
  intros ts ti n p Hn. unfold m_some, m_findIndex. rewrite map_covers_all by assumption. cbn [res_map].
  unfold run_findIndex. rewrite run_find_nonneg; [reflexivity|].
  intros x Hx. apply iota_bounds in Hx. apply Hx.
Qed.

Lemma upd_nth_app : forall l1 x l2 f n, n = length l1 -> upd_nth (l1 ++ x :: l2) n f = l1 ++ f x :: l2.
Proof.
  induction l1 as [|y l1 IH]; intros x l2 f n ->; cbn [app length upd_nth]; [reflexivity|].
  rewrite IH; reflexivity.
Qed.

(* a kernel that stores F i (old entry) at index i, run for i = 0 .. k-1 *)
Lemma upd_prefix : forall (F : Z -> Z -> Z) (out : list Z) (k : nat), (k <= length out)%nat ->
  fold_left (fun o i => upd_nth o (Z.to_nat i) (F i)) (iota (Z.of_nat k)) out
  = map (fun i => F i (nthz out i)) (iota (Z.of_nat k)) ++ skipn k out.
Proof.
  intros F out. induction k as [|k IH]; intros Hk; [reflexivity|].
  rewrite Nat2Z.inj_succ, iota_succ, fold_left_app, IH by (apply Nat2Z.is_nonneg || apply Nat.lt_le_incl, Hk).
  cbn [fold_left]. rewrite Nat2Z.id.
  rewrite (skipn_nth Z 0 out k Hk), upd_nth_app by (rewrite map_length, iota_length; symmetry; apply Nat2Z.id).
  rewrite map_app, <- app_assoc. cbn [map app]. unfold nthz. rewrite Nat2Z.id. reflexivity.
Qed.

Lemma counts_sequential : forall ts ti xs, m_counts fixed ts ti (zlen xs) = Ok (s_counts xs).
Proof.
  intros ts ti xs. unfold m_counts. rewrite map_covers_all by apply Nat2Z.is_nonneg. cbn [res_map].
  f_equal. unfold run_counts, zlen, s_counts. rewrite Nat2Z.id.
  rewrite upd_prefix, skipn_all2, app_nil_r by (rewrite repeat_length; apply Nat.le_refl).
  rewrite <- (map_nth_iota xs) at 2. rewrite map_map. apply map_ext. intros i.
  unfold nthz. rewrite nth_repeat. reflexivity.
Qed.

Lemma mapTo_iota : forall ts ti n g out, 0 <= n -> length out = Z.to_nat n ->
  m_mapTo fixed ts ti n g out = Ok (map g (iota n)).
Proof.
  intros ts ti n g out Hn Hout. unfold m_mapTo. rewrite map_covers_all by assumption. cbn [res_map].
  unfold run_mapTo. rewrite <- (Z2Nat.id n Hn), upd_prefix, skipn_all2, app_nil_r by lia. reflexivity.
Qed.

Lemma map_iota : forall ts ti n g junk, 0 <= n -> m_map fixed ts ti n g junk = Ok (map g (iota n)).
Proof. intros. apply mapTo_iota; [assumption|apply repeat_length]. Qed.

Lemma map_ops_sequential : forall ts ti xs (p : Z -> Z -> bool) (g : Z -> Z -> Z) (junk : Z) (out : list Z),
  length out = length xs ->
  m_every fixed ts ti (zlen xs) (fun i => p (nthz xs i) i) = Ok (s_every p xs) /\
  m_some fixed ts ti (zlen xs) (fun i => p (nthz xs i) i) = Ok (s_some p xs) /\
  m_counts fixed ts ti (zlen xs) = Ok (s_counts xs) /\
  m_map fixed ts ti (zlen xs) (fun i => g (nthz xs i) i) junk = Ok (s_map g xs) /\
  m_mapTo fixed ts ti (zlen xs) (fun i => g (nthz xs i) i) out = Ok (s_map g xs).
Proof.
  intros ts ti xs p g junk out Hout. assert (Hn : 0 <= zlen xs) by apply Nat2Z.is_nonneg.
  assert (Ho : length out = Z.to_nat (zlen xs)) by (unfold zlen; rewrite Nat2Z.id; exact Hout).
  unfold s_every, s_some, s_map. rewrite indexed_spec, forallb_map, existsb_map, map_map. cbn [fst snd].
  repeat split.
  - apply every_iota, Hn.
  - apply some_iota, Hn.
  - apply counts_sequential.
  - apply map_iota, Hn.
  - apply mapTo_iota; assumption.
Qed.

Lemma return_buffer_exact : forall rb elem count, 0 < elem ->
  rb_entries (setup_ret fixed rb elem count) = count.
Proof.
  intros rb elem count He. unfold setup_ret, rb_entries. cbn [v_ret_exact fixed].
  destruct (elem * count =? rb_bytes rb) eqn:E; cbn [negb rb_bytes rb_elem];
    [apply Z.eqb_eq in E; rewrite <- E|]; rewrite Z.mul_comm; apply Z.quot_mul, Z.neq_sym, Z.lt_neq, He.
Qed.

Lemma zrange_app_min : forall len x y, 0 <= x <= y ->
  zrange 0 (Z.min len x) ++ zrange x (Z.min len y) = zrange 0 (Z.min len y).
Proof.
  intros len x y H. destruct (Z_le_gt_dec x len) as [L|G].
  - rewrite (Z.min_r len x L). apply zrange_app; [apply H | apply Z.min_glb; [exact L | apply H]].
  - rewrite (zrange_nil x) by lia. rewrite app_nil_r. f_equal. lia.
Qed.

Lemma blocks_concat : forall len bs, 0 <= bs -> forall m, 0 <= m ->
  flat_map (fun k => zrange (k * bs) (Z.min len (k * bs + bs))) (iota m) = zrange 0 (Z.min len (m * bs)).
Proof.
  intros len bs Hbs. refine (natlike_ind _ _ _).
  - rewrite zrange_nil by apply Z.le_min_r. reflexivity.
  - intros m Hm IH. rewrite iota_succ, flat_map_app, IH by exact Hm. cbn [flat_map].
    rewrite app_nil_r, Z.mul_succ_l. apply zrange_app_min.
    pose proof (Z.mul_nonneg_nonneg _ _ Hm Hbs). lia.
Qed.

Lemma ltb_min : forall a b : Z, (if a <? b then a else b) = Z.min a b.
Proof.
  intros a b. destruct (Z.ltb_spec a b) as [H|H]; symmetry; [apply Z.min_l, Z.lt_le_incl, H | apply Z.min_r, H].
Qed.

Lemma omp_blocks_pos : 0 < omp_blocks.
Proof. reflexivity. Qed.

Lemma block_range_min : forall len k, let bs := Z.quot (len + omp_blocks - 1) omp_blocks in
  block_range len k = (k * bs, Z.min len (k * bs + bs)).
Proof. intros len k. unfold block_range. rewrite ltb_min. reflexivity. Qed.

Lemma blocks_cover : forall len, 0 <= len ->
  flat_map (fun k => zrange (fst (block_range len k)) (snd (block_range len k))) (iota omp_blocks) = iota len.
Proof.
  intros len Hlen. set (bs := Z.quot (len + omp_blocks - 1) omp_blocks).
  assert (Hbs : 0 <= bs) by (apply Z.quot_pos; [unfold omp_blocks; lia | exact omp_blocks_pos]).
  rewrite (flat_map_ext _ (fun k => zrange (k * bs) (Z.min len (k * bs + bs))))
    by (intros k; rewrite block_range_min; reflexivity).
  rewrite (blocks_concat len bs Hbs omp_blocks (Z.lt_le_incl _ _ omp_blocks_pos)), iota_zrange. f_equal.
  apply Z.min_l, (ceil_quot len omp_blocks Hlen omp_blocks_pos).
Qed.

(* f: the kernel's reduction function, op: hostReduction's operator.  The three hypotheses are what
   "op associative, init its identity" and "op associative, commutative and idempotent, init arbitrary"
   (init = occa_array_ptr[0]) have in common when f a i = op a (h i). *)
Section Fold.
  Context {A : Type}.
  Variables (f : A -> Z -> A) (op : A -> A -> A) (init : A).
  Hypothesis Hcomm_init : forall a, op init a = op a init.
  Hypothesis Hinit : op init init = init.
  Hypothesis Hcompat : forall a b i, f (op a b) i = op a (f b i).

  Lemma fold_compat : forall xs a b, fold_left f xs (op a b) = op a (fold_left f xs b).
  Proof. induction xs as [|x xs IH]; intros a b; [reflexivity|]. cbn [fold_left]. rewrite Hcompat. apply IH. Qed.

  Lemma absorbs_step : forall a i, op a init = a -> op (f a i) init = f a i.
  Proof. intros a i Ha. rewrite <- Hcomm_init, <- Hcompat, Hcomm_init, Ha. reflexivity. Qed.

  Lemma absorbs_fold : forall xs a, op a init = a -> op (fold_left f xs a) init = fold_left f xs a.
  Proof. induction xs as [|x xs IH]; intros a Ha; [exact Ha|]. cbn [fold_left]. apply IH, absorbs_step, Ha. Qed.

  Lemma blocks_fold : forall (bl : list (list Z)) a, op a init = a ->
    fold_left op (map (fun b => fold_left f b init) bl) a = fold_left f (concat bl) a.
  Proof.
    induction bl as [|b bl IH]; intros a Ha; [reflexivity|].
    cbn [map fold_left concat]. rewrite fold_left_app, <- (IH _ (absorbs_fold b a Ha)), <- fold_compat, Ha.
    reflexivity.
  Qed.

  Lemma host_blocks_fold : forall bl : list (list Z),
    host_reduce op (map (fun b => fold_left f b init) bl) init = fold_left f (concat bl) init.
  Proof.
    intros [|b0 bl]; [reflexivity|]. cbn [map host_reduce concat]. rewrite fold_left_app.
    apply blocks_fold, absorbs_fold, Hinit.
  Qed.

  Theorem cpu_reduce_fold : forall rb elem len stale, 0 <= len -> 0 < elem ->
    snd (cpu_reduce fixed rb elem f op init len stale) = fold_left f (iota len) init.
  Proof.
    intros rb elem len stale Hlen He. unfold cpu_reduce. cbn [snd].
    (* the buffer holds 128 entries: no stale ones are read *)
    rewrite return_buffer_exact by assumption. rewrite Z.sub_diag. cbn [Z.to_nat repeat]. rewrite app_nil_r.
    unfold cpu_reduce_blocks.
    erewrite map_ext.
    2:{ intros k. rewrite (surjective_pairing (block_range len k)). reflexivity. }
    rewrite <- (map_map (fun k => zrange (fst (block_range len k)) (snd (block_range len k)))
                        (fun b => fold_left f b init)).
    rewrite <- (blocks_cover len Hlen). rewrite flat_map_concat_map. apply host_blocks_fold.
  Qed.
End Fold.

Lemma reduce_blocks : forall (A : Type) (op : A -> A -> A) (h : Z -> A) (init : A),
  (forall a b c, op a (op b c) = op (op a b) c) ->
  (forall a, op a init = a) -> (forall a, op init a = a) ->
  forall rb elem len stale, 0 <= len -> 0 < elem ->
  snd (cpu_reduce fixed rb elem (fun a i => op a (h i)) op init len stale)
  = fold_left (fun a i => op a (h i)) (iota len) init.
Proof.
  intros A op h init Hassoc Hr Hl rb elem len stale. apply cpu_reduce_fold.
  - intros a. rewrite Hr, Hl. reflexivity.
  - apply Hr.
  - intros a b i. symmetry. apply Hassoc.
Qed.

(* the function array::indexOf reduces with (q: the entry is not the value sought) against Z.min *)
Lemma min_pick_compat : forall (q : bool) a b i,
  (if q || (Z.min a b <=? i) then Z.min a b else i) = Z.min a (if q || (b <=? i) then b else i).
Proof.
  intros q a b i. destruct q; cbn [orb]; [reflexivity|].
  destruct (Z.leb_spec b i) as [H|H].
  - rewrite (proj2 (Z.leb_le (Z.min a b) i) (Z.le_trans _ _ _ (Z.le_min_r a b) H)). reflexivity.
  - destruct (Z.leb_spec (Z.min a b) i); lia.
Qed.

Lemma s_reduce_iota : forall (A : Type) (f : A -> Z -> Z -> A) init xs,
  s_reduce f init xs = fold_left (fun a i => f a (nthz xs i) i) (iota (zlen xs)) init.
Proof.
  intros A f init xs. unfold s_reduce. rewrite indexed_spec.
  generalize (iota (zlen xs)). intros l. revert init.
  induction l as [|i l IH]; intros init; [reflexivity|]. cbn [map fold_left fst snd]. apply IH.
Qed.

(* variants that differ from the current code in one place *)
Definition no_tile_step : variant := mkVariant false true true true.
Definition no_empty_guard : variant := mkVariant true false true true.
Definition no_ret_exact : variant := mkVariant true true false true.
Definition no_step_abs : variant := mkVariant true true true false.

Lemma tile_iterations_gap_refuted :
  map_engine no_tile_step 2 2 10 = Ok [0; 1; 2; 3; 8; 9].
Proof. reflexivity. Qed.

Lemma empty_array_div_zero_refuted : forall ts ti, map_engine no_empty_guard ts ti 0 = Crash.
Proof.
  intros ts ti. unfold map_engine, safe_tile, cdiv. cbn [v_empty_guard no_empty_guard andb].
  replace (Z.min (Z.max 1 ts) 0) with 0 by lia. reflexivity.
Qed.
