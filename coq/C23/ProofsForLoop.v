(* C23 — forLoop: the emitted nest (ranges of both directions, index arrays, @tile) runs the body
   once per tuple of the product of its iterations' values. *)
From Coq Require Import List ZArith Bool Lia.
From OV.C23 Require Import Model Spec Menu ProofsLoops.
Import ListNotations.
Local Open Scope Z_scope.

Definition wf_iter (it : iter) : Prop :=
  match it with
  | IRange r t => r_step r <> 0 /\ 0 <= t
  | IArray _ t => 0 <= t
  end.

Lemma range_loop_values_fixed : forall r t, r_step r <> 0 -> 0 <= t ->
  range_loop_values fixed r t = Some (s_range_values (r_start r) (r_end r) (r_step r)).
Proof.
  intros [s e st] t Hst Ht. cbn [r_start r_end r_step] in *. unfold range_loop_values.
  cbn [r_start r_end r_step v_step_abs v_tile_step fixed].
  destruct (Z.lt_trichotomy st 0) as [N|[E|P]]; [|contradiction|].
  - apply Z.opp_pos_neg in N as P.
    rewrite (proj2 (Z.ltb_ge 0 st) (Z.lt_le_incl _ _ N)), (Z.abs_neq st (Z.lt_le_incl _ _ N)).
    rewrite s_range_values_down by assumption.
    destruct (Z.eqb_spec t 0) as [E|E]; [apply loop_down_downs, P | apply tiled_loop_down; [exact P | lia]].
  - rewrite (proj2 (Z.ltb_lt 0 st) P), (Z.abs_eq st (Z.lt_le_incl _ _ P)).
    rewrite s_range_values_up by assumption.
    destruct (Z.eqb_spec t 0) as [E|E]; [apply loop_up_ups, P | apply tiled_loop_up; [exact P | lia]].
Qed.

Lemma index_loop_values_fixed : forall idx t, 0 <= t -> index_loop_values idx t = Some idx.
Proof.
  intros idx t Ht. unfold index_loop_values. cbv zeta. set (n := Z.of_nat (length idx)).
  destruct (Z.eqb_spec t 0) as [E|E];
    [rewrite loop_up_ups, ups_1 by exact Z.lt_0_1 | rewrite (tiled_loop_up_1 n t ltac:(lia) 0)];
    rewrite <- iota_zrange; f_equal; apply map_nth_iota.
Qed.

Lemma iter_values_fixed : forall it, wf_iter it -> iter_values fixed it = Some (spec_iter_values it).
Proof.
  intros [r t|idx t] H; cbn [iter_values spec_iter_values wf_iter] in *.
  - destruct H as [H1 H2]. apply range_loop_values_fixed; assumption.
  - apply index_loop_values_fixed. exact H.
Qed.

Lemma all_some_fixed : forall its, Forall wf_iter its ->
  all_some (map (iter_values fixed) its) = Some (map spec_iter_values its).
Proof.
  induction its as [|it its IH]; intros H; [reflexivity|].
  apply Forall_cons_iff in H. destruct H as [H1 H2]. cbn [map all_some].
  rewrite (iter_values_fixed it H1), (IH H2). reflexivity.
Qed.

Lemma nest_tuples_spec : forall ls, nest_tuples ls = s_tuples ls.
Proof.
  induction ls as [|l ls IH]; [reflexivity|]. cbn [nest_tuples s_tuples].
  apply flat_map_ext. intros x. rewrite IH. reflexivity.
Qed.

Theorem forloop_tuples_fixed : forall outer inner, Forall wf_iter (outer ++ inner) ->
  forloop_tuples fixed outer inner = Ok (spec_forloop outer inner).
Proof.
  intros outer inner H. unfold forloop_tuples, spec_forloop.
  rewrite all_some_fixed by assumption. rewrite nest_tuples_spec. reflexivity.
Qed.

Definition tuple_eq_dec : forall a b : list Z, {a = b} + {a <> b} := list_eq_dec Z.eq_dec.

Lemma count_occ_other_head : forall (x : Z) (L : list (list Z)) u, (forall t, u <> x :: t) ->
  count_occ tuple_eq_dec (map (cons x) L) u = 0%nat.
Proof.
  intros x L u H. apply count_occ_not_In. intros Hin. apply in_map_iff in Hin.
  destruct Hin as (t & E & _). exact (H t (eq_sym E)).
Qed.

Lemma count_occ_map_cons : forall (x : Z) (L : list (list Z)) y t,
  count_occ tuple_eq_dec (map (cons x) L) (y :: t) = if Z.eq_dec x y then count_occ tuple_eq_dec L t else 0%nat.
Proof.
  intros x L y t. destruct (Z.eq_dec x y) as [<-|Ne].
  - symmetry. apply (count_occ_map (cons x)). intros u v E. injection E as E. exact E.
  - apply count_occ_other_head. intros t' E. injection E as E _. exact (Ne (eq_sym E)).
Qed.

Lemma count_occ_rows : forall (L : list (list Z)) l u,
  count_occ tuple_eq_dec (flat_map (fun x => map (cons x) L) l) u =
  match u with [] => 0%nat | y :: t => (count_occ Z.eq_dec l y * count_occ tuple_eq_dec L t)%nat end.
Proof.
  intros L. induction l as [|x l IH]; intros u; [destruct u; reflexivity|].
  cbn [flat_map]. rewrite count_occ_app, IH. destruct u as [|y t].
  - rewrite count_occ_other_head by discriminate. reflexivity.
  - rewrite count_occ_map_cons. cbn [count_occ]. destruct (Z.eq_dec x y); reflexivity.
Qed.

Theorem tuples_count : forall ls t, count_occ tuple_eq_dec (s_tuples ls) t = count_tuple t ls.
Proof.
  induction ls as [|l ls IH]; intros t.
  - cbn [s_tuples count_occ]. destruct t as [|y t'].
    + destruct (tuple_eq_dec [] []); [reflexivity|contradiction].
    + destruct (tuple_eq_dec [] (y :: t')); [discriminate|reflexivity].
  - cbn [s_tuples]. rewrite count_occ_rows. destruct t as [|y t']; [reflexivity|].
    cbn [count_tuple]. rewrite IH. reflexivity.
Qed.
