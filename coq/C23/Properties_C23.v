(* C23 — functional arrays, ranges and forLoop match sequential semantics: the statements.
   Vocabulary: Model.v, Spec.v, Menu.v (nthz, zlen); the variants
   Proofs.no_*, ProofsForLoop.wf_iter (non-zero step, tile >= 0) and ProofsForLoop.tuple_eq_dec are
   defined in the proof files.  Menu.v's case language (model_aop / spec_aop, model_rop / spec_rop)
   is compared operation by operation by the tie only; no theorem here speaks of it.
   The proofs are in Proofs*.v; this file states, derives, prints assumptions and evaluates the witnesses.
   `fixed` is the code with fixes/C18-1 and fixes/C23-1..3 applied (the code modelled as current);
   Proofs.no_tile_step / no_empty_guard / no_ret_exact / no_step_abs differ from it in the one
   place the respective patch changes.  The theorems range_length and forloop_tuples bear the names
   of Model.range_length and Model.forloop_tuples, which are written qualified after them. *)
From Coq Require Import List ZArith Bool.
From OV.C23 Require Import Model Spec Menu.
From OV.C23 Require Proofs ProofsLoops ProofsForLoop.
Import ListNotations.
Local Open Scope Z_scope.

(* For every length, every tileSize and tileIterations member (unset = -1, zero, negative, larger
   than the array, ...) the CPU map template after the @tile expansion runs its body for the
   indices 0, 1, ..., len-1: each exactly once, in this order on Serial; no division by zero and
   every loop terminates. *)
Theorem map_covers_all : forall ts ti len, 0 <= len ->
  map_engine fixed ts ti len = Ok (iota len).
Proof. exact Proofs.map_covers_all. Qed.
Print Assumptions map_covers_all.

(* Hence every / some / forEach / map / mapTo return what std::all_of / any_of / for_each /
   transform return, for every user function p, g of (value, index) (closures capture the array),
   whatever the fresh output memory holds (junk) or the output array held before (out). *)
Theorem map_ops_sequential :
  forall ts ti xs (p : Z -> Z -> bool) (g : Z -> Z -> Z) (junk : Z) (out : list Z),
  length out = length xs ->
  m_every fixed ts ti (zlen xs) (fun i => p (nthz xs i) i) = Ok (s_every p xs) /\
  m_some fixed ts ti (zlen xs) (fun i => p (nthz xs i) i) = Ok (s_some p xs) /\
  m_counts fixed ts ti (zlen xs) = Ok (s_counts xs) /\
  m_map fixed ts ti (zlen xs) (fun i => g (nthz xs i) i) junk = Ok (s_map g xs) /\
  m_mapTo fixed ts ti (zlen xs) (fun i => g (nthz xs i) i) out = Ok (s_map g xs).
Proof. exact Proofs.map_ops_sequential. Qed.
Print Assumptions map_ops_sequential.

(* findIndex.  Full statement (std::find_if returns the FIRST match):
     forall ts ti xs p, m_findIndex fixed ts ti (zlen xs) (fun i => p (nthz xs i) i)
                        = Ok (s_findIndex p xs)
   It is false (findindex_last_refuted, known finding findindex_several_matches): the kernel stores
   every matching index into one cell, so Serial returns the last match.  What holds is the
   statement restricted to arrays with at most one matching index. *)
Theorem findindex_first_partial : forall ts ti xs (p : Z -> Z -> bool),
  (forall i j, 0 <= i < zlen xs -> 0 <= j < zlen xs ->
               p (nthz xs i) i = true -> p (nthz xs j) j = true -> i = j) ->
  m_findIndex fixed ts ti (zlen xs) (fun i => p (nthz xs i) i) = Ok (s_findIndex p xs).
Proof. exact Proofs.findIndex_unique. Qed.
Print Assumptions findindex_first_partial.

Theorem findindex_last_refuted :
  m_findIndex fixed (-1) (-1) 3 (fun i => nthz [1; 1; 1] i =? 1) = Ok 2 /\
  s_findIndex (fun x _ => x =? 1) [1; 1; 1] = 0.
Proof. split; reflexivity. Qed.
Print Assumptions findindex_last_refuted.

(* the pinned @tile inner bound (xT + TILE): setTileSize(2, 2) on 10 entries skips 4..7 *)
Theorem tile_iterations_gap_refuted :
  map_engine Proofs.no_tile_step 2 2 10 = Ok [0; 1; 2; 3; 8; 9].
Proof. exact Proofs.tile_iterations_gap_refuted. Qed.
Print Assumptions tile_iterations_gap_refuted.

(* without the early return for empty arrays: safeTileSize = min(max(1, ts), 0) = 0 divides *)
Theorem empty_array_div_zero_refuted : forall ts ti,
  map_engine Proofs.no_empty_guard ts ti 0 = Crash.
Proof. exact Proofs.empty_array_div_zero_refuted. Qed.
Print Assumptions empty_array_div_zero_refuted.

(* The 128 block accumulators followed by hostReduction equal the sequential fold
   std::accumulate(first, last, init, f), for every earlier use of the return buffer (rb), every
   sizeof(T2) and whatever old entries of the buffer hold (stale), when op is associative, init is
   its identity and f combines the accumulator with a function of the index (of the element).
   (Commutativity is not needed: blocks are contiguous and combined in order.) *)
Theorem reduce_blocks : forall (A : Type) (op : A -> A -> A) (h : Z -> A) (init : A),
  (forall a b c, op a (op b c) = op (op a b) c) ->
  (forall a, op a init = a) -> (forall a, op init a = a) ->
  forall rb elem len stale, 0 <= len -> 0 < elem ->
  snd (cpu_reduce fixed rb elem (fun a i => op a (h i)) op init len stale)
  = fold_left (fun a i => op a (h i)) (iota len) init.
Proof. exact Proofs.reduce_blocks. Qed.
Print Assumptions reduce_blocks.

(* the same for ANY initial value when op is associative, commutative and idempotent (bitOr,
   bitAnd, boolOr, boolAnd, min, max; covers the init `occa_array_ptr[0]` / `occa_range_start`) *)
Theorem reduce_blocks_idem : forall (A : Type) (op : A -> A -> A) (h : Z -> A) (init : A),
  (forall a b c, op a (op b c) = op (op a b) c) ->
  (forall a b, op a b = op b a) -> (forall a, op a a = a) ->
  forall rb elem len stale, 0 <= len -> 0 < elem ->
  snd (cpu_reduce fixed rb elem (fun a i => op a (h i)) op init len stale)
  = fold_left (fun a i => op a (h i)) (iota len) init.
Proof.
  intros A op h init Hassoc Hcomm Hidem rb elem len stale. apply Proofs.cpu_reduce_fold.
  - intros a. apply Hcomm.
  - apply Hidem.
  - intros a b i. symmetry. apply Hassoc.
Qed.
Print Assumptions reduce_blocks_idem.

(* the general form: custom functions f that are compatible with op *)
Theorem reduce_blocks_compat : forall (A : Type) (f : A -> Z -> A) (op : A -> A -> A) (init : A),
  (forall a, op init a = op a init) -> op init init = init ->
  (forall a b i, f (op a b) i = op a (f b i)) ->
  forall rb elem len stale, 0 <= len -> 0 < elem ->
  snd (cpu_reduce fixed rb elem f op init len stale) = fold_left f (iota len) init.
Proof. intros A f op init H1 H2 H3 rb elem len stale. apply Proofs.cpu_reduce_fold; assumption. Qed.
Print Assumptions reduce_blocks_compat.

(* instances over lists: sum, max() and min() in their Z.max / Z.min form, and the function
   array::indexOf passes (its element size is the 4 of int) *)
Theorem reduce_instances : forall xs c rb elem stale, 0 < elem ->
  snd (cpu_reduce fixed rb elem (fun a i => a + nthz xs i) Z.add 0 (zlen xs) stale)
    = s_reduce (fun a x _ => a + x) 0 xs /\
  snd (cpu_reduce fixed rb elem (fun a i => Z.max a (nthz xs i)) Z.max (nthz xs 0) (zlen xs) stale)
    = s_reduce (fun a x _ => Z.max a x) (nthz xs 0) xs /\
  snd (cpu_reduce fixed rb elem (fun a i => Z.min a (nthz xs i)) Z.min (nthz xs 0) (zlen xs) stale)
    = s_reduce (fun a x _ => Z.min a x) (nthz xs 0) xs /\
  snd (cpu_reduce fixed rb 4
         (fun acc i => if negb (nthz xs i =? c) || (acc <=? i) then acc else i)
         Z.min (zlen xs) (zlen xs) stale)
    = s_reduce (fun acc x i => if negb (x =? c) || (acc <=? i) then acc else i) (zlen xs) xs.
Proof.
  intros xs c rb elem stale He. repeat split; rewrite Proofs.s_reduce_iota.
  - apply (reduce_blocks Z Z.add (nthz xs) 0);
      [exact Z.add_assoc | exact Z.add_0_r | exact Z.add_0_l | apply Nat2Z.is_nonneg | exact He].
  - apply (reduce_blocks_idem Z Z.max (nthz xs) (nthz xs 0));
      [exact Z.max_assoc | exact Z.max_comm | exact Z.max_id | apply Nat2Z.is_nonneg | exact He].
  - apply (reduce_blocks_idem Z Z.min (nthz xs) (nthz xs 0));
      [exact Z.min_assoc | exact Z.min_comm | exact Z.min_id | apply Nat2Z.is_nonneg | exact He].
  - apply Proofs.cpu_reduce_fold; [intros a; apply Z.min_comm | apply Z.min_id | | apply Nat2Z.is_nonneg | reflexivity].
    intros a b i. apply Proofs.min_pick_compat.
Qed.
Print Assumptions reduce_instances.

(* hostReduction reads every entry of the return buffer: it holds exactly the requested entries *)
Theorem return_buffer_exact : forall rb elem count, 0 < elem ->
  rb_entries (setup_ret fixed rb elem count) = count.
Proof. exact Proofs.return_buffer_exact. Qed.
Print Assumptions return_buffer_exact.

(* pinned `bytes > returnMemory.size()`: after a.max() (128 ints) a.reduce<bool>(boolOr, ...)
   keeps the buffer, reads 512 entries, and a non-zero old byte makes the result true *)
Theorem stale_return_buffer_refuted :
  let xs := [100; 101; 102] in
  let f := fun (a : Z) (i : Z) => b2z (nz a || (nthz xs i =? 5)) in
  let rb1 := fst (cpu_reduce Proofs.no_ret_exact rb_none 4 (fun a i => Z.max a (nthz xs i)) Z.max 100 3 0) in
  rb_entries (setup_ret Proofs.no_ret_exact rb1 1 omp_blocks) = 512 /\
  snd (cpu_reduce Proofs.no_ret_exact rb1 1 f (host_op KLor) 0 3 100) = 1 /\
  fold_left f (iota 3) 0 = 0.
Proof. repeat split; vm_compute; reflexivity. Qed.
Print Assumptions stale_return_buffer_refuted.

(* a localInit that is not an identity is applied once per block: known finding
   reduce_nonidentity_init (std::accumulate(.., 5, +) over 1 2 3 is 11) *)
Theorem reduce_nonidentity_init_refuted :
  snd (cpu_reduce fixed rb_none 8 (fun a i => a + nthz [1; 2; 3] i) Z.add 5 3 0) = 646 /\
  s_reduce (fun a x _ => a + x) 5 [1; 2; 3] = 11.
Proof. split; vm_compute; reflexivity. Qed.
Print Assumptions reduce_nonidentity_init_refuted.

(* range::length and the kernels' index -> value map enumerate exactly the values of
   for (x = start; step > 0 ? x < end : x > end; x += step), in order, for steps of both signs *)
Theorem range_length : forall s e st, st <> 0 ->
  map (range_value (mkRange s e st)) (iota (range_length (mkRange s e st))) = s_range_values s e st.
Proof. exact ProofsLoops.range_length_values. Qed.
Print Assumptions range_length.

(* the three constructors never store step 0 *)
Theorem range_ctor_step : forall a b c,
  r_step (range1 a) <> 0 /\ r_step (range2 a b) <> 0 /\ r_step (range3 a b c) <> 0.
Proof. exact ProofsLoops.range_ctor_step. Qed.
Print Assumptions range_ctor_step.

(* hence length, every, some and map of a range equal the list functions over the values of the
   sequential loop (findIndex and reduce on ranges have no theorem of their own) *)
Theorem range_ops_sequential :
  forall s e st ts ti (p : Z -> bool) (g : Z -> Z) (junk : Z), st <> 0 ->
  let r := mkRange s e st in
  let xs := s_range_values s e st in
  Model.range_length r = zlen xs /\
  m_every fixed ts ti (Model.range_length r) (fun i => p (range_value r i)) = Ok (forallb p xs) /\
  m_some fixed ts ti (Model.range_length r) (fun i => p (range_value r i)) = Ok (existsb p xs) /\
  m_map fixed ts ti (Model.range_length r) (fun i => g (range_value r i)) junk = Ok (map g xs).
Proof.
  intros s e st ts ti p g junk Hst. cbv zeta.
  pose proof (ProofsLoops.range_length_nonneg s e st Hst) as Hn.
  rewrite Proofs.every_iota, Proofs.some_iota, Proofs.map_iota by exact Hn.
  rewrite <- (ProofsLoops.range_length_values s e st Hst), Proofs.forallb_map, Proofs.existsb_map, map_map.
  unfold zlen. rewrite map_length, ProofsLoops.iota_length, Z2Nat.id by exact Hn. auto.
Qed.
Print Assumptions range_ops_sequential.

(* For every list of outer and inner iterations (ranges with a non-zero step, index arrays with
   arbitrary entries, each untiled (0) or tiled with a positive size) the emitted nest terminates
   and runs OCCA_LOOP_FUNCTION for the tuples of the cartesian product of the iterations' values,
   in lexicographic order *)
Theorem forloop_tuples : forall outer inner,
  Forall ProofsForLoop.wf_iter (outer ++ inner) ->
  Model.forloop_tuples fixed outer inner = Ok (spec_forloop outer inner).
Proof. exact ProofsForLoop.forloop_tuples_fixed. Qed.
Print Assumptions forloop_tuples.

(* the product contains every tuple as often as its components occur in the iterations: exactly
   once per index tuple when no iteration repeats a value, never for a tuple outside the product *)
Theorem forloop_body_count : forall ls t,
  count_occ ProofsForLoop.tuple_eq_dec (s_tuples ls) t = count_tuple t ls.
Proof. exact ProofsForLoop.tuples_count. Qed.
Print Assumptions forloop_body_count.

(* pinned `X -= step` with the signed step: a range that counts down never reaches its end *)
Theorem forloop_negative_step_refuted :
  Model.forloop_tuples Proofs.no_step_abs [IRange (range3 10 0 (-2)) 0] [] = Diverge /\
  spec_forloop [IRange (range3 10 0 (-2)) 0] [] = [[10]; [8]; [6]; [4]; [2]].
Proof. split; vm_compute; reflexivity. Qed.
Print Assumptions forloop_negative_step_refuted.

(* pinned @tile inner bound on a stepped range: tile({range(0, 20, 2), 4}) *)
Theorem forloop_tile_step_refuted :
  Model.forloop_tuples Proofs.no_tile_step [IRange (range3 0 20 2) 4] [] = Ok [[0]; [2]; [8]; [10]; [16]; [18]] /\
  spec_forloop [IRange (range3 0 20 2) 4] [] = [[0]; [2]; [4]; [6]; [8]; [10]; [12]; [14]; [16]; [18]].
Proof. split; vm_compute; reflexivity. Qed.
Print Assumptions forloop_tile_step_refuted.

(* 67 entries, setTileSize(4, 3): blocks of 36 indices, the last one cut at 67 *)
Example ex_map_67 : map_engine fixed 4 3 67 = Ok (iota 67).
Proof. vm_compute. reflexivity. Qed.

(* the tile setting is clamped: tile size 1000 on 5 entries *)
Example ex_clamp : safe_tile 5 1000 7 = Ok (5, 1) /\ safe_tile 10 3 9 = Ok (3, 4) /\ safe_tile 10 (-1) (-1) = Ok (1, 1).
Proof. repeat split. Qed.

(* 300 entries: blocks of 3, blocks 100..127 are empty *)
Example ex_blocks : block_range 300 0 = (0, 3) /\ block_range 300 99 = (297, 300) /\ block_range 300 127 = (381, 300).
Proof. repeat split. Qed.

Example ex_sum_300 :
  snd (cpu_reduce fixed rb_none 8 (fun a i => a + i * i) Z.add 0 300 0) = fold_left (fun a i => a + i * i) (iota 300) 0.
Proof. vm_compute. reflexivity. Qed.

Example ex_range :
  Model.range_length (range3 10 0 (-3)) = 4 /\ s_range_values 10 0 (-3) = [10; 7; 4; 1] /\
  Model.range_length (range3 (-7) 8 4) = 4 /\ s_range_values (-7) 8 4 = [-7; -3; 1; 5] /\
  Model.range_length (range2 3 (-3)) = 6 /\ Model.range_length (range3 0 10 (-1)) = 0.
Proof. repeat split. Qed.

(* two outer iterations (one tiled, counting down) and an index array with a repeated entry *)
Example ex_forloop :
  Model.forloop_tuples fixed [IRange (range3 9 0 (-4)) 2; IArray [5; 5] 0] [IRange (range1 2) 0]
  = Ok [[9; 5; 0]; [9; 5; 1]; [9; 5; 0]; [9; 5; 1]; [5; 5; 0]; [5; 5; 1]; [5; 5; 0]; [5; 5; 1];
        [1; 5; 0]; [1; 5; 1]; [1; 5; 0]; [1; 5; 1]] /\
  count_tuple [5; 5; 1] [[9; 5; 1]; [5; 5]; [0; 1]] = 2%nat.
Proof. split; vm_compute; reflexivity. Qed.
