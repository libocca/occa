(* oklForStatement (repaired source) decides exactly the header rule. *)
From Coq Require Import List Bool Arith ZArith Lia.
From OV.C22 Require Import Model Spec.
Import ListNotations.
Local Open Scope Z_scope.

Lemma quot_ceil_pos : forall c s, 0 < s -> (0 <? Z.quot (c + s - 1) s) = (0 <? c).
Proof.
  intros c s Hs. destruct (Z.ltb_spec 0 c) as [Hc|Hc].
  - apply Z.ltb_lt, Z.quot_str_pos. lia.
  - apply Z.ltb_ge. rewrite <- (Z.quot_small (s - 1) s) by lia. apply Z.quot_le_mono; lia.
Qed.

(* the checker's fourth test, in the words of header_ok *)
Definition range_ok (h : header) : bool :=
  match init_val h, bound_val h, h_update h with
  | Some a, Some b, UBin _ _ None => true
  | Some a, Some b, _ => 0 <? span h a b
  | _, _, _ => true
  end.

Lemma valid_update_fixed : forall h,
  valid_update fixed h
  = match h_update h with
    | UUnary _ UInc true => true
    | UUnary _ UDec true => true
    | UBin BAddEq SLeft st | UBin BSubEq SLeft st =>
      match st with Some s => 0 <? s | None => true end
    | _ => false
    end.
Proof.
  intros h. unfold valid_update. destruct (h_update h) as [| |l [] []|[] [] st]; reflexivity.
Qed.

Lemma header_ok_eq : forall h,
  header_ok h = valid_init h && valid_check h && valid_update fixed h && range_ok h.
Proof.
  intros h. rewrite valid_update_fixed.
  unfold header_ok, valid_init, valid_check, range_ok, init_val, bound_val.
  destruct (h_init h) as [| |[|n] [] [] a]; try reflexivity.
  destruct (h_check h) as [| |op it b]; try reflexivity.
  destruct (cmp_ok op), it; reflexivity.
Qed.

Lemma range_check_fixed : forall h,
  valid_update fixed h = true -> range_check h = Some (range_ok h).
Proof.
  intros h. rewrite valid_update_fixed. unfold range_check, range_ok. intros Hu.
  destruct (init_val h) as [a|], (bound_val h) as [b|]; try reflexivity.
  replace (if inclusive h then 1 + _ else _) with (span h a b)
    by (unfold span; destruct (inclusive h); lia).
  destruct (h_update h) as [| | |bo sd [s|]]; try reflexivity.
  assert (Hs : 0 < s) by (destruct bo, sd; try discriminate; now apply Z.ltb_lt).
  replace (s =? 0) with false by (symmetry; apply Z.eqb_neq; lia).
  now rewrite quot_ceil_pos.
Qed.

Lemma hdr_valid_fixed : forall o i h,
  hdr_valid fixed o i h = Some (negb (o && i) && header_ok h).
Proof.
  intros o i h. unfold hdr_valid. cbn [fixed v_both_attrs_accepted negb]. rewrite andb_true_r.
  destruct (o && i); [reflexivity|]. rewrite header_ok_eq.
  destruct (valid_init h && valid_check h); [|reflexivity].
  destruct (valid_update fixed h) eqn:Hu; [|reflexivity].
  now apply range_check_fixed.
Qed.

Lemma hdr_valid_fixed_total : forall o i h, hdr_valid fixed o i h <> None.
Proof. intros. rewrite hdr_valid_fixed. discriminate. Qed.
