(* C22 — every backend enforces the same OKL rules: the statements.
   Vocabulary: Model.v (okl::kernelIsValid and oklForStatement transcribed over an abstract kernel
   tree; `fixed` = the source with fixes/C22-1..5 and C22-7 applied, `pinned` = the source as found),
   Spec.v (the rules written structurally: Rules, rules_b), Statements.v (quirk_free).
   The proofs of the universally quantified statements are in Proofs*.v and cited here; the witnesses
   and examples are evaluated here.
   That the seven translators call this checker is the differential tie of props/C22.py. *)
From Coq Require Import List Bool ZArith.
From OV.C22 Require Import Model Spec Statements.
From OV.C22 Require Proofs.
Import ListNotations.

(* For every kernel tree (any nesting of for / if / else / while / switch / block, @outer and @inner
   anywhere, any @shared / @exclusive / break / continue placement, any loop header shape, any return
   type) the checker of the repaired source accepts exactly the kernels that follow the rules:
   void return type; at least one @outer and one @inner loop; every OKL loop carries one attribute
   and has a valid header; under each outermost OKL loop every maximal OKL loop path is
   outer^a inner^b with the same a, b >= 1 (no @inner outside @outer, no @outer inside @inner, no
   mismatch across branches) and at most 3 of each (the launch grid has 3 dimensions);
   @shared / @exclusive declared inside @outer and outside @inner,
   @shared an array with constant extents, both used only inside @inner; no break / continue whose
   target is an OKL loop. *)
Theorem checker_iff_rules : forall k : kernel,
  kernelIsValid fixed k = Some true <-> Rules k.
Proof. exact Proofs.checker_iff_rules. Qed.
Print Assumptions checker_iff_rules.

(* ... and rejects with an error (it never dies) exactly the others. *)
Theorem checker_rejects_iff : forall k : kernel,
  kernelIsValid fixed k = Some false <-> ~ Rules k.
Proof. exact Proofs.checker_rejects_iff. Qed.
Print Assumptions checker_rejects_iff.

Theorem checker_total : forall k : kernel, kernelIsValid fixed k <> None.
Proof. exact Proofs.checker_total. Qed.
Print Assumptions checker_total.

(* A translation unit (kernelsAreValid): at least one kernel, and every kernel follows the rules. *)
Theorem translation_unit_iff_rules : forall ks : list kernel,
  kernelsAreValid fixed ks = Some true <-> (ks <> [] /\ forall k, In k ks -> Rules k).
Proof. exact Proofs.translation_unit_iff_rules. Qed.
Print Assumptions translation_unit_iff_rules.

(* The executable oracle used by the differential run is the proposition Rules. *)
Theorem oracle_is_rules : forall k : kernel, rules_b k = true <-> Rules k.
Proof. exact Proofs.rules_b_iff. Qed.
Print Assumptions oracle_is_rules.

(* The checker as pinned in /repo (and every partially repaired variant v).  The full statement
     forall k, kernelIsValid pinned k = Some true <-> Rules k
   is false (the *_refuted theorems below); it holds for the kernels that avoid the defects:
   no `void *` return type, no OKL loop with both attributes, with `n += it` as update or with a
   constant step <= 0, at most 3 nested @outer / @inner loops, and no continue that reaches an OKL
   loop through a switch. *)
Theorem checker_iff_rules_pinned_partial : forall (v : variant) (k : kernel),
  quirk_free k -> (kernelIsValid v k = Some true <-> Rules k).
Proof. exact Proofs.checker_iff_rules_pinned_partial. Qed.
Print Assumptions checker_iff_rules_pinned_partial.

(* for (int it = 0; it < 4; ++it) *)
Definition hdr0 : header :=
  mkHeader (IDecl 0 true TyInt (Some 0%Z)) (CBin CLt SLeft (Some 4%Z)) (UUnary true UInc true).
Definition outer_ (body : list stmt) : stmt := Node (KFor true false hdr0) body.
Definition inner_ (body : list stmt) : stmt := Node (KFor false true hdr0) body.
Definition inner_h (h : header) (body : list stmt) : stmt := Node (KFor false true h) body.
Definition other : stmt := Node KOther [].

Ltac refute w :=
  exists w; split;
  [ vm_compute; reflexivity
  | let H := fresh "H" in
    intro H; apply Proofs.rules_b_iff in H; vm_compute in H; discriminate H ].

(* @outer { @inner { switch { continue; } } }: the continue restarts the @inner loop *)
Theorem continue_in_switch_refuted :
  exists k, kernelIsValid pinned k = Some true /\ ~ Rules k.
Proof. refute (mkKernel RVoid [outer_ [inner_ [Node KSwitch [Node KContinue []]]]]). Qed.
Print Assumptions continue_in_switch_refuted.

(* for (...; @outer @inner) { @inner { } } *)
Theorem both_attributes_refuted :
  exists k, kernelIsValid pinned k = Some true /\ ~ Rules k.
Proof. refute (mkKernel RVoid [Node (KFor true true hdr0) [inner_ [other]]]). Qed.
Print Assumptions both_attributes_refuted.

(* @kernel void *k(...) *)
Theorem void_pointer_return_refuted :
  exists k, kernelIsValid pinned k = Some true /\ ~ Rules k.
Proof. refute (mkKernel RVoidPtr [outer_ [inner_ [other]]]). Qed.
Print Assumptions void_pointer_return_refuted.

(* for (int it = 0; it < n; n += it; @inner) *)
Theorem update_rhs_iterator_refuted :
  exists k, kernelIsValid pinned k = Some true /\ ~ Rules k.
Proof.
  refute (mkKernel RVoid [outer_ [inner_h (mkHeader (IDecl 0 true TyInt (Some 0%Z))
                                            (CBin CLt SLeft None) (UBin BAddEq SRight None)) [other]]]).
Qed.
Print Assumptions update_rhs_iterator_refuted.

(* for (int it = 4; it < 2; it += -1; @inner): folded count (2 - 4 + -1 - 1) / -1 = 4 *)
Theorem negative_step_refuted :
  exists k, kernelIsValid pinned k = Some true /\ ~ Rules k.
Proof.
  refute (mkKernel RVoid [outer_ [inner_h (mkHeader (IDecl 0 true TyInt (Some 4%Z))
                                            (CBin CLt SLeft (Some 2%Z))
                                            (UBin BAddEq SLeft (Some (-1)%Z))) [other]]]).
Qed.
Print Assumptions negative_step_refuted.

(* for (int it = 0; it < 4; it += 0; @inner): the pinned translators die (division by zero) *)
Theorem zero_step_dies_refuted :
  exists k, kernelIsValid pinned k = None /\ ~ Rules k.
Proof.
  refute (mkKernel RVoid [outer_ [inner_h (mkHeader (IDecl 0 true TyInt (Some 0%Z))
                                            (CBin CLt SLeft (Some 4%Z))
                                            (UBin BAddEq SLeft (Some 0%Z))) [other]]]).
Qed.
Print Assumptions zero_step_dies_refuted.

(* four nested @inner loops: accepted; the launchers then write index 3 of an int[3] *)
Theorem depth_unchecked_refuted :
  exists k, kernelIsValid pinned k = Some true /\ ~ Rules k.
Proof. refute (mkKernel RVoid [outer_ [inner_ [inner_ [inner_ [inner_ [other]]]]]]). Qed.
Print Assumptions depth_unchecked_refuted.

(* two outermost @outer loops with different shapes (1,2) and (2,1); branches with matching
   nesting; @shared and @exclusive declared and used; break / continue in a regular loop and a
   switch inside the @inner loop *)
Definition regular_loop : stmt :=
  Node (KFor false false hdr0)
       [Node KBreak []; Node KSwitch [Node KBreak []; Node KContinue []]].
Definition group1 : stmt :=
  outer_ [Node (KDecl VShared [true; true]) [];
          Node (KDecl VExclusive []) [];
          Node KIf [Node (KElse false) [inner_ [inner_ [Node (KUse VShared) []]]];
                    inner_ [other; inner_ [Node (KUse VExclusive) []]]]].
Definition group2 : stmt :=
  Node (KWhile false)
       [outer_ [outer_ [inner_ [regular_loop]; Node KBlock [inner_ [other]]]]].
Definition sample : kernel := mkKernel RVoid [group1; group2].

Example sample_follows_rules : Rules sample.
Proof. apply Proofs.rules_b_iff. vm_compute. reflexivity. Qed.

Example sample_accepted : kernelIsValid fixed sample = Some true /\ kernelIsValid pinned sample = Some true.
Proof. split; vm_compute; reflexivity. Qed.

Example sample_quirk_free : quirk_free sample.
Proof. repeat split; try discriminate; vm_compute; reflexivity. Qed.

(* one more @inner level in one branch only: mismatch *)
Example mismatch_rejected :
  kernelIsValid fixed
    (mkKernel RVoid [ outer_ [ Node KIf [ Node (KElse false) [ inner_ [ inner_ [ other ] ] ];
                                          inner_ [ other ] ] ] ]) = Some false.
Proof. vm_compute. reflexivity. Qed.
