(* The list of OKL loop paths built by kernelHasValidOklLoops, and the reverse + startsWith filter:
   it keeps exactly the paths of OKL loops without an OKL loop inside. *)
From Coq Require Import List Bool Arith ZArith Lia.
From OV.C22 Require Import Model Spec Statements ProofsBase.
Import ListNotations.

Lemma loopPaths_app : forall a b, loopPaths (a ++ b) = loopPaths a ++ loopPaths b.
Proof. intros. unfold loopPaths, okl_visits. now rewrite filter_app, map_app. Qed.

(* the OKL loops on a path; the loop paths of the visits below a statement / a list of statements *)
Definition Fp (path : list pel) : list pel := filter is_okl path.
Definition LP (n : nat) (path : list pel) (s : stmt) := loopPaths (iter n path s).
Definition LPL (n : nat) (path : list pel) (l : list stmt) := loopPaths (iter_list n path l).

Lemma Fp_snoc : forall path e, Fp (path ++ [e]) = Fp path ++ (if is_okl e then [e] else []).
Proof. intros. unfold Fp. rewrite filter_app. simpl. destruct (is_okl e); reflexivity. Qed.

Lemma LP_eq : forall n path k kids,
  LP n path (Node k kids)
  = (if is_okl (mkPel n k) then [Fp path ++ [mkPel n k]] else [])
    ++ LPL (S n) (path ++ [mkPel n k]) kids.
Proof.
  intros. unfold LP, LPL. rewrite iter_eq.
  change ((mkPel n k, path) :: iter_list (S n) (path ++ [mkPel n k]) kids)
    with ([(mkPel n k, path)] ++ iter_list (S n) (path ++ [mkPel n k]) kids).
  rewrite loopPaths_app. f_equal.
  unfold loopPaths, okl_visits. simpl. destruct (is_okl (mkPel n k)); reflexivity.
Qed.

Lemma LPL_nil : forall n path, LPL n path [] = [].
Proof. reflexivity. Qed.

Lemma LPL_cons : forall n path c tl,
  LPL n path (c :: tl) = LP n path c ++ LPL (n + size c) path tl.
Proof. intros. unfold LPL, LP. now rewrite iter_list_cons, loopPaths_app. Qed.

Lemma starts_with_nil_l : forall p, p <> [] -> starts_with [] p = false.
Proof. intros [|e p] H; [congruence|reflexivity]. Qed.

(* a loop path ends with its own loop *)
Lemma loopPaths_nonempty : forall vs p, In p (loopPaths vs) -> p <> [].
Proof.
  intros vs p Hp. apply in_map_iff in Hp. destruct Hp as (x & <- & _).
  unfold loop_path. destruct (filter is_okl (snd x)); discriminate.
Qed.

(* OKL loops numbered in [lo, hi) *)
Definition in_range (lo hi : nat) (q : list pel) : Prop :=
  forall e, In e q -> lo <= p_id e < hi /\ is_okl e = true.

Lemma in_range_mono : forall lo hi lo' hi' q,
  lo' <= lo -> hi <= hi' -> in_range lo hi q -> in_range lo' hi' q.
Proof. intros lo hi lo' hi' q H1 H2 H e He. destruct (H e He). split; [lia|assumption]. Qed.

(* every path below s is (OKL ancestors) ++ q, q non-empty, made of OKL loops numbered inside s *)
Lemma LP_shape_both :
  (forall s n path p, In p (LP n path s) ->
     exists q, p = Fp path ++ q /\ q <> [] /\ in_range n (n + size s) q)
  /\ (forall l n path p, In p (LPL n path l) ->
     exists q, p = Fp path ++ q /\ q <> [] /\ in_range n (n + sizes l) q).
Proof.
  apply stmt_list_ind.
  - intros k kids IH n path p Hp. rewrite LP_eq in Hp. rewrite size_eq.
    apply in_app_or in Hp. destruct Hp as [Hp|Hp].
    + destruct (is_okl (mkPel n k)) eqn:Hok; [|destruct Hp]. destruct Hp as [<-|[]].
      exists [mkPel n k]. split; [reflexivity|]. split; [discriminate|].
      intros e [<-|[]]. simpl. split; [lia|assumption].
    + destruct (IH _ _ _ Hp) as (q & -> & Hq & Hr). rewrite Fp_snoc.
      apply (in_range_mono _ _ n (n + S (sizes kids))) in Hr; [|lia|lia].
      destruct (is_okl (mkPel n k)) eqn:Hok.
      * exists (mkPel n k :: q). rewrite <- app_assoc. split; [reflexivity|]. split; [discriminate|].
        intros e [<-|He]; [simpl; split; [lia|assumption] | now apply Hr].
      * exists q. rewrite app_nil_r. auto.
  - intros n path p [].
  - intros c tl Hc Htl n path p Hp. rewrite LPL_cons in Hp. rewrite sizes_cons.
    apply in_app_or in Hp.
    destruct Hp as [Hp|Hp]; [apply Hc in Hp|apply Htl in Hp]; destruct Hp as (q & -> & Hq & Hr);
      exists q; (split; [reflexivity|]); (split; [assumption|]);
      (eapply in_range_mono; [| |exact Hr]; lia).
Qed.

Definition LP_shape := proj1 LP_shape_both.
Definition LPL_shape := proj2 LP_shape_both.

Lemma starts_with_app_same : forall f a b, starts_with (f ++ a) (f ++ b) = starts_with a b.
Proof. induction f as [|e f IH]; intros; simpl; [reflexivity|]. now rewrite Nat.eqb_refl, IH. Qed.

Lemma starts_with_prefix : forall a b, starts_with (a ++ b) a = true.
Proof. induction a as [|e a IH]; intros b; simpl; [now destruct b|]. rewrite Nat.eqb_refl. apply IH. Qed.

Lemma starts_with_disjoint_ranges : forall a b lo mid hi,
  b <> [] -> in_range lo mid b -> in_range mid hi a -> starts_with a b = false.
Proof.
  intros a b lo mid hi Hb Hrb Hra. destruct b as [|y b]; [congruence|].
  destruct a as [|x a]; [reflexivity|]. simpl.
  destruct (Hrb y (or_introl eq_refl)) as [Hy _]. destruct (Hra x (or_introl eq_refl)) as [Hx _].
  replace (p_id x =? p_id y) with false by (symmetry; apply Nat.eqb_neq; lia). reflexivity.
Qed.

(* the same filter read from the front: a path is dropped when the path visited right after it
   starts with it; `nxt` stands for what follows the list *)
Fixpoint im (ps : list (list pel)) (nxt : list pel) : list (list pel) :=
  match ps with
  | [] => []
  | p :: tl => (if starts_with (hd nxt tl) p then [] else [p]) ++ im tl nxt
  end.

Lemma im_cons : forall p tl nxt,
  im (p :: tl) nxt = (if starts_with (hd nxt tl) p then [] else [p]) ++ im tl nxt.
Proof. reflexivity. Qed.

Lemma hd_app : forall {A} (a b : list A) d, hd d (a ++ b) = hd (hd d b) a.
Proof. intros A [|x a] b d; reflexivity. Qed.

Lemma im_app : forall a b nxt, im (a ++ b) nxt = im a (hd nxt b) ++ im b nxt.
Proof.
  induction a as [|p a IH]; intros b nxt; [reflexivity|].
  simpl. rewrite IH, <- app_assoc. f_equal. now rewrite hd_app.
Qed.

Lemma im_rev : forall l nxt, im (rev l) nxt = rev (inner_most l nxt).
Proof.
  induction l as [|p tl IH]; intros nxt; [reflexivity|].
  cbn [rev inner_most]. rewrite im_app, rev_app_distr. cbn [hd]. rewrite IH.
  cbn. now destruct (starts_with nxt p).
Qed.

Lemma im_incl : forall ps nxt p, In p (im ps nxt) -> In p ps.
Proof.
  induction ps as [|x tl IH]; intros nxt p Hp; [destruct Hp|].
  simpl in Hp. apply in_app_or in Hp. destruct Hp as [Hp|Hp].
  - destruct (starts_with (hd nxt tl) x); [destruct Hp|]. destruct Hp as [<-|[]]. now left.
  - right. eapply IH; eauto.
Qed.

(* what follows the list matters only through which paths of the list it starts with *)
Lemma im_nxt : forall ps q q',
  (forall p, In p ps -> starts_with q p = starts_with q' p) -> im ps q = im ps q'.
Proof.
  induction ps as [|x tl IH]; intros q q' H; [reflexivity|].
  simpl. rewrite (IH q q') by (intros; apply H; now right). f_equal.
  destruct tl; simpl; [|reflexivity]. rewrite H by (now left). reflexivity.
Qed.

Lemma im_nonempty : forall ps q, ps <> [] -> (forall p, In p ps -> starts_with q p = false) ->
  im ps q <> [].
Proof.
  induction ps as [|x tl IH]; intros q Hne H; [congruence|].
  destruct tl as [|y tl'].
  - simpl. rewrite H by (now left). discriminate.
  - simpl im. intros Heq. apply app_eq_nil in Heq. destruct Heq as [_ Heq].
    revert Heq. apply IH; [discriminate|]. intros. apply H. now right.
Qed.

(* what the filter keeps below a statement / a list: the leaves of the OKL loop forest *)
Definition G (n : nat) (path : list pel) (s : stmt) := im (LP n path s) [].
Definition GL (n : nat) (path : list pel) (l : list stmt) := im (LPL n path l) [].

(* a path from a later subtree (or nothing) never starts with a path below s *)
Lemma later_not_prefix : forall s n path tl p,
  In p (LP n path s) ->
  starts_with (hd [] (LPL (n + size s) path tl)) p = false.
Proof.
  intros s n path tl p Hp.
  destruct (LPL (n + size s) path tl) as [|p1 rest] eqn:E; cbn [hd].
  - exact (starts_with_nil_l _ (loopPaths_nonempty _ _ Hp)).
  - assert (H1 : In p1 (LPL (n + size s) path tl)) by (rewrite E; now left).
    destruct (LP_shape _ _ _ _ Hp) as (q & -> & Hq & Hr).
    destruct (LPL_shape _ _ _ _ H1) as (q1 & -> & Hq1 & Hr1).
    rewrite starts_with_app_same. eapply starts_with_disjoint_ranges; eauto.
Qed.

Lemma GL_cons : forall n path c tl,
  GL n path (c :: tl) = G n path c ++ GL (n + size c) path tl.
Proof.
  intros. unfold GL, G. rewrite LPL_cons, im_app. f_equal.
  apply im_nxt. intros p Hp.
  now rewrite later_not_prefix, (starts_with_nil_l _ (loopPaths_nonempty _ _ Hp)).
Qed.

Lemma GL_nil : forall n path, GL n path [] = [].
Proof. reflexivity. Qed.

(* an OKL loop is a leaf when there is none below it; otherwise the first path below starts with its own *)
Lemma G_eq : forall n path k kids,
  G n path (Node k kids)
  = let sub := GL (S n) (path ++ [mkPel n k]) kids in
    if is_okl (mkPel n k)
    then match sub with [] => [Fp path ++ [mkPel n k]] | _ => sub end
    else sub.
Proof.
  intros. unfold G, GL. rewrite LP_eq.
  destruct (is_okl (mkPel n k)) eqn:Hok; [|reflexivity].
  cbn [app]. rewrite im_cons.
  destruct (LPL (S n) (path ++ [mkPel n k]) kids) as [|p1 rest] eqn:E; cbn [hd].
  - rewrite starts_with_nil_l; [reflexivity|]. destruct (Fp path); discriminate.
  - assert (H1 : In p1 (LPL (S n) (path ++ [mkPel n k]) kids)) by (rewrite E; now left).
    destruct (LPL_shape _ _ _ _ H1) as (q1 & Hp1 & _).
    rewrite Fp_snoc, Hok in Hp1. subst p1. rewrite starts_with_prefix. cbn [app].
    destruct (im (_ :: rest) []) eqn:E2; [|reflexivity].
    exfalso. revert E2. apply im_nonempty; [discriminate|].
    rewrite <- E. intros p Hp. exact (starts_with_nil_l _ (loopPaths_nonempty _ _ Hp)).
Qed.

Lemma in_range_head : forall lo hi q, q <> [] -> in_range lo hi q -> lo <= head_id q < hi.
Proof. intros lo hi [|e q] Hq Hr; [congruence|]. apply Hr. now left. Qed.

Lemma G_shape : forall n path s p, Fp path = [] -> In p (G n path s) ->
  p <> [] /\ in_range n (n + size s) p.
Proof.
  intros n path s p HF Hp. apply im_incl, LP_shape in Hp. rewrite HF in Hp.
  now destruct Hp as (q & -> & H).
Qed.

Lemma GL_shape : forall n path l p, Fp path = [] -> In p (GL n path l) ->
  p <> [] /\ in_range n (n + sizes l) p.
Proof.
  intros n path l p HF Hp. apply im_incl, LPL_shape in Hp. rewrite HF in Hp.
  now destruct Hp as (q & -> & H).
Qed.

(* the root is not an OKL loop *)
Lemma loopPaths_visits : forall k, loopPaths (visits k) = LPL 1 [root] (k_body k).
Proof. reflexivity. Qed.

Lemma innerMostPaths_leaves : forall k,
  innerMostPaths (visits k) = rev (GL 1 [root] (k_body k)).
Proof.
  intros k. unfold innerMostPaths, GL. rewrite loopPaths_visits.
  now rewrite <- (rev_involutive (inner_most _ _)), <- im_rev, rev_involutive.
Qed.
