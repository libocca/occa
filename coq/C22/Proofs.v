(* kernelIsValid (repaired source) = the rules; the rules as propositions; any variant of the
   checker (the pinned source in particular) agrees with the repaired one on kernels that stay
   away from the defects. *)
From Coq Require Import List Bool Arith ZArith.
From OV.C22 Require Import Model Spec Statements ProofsBase ProofsHeader ProofsPaths ProofsNest.
Import ListNotations.

Lemma outerLoops_exists : forall vs,
  (match outerLoops vs with [] => false | _ => true end)
  = existsb (fun x => kind_is LO (kof x)) vs.
Proof.
  induction vs as [|[[n k] path] vs IH]; [reflexivity|].
  unfold outerLoops, okl_visits in *. cbn [existsb]. rewrite <- IH. unfold kof. cbn [fst p_kind filter].
  destruct k; try reflexivity. destruct o, i; reflexivity.
Qed.

Lemma innerLoops_exists : forall vs,
  (match innerLoops vs with [] => false | _ => true end)
  = existsb (fun x => kind_is LI (kof x)) vs.
Proof.
  induction vs as [|[[n k] path] vs IH]; [reflexivity|].
  unfold innerLoops, okl_visits in *. cbn [existsb]. rewrite <- IH. unfold kof. cbn [fst p_kind filter].
  destruct k; try reflexivity. destruct o, i; reflexivity.
Qed.

Definition pel_ok (e : pel) : bool :=
  match p_kind e with KFor o i h => negb (o && i) && header_ok h | _ => true end.

Lemma pel_valid_fixed : forall e, pel_valid fixed e = Some (pel_ok e).
Proof.
  intros [n k]. unfold pel_valid, pel_ok. simpl. destruct k; try reflexivity. apply hdr_valid_fixed.
Qed.

Lemma all_valid_fixed : forall l, all_valid fixed l = Some (forallb pel_ok l).
Proof.
  induction l as [|e l IH]; [reflexivity|].
  simpl. rewrite pel_valid_fixed. destruct (pel_ok e); [exact IH|reflexivity].
Qed.

Lemma forallb_partition : forall {A} (f g : A -> bool) l,
  forallb f (filter g l) && forallb f (filter (fun x => negb (g x)) l) = forallb f l.
Proof.
  intros A f g l. induction l as [|a l IH]; [reflexivity|].
  simpl. destruct (g a); simpl; rewrite <- IH.
  - now rewrite andb_assoc.
  - rewrite !andb_assoc. f_equal. apply andb_comm.
Qed.

Lemma headers_forallb : forall vs,
  forallb pel_ok (outerLoops vs) && forallb pel_ok (innerLoops vs)
  = forallb (fun x => loop_kind_ok (kof x)) vs.
Proof.
  intros vs. unfold outerLoops, innerLoops. rewrite forallb_partition.
  unfold okl_visits. induction vs as [|[[n k] path] vs IH]; [reflexivity|].
  cbn [forallb]. rewrite <- IH. unfold kof. cbn [fst p_kind filter].
  destruct k; try reflexivity. destruct o, i; reflexivity.
Qed.

Lemma kinds_visits : forall k, map kof (visits k) = KFunc :: flat_map kinds (k_body k).
Proof.
  intros k. unfold visits. simpl. f_equal. apply (proj2 kinds_iter).
Qed.

Lemma exists_attr_visits : forall a k,
  existsb (fun x => kind_is a (kof x)) (visits k) = existsb (has_attr a) (k_body k).
Proof.
  intros a k. rewrite <- (existsb_map kof (kind_is a)), kinds_visits. simpl.
  symmetry. apply (proj2 (has_attr_kinds a)).
Qed.

Lemma headers_visits : forall k,
  forallb (fun x => loop_kind_ok (kof x)) (visits k) = forallb loops_ok (k_body k).
Proof.
  intros k. rewrite <- (forallb_map kof loop_kind_ok), kinds_visits. simpl.
  symmetry. apply (proj2 loops_ok_kinds).
Qed.

Lemma loops_valid_fixed : forall k,
  loops_valid fixed (visits k)
  = Some (existsb (has_attr LO) (k_body k) && existsb (has_attr LI) (k_body k)
          && forallb loops_ok (k_body k) && (nesting_ok (k_body k) && depth_rule (k_body k))).
Proof.
  intros k. unfold loops_valid. rewrite !all_valid_fixed, count_loop_variant.
  rewrite <- (exists_attr_visits LO), <- (exists_attr_visits LI), <- headers_visits.
  rewrite <- outerLoops_exists, <- innerLoops_exists, <- headers_forallb.
  destruct (outerLoops (visits k)); [reflexivity|].
  destruct (innerLoops (visits k)); [reflexivity|].
  destruct (forallb pel_ok (_ :: _)); [|reflexivity].
  now destruct (forallb pel_ok (_ :: _)).
Qed.

Lemma kernelIsValid_fixed : forall k, kernelIsValid fixed k = Some (rules_b k).
Proof.
  intros k. unfold kernelIsValid, rules_b.
  rewrite loops_valid_fixed, shared_valid_spec, bc_valid_spec.
  destruct (k_ret k); try reflexivity. cbn [ret_ok negb andb]. rewrite !andb_assoc.
  now destruct (_ && depth_rule (k_body k)).
Qed.

Lemma all_kernels_fixed : forall ks, all_kernels fixed ks = Some (forallb rules_b ks).
Proof.
  induction ks as [|k ks IH]; [reflexivity|].
  simpl. now rewrite kernelIsValid_fixed, IH.
Qed.

Lemma kernelsAreValid_fixed : forall ks, kernelsAreValid fixed ks = Some (rules_all_b ks).
Proof.
  intros [|k ks]; [reflexivity|]. unfold kernelsAreValid, rules_all_b. apply all_kernels_fixed.
Qed.

Lemma andb_iff : forall (a b : bool) (A B : Prop),
  (a = true <-> A) -> (b = true <-> B) -> (a && b = true <-> A /\ B).
Proof. intros a b A B HA HB. rewrite andb_true_iff. tauto. Qed.

Lemma forallb_iff : forall {T} (f : T -> bool) (P : T -> Prop) l,
  (forall x, In x l -> (f x = true <-> P x)) -> (forallb f l = true <-> forall x, In x l -> P x).
Proof.
  intros T f P l H. rewrite forallb_forall.
  split; intros H0 x Hx; apply (H x Hx), H0, Hx.
Qed.

Lemma rules_b_iff : forall k, rules_b k = true <-> Rules k.
Proof.
  intros k. unfold rules_b, Rules. rewrite <- !andb_assoc. repeat apply andb_iff.
  - destruct (k_ret k); split; congruence.
  - apply existsb_exists.
  - apply existsb_exists.
  - apply forallb_forall.
  - apply forallb_iff. intros t Ht. apply top_ok_iff. now apply (proj2 tops_sigs_nonempty (k_body k)).
  - apply forallb_iff. intros sg _. unfold depth_sig_ok. apply andb_iff; apply Nat.leb_le.
  - apply forallb_forall.
  - apply forallb_forall.
Qed.

Theorem checker_iff_rules : forall k, kernelIsValid fixed k = Some true <-> Rules k.
Proof.
  intros k. rewrite kernelIsValid_fixed, <- rules_b_iff. split; congruence.
Qed.

Theorem checker_rejects_iff : forall k, kernelIsValid fixed k = Some false <-> ~ Rules k.
Proof.
  intros k. rewrite kernelIsValid_fixed, <- rules_b_iff.
  destruct (rules_b k); split; try congruence; intros H; exfalso; apply H; reflexivity.
Qed.

Theorem checker_total : forall k, kernelIsValid fixed k <> None.
Proof. intros k. rewrite kernelIsValid_fixed. discriminate. Qed.

Theorem translation_unit_iff_rules : forall ks,
  kernelsAreValid fixed ks = Some true <-> (ks <> [] /\ forall k, In k ks -> Rules k).
Proof.
  intros ks. rewrite kernelsAreValid_fixed. unfold rules_all_b.
  destruct ks as [|k0 ks]; [split; [discriminate|now intros [H _]]|].
  assert (E := forallb_iff rules_b Rules (k0 :: ks) (fun k _ => rules_b_iff k)).
  split.
  - intros H. injection H as H. split; [discriminate|now apply E].
  - intros [_ H]. f_equal. now apply E.
Qed.

Lemma step_ok_pos : forall v st,
  match st with Some s => Z.ltb 0 s | None => true end = true -> step_ok v st = true.
Proof. intros v st H. unfold step_ok. rewrite H. apply orb_true_r. Qed.

Lemma hdr_valid_clean : forall v o i h,
  clean_header o i h = true -> hdr_valid v o i h = hdr_valid fixed o i h.
Proof.
  intros v o i h Hc. unfold clean_header in Hc. apply andb_prop in Hc. destruct Hc as [H1 H2].
  unfold hdr_valid. apply negb_true_iff in H1. rewrite H1. simpl andb. cbn iota.
  assert (E : valid_update v h = valid_update fixed h).
  { unfold valid_update. destruct (h_update h) as [| | |bo sd st]; try reflexivity.
    destruct sd; [|discriminate H2|now destruct bo].
    (* iterator on the left, step positive or not constant: every variant accepts it *)
    now rewrite !(step_ok_pos _ st H2). }
  now rewrite E.
Qed.

Lemma pel_valid_clean : forall v e,
  is_okl e = true -> clean_kind (p_kind e) = true -> pel_valid v e = pel_valid fixed e.
Proof.
  intros v [n k] Hok Hc. unfold pel_valid. cbn [p_kind] in *. destruct k; try reflexivity.
  unfold is_okl, has_outer, has_inner in Hok. cbn [p_kind] in Hok.
  unfold clean_kind in Hc. rewrite Hok in Hc. now apply hdr_valid_clean.
Qed.

Lemma all_valid_clean : forall v sel vs,
  forallb (fun x => clean_kind (kof x)) vs = true ->
  all_valid v (filter sel (map fst (okl_visits vs)))
  = all_valid fixed (filter sel (map fst (okl_visits vs))).
Proof.
  intros v sel. induction vs as [|x vs IH]; intros H; [reflexivity|].
  cbn [forallb] in H. apply andb_prop in H. destruct H as [Hx H].
  unfold okl_visits in *. cbn [filter]. destruct (is_okl (fst x)) eqn:Hok; [|now apply IH].
  cbn [map filter]. destruct (sel (fst x)); [|now apply IH].
  cbn [all_valid]. now rewrite (pel_valid_clean v _ Hok Hx), IH.
Qed.

(* does the upward walk meet a switch before any loop? *)
Fixpoint sw_first (chain : list pel) : bool :=
  match chain with
  | [] => false
  | p :: up =>
    match p_kind p with
    | KSwitch => true
    | KFor _ _ _ | KWhile _ => false
    | _ => sw_first up
    end
  end.

(* the variants only differ when the walk meets a switch first and an OKL loop behind it *)
Lemma bc_walk_continue : forall v chain,
  sw_first chain && bc_walk fixed false chain = false ->
  bc_walk v false chain = bc_walk fixed false chain.
Proof.
  intros v chain. induction chain as [|p up IH]; intros H; [reflexivity|].
  simpl in H. simpl. destruct (p_kind p); try (apply IH; assumption); try reflexivity.
  simpl in H. rewrite orb_false_r.
  assert (E : bc_walk v false up = false).
  { rewrite IH; [assumption|]. rewrite H. apply andb_false_r. }
  rewrite E, H. destruct (v_switch_shields_continue v); reflexivity.
Qed.

(* state of that walk: whether a switch comes first, beside the targets of the break/continue walk *)
Definition sw_state (path : list pel) : bool * (target * target) :=
  (sw_first (rev path), targets path).

Definition sw_next (x : bool * (target * target)) (k : kind) : bool * (target * target) :=
  (match k with KSwitch => true | KFor _ _ _ | KWhile _ => false | _ => fst x end,
   targets_next (snd x) k).

Lemma sw_state_snoc : forall path n k, sw_state (path ++ [mkPel n k]) = sw_next (sw_state path) k.
Proof.
  intros. unfold sw_state, sw_next. now rewrite targets_snoc, rev_app_distr.
Qed.

(* the loop a continue would restart is an OKL loop *)
Definition to_okl (x : bool * (target * target)) : bool := negb (not_okl (snd (snd x))).

Definition continue_here (x : bool * (target * target)) (k : kind) : bool :=
  match k with KContinue => negb (fst x && to_okl x) | _ => true end.

Definition continue_clean (x : visit) : bool := continue_here (sw_state (snd x)) (kof x).

Lemma continue_walk : forall l n path,
  forallb continue_clean (iter_list n path l)
  = forallb (no_continue_through_switch (fst (sw_state path)) (to_okl (sw_state path))) l.
Proof.
  refine (forallb_iter_list _ sw_state sw_next continue_clean continue_here
            (fun x => no_continue_through_switch (fst x) (to_okl x)) sw_state_snoc _ _).
  - reflexivity.
  - intros x k kids. destruct k; try reflexivity. destruct o, i; reflexivity.
Qed.

Lemma bc_valid_clean : forall v k,
  forallb (no_continue_through_switch false false) (k_body k) = true ->
  bc_valid v (visits k) = bc_valid fixed (visits k).
Proof.
  intros v k Hn. unfold bc_valid.
  rewrite (filter_ext_in (visit_bc_error v) (visit_bc_error fixed)); [reflexivity|].
  intros x Hx. unfold visit_bc_error.
  destruct (p_kind (fst x)) eqn:Hk; try reflexivity.
  - now rewrite !bc_walk_tgt, !orb_true_r.
  - apply bc_walk_continue.
    destruct Hx as [<-|Hx]; [discriminate Hk|].
    assert (Hw : forallb continue_clean (iter_list 1 [root] (k_body k)) = true)
      by (rewrite continue_walk; exact Hn).
    rewrite forallb_forall in Hw. specialize (Hw x Hx). unfold continue_clean, continue_here, kof in Hw.
    rewrite Hk in Hw. rewrite bc_walk_tgt. now apply negb_true_iff in Hw.
Qed.

Lemma kernelIsValid_clean : forall v k, quirk_free k -> kernelIsValid v k = kernelIsValid fixed k.
Proof.
  intros v k (Hr & Hc & Hdp & Hn). unfold kernelIsValid.
  assert (E1 : ret_ok v (k_ret k) = ret_ok fixed (k_ret k)).
  { destruct (k_ret k); try reflexivity. congruence. }
  assert (Hk : forallb (fun x => clean_kind (kof x)) (visits k) = true).
  { now rewrite <- (forallb_map kof clean_kind), kinds_visits. }
  assert (E2 : loops_valid v (visits k) = loops_valid fixed (visits k)).
  { unfold loops_valid.
    rewrite (all_valid_clean v has_outer _ Hk : all_valid v (outerLoops _) = _).
    rewrite (all_valid_clean v _ _ Hk : all_valid v (innerLoops _) = _).
    now rewrite !count_loop_variant, Hdp, !orb_true_r. }
  rewrite E1, E2, (bc_valid_clean v k Hn). reflexivity.
Qed.

Theorem checker_iff_rules_pinned_partial : forall v k,
  quirk_free k -> (kernelIsValid v k = Some true <-> Rules k).
Proof.
  intros v k H. rewrite (kernelIsValid_clean v k H). apply checker_iff_rules.
Qed.
