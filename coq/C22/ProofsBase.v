(* Induction over kernel trees, unfolding equations of the DFS, and the parts of the checker that
   fold one test over the visits: what looks only at statement kinds is a function of `kinds`; the
   upward walks (hasProperSharedOrExclusiveUsage, the break/continue walk) see the path only through
   a state that the rules of Spec.v hand down instead. *)
From Coq Require Import List Bool Arith ZArith Lia.
From OV.C22 Require Import Model Spec Statements.
Import ListNotations.

(* statements and lists of statements together: the DFS facts come in such pairs *)
Lemma stmt_list_ind (P : stmt -> Prop) (Q : list stmt -> Prop) :
  (forall k kids, Q kids -> P (Node k kids)) ->
  Q [] -> (forall c tl, P c -> Q tl -> Q (c :: tl)) ->
  (forall s, P s) /\ (forall l, Q l).
Proof.
  intros HN H0 HC.
  assert (HP : forall s, P s).
  { fix IH 1. intros [k kids]. apply HN.
    induction kids as [|c tl IHl]; [exact H0 | apply HC; [apply IH | exact IHl]]. }
  split; [exact HP|]. induction l; auto.
Qed.

Definition sizes (l : list stmt) : nat := list_sum (map size l).

Lemma size_eq : forall k kids, size (Node k kids) = S (sizes kids).
Proof.
  intros k kids. unfold sizes. simpl. f_equal.
  induction kids as [|c tl IH]; simpl; [reflexivity|]. now rewrite IH.
Qed.

Lemma size_pos : forall s, 1 <= size s.
Proof. intros [k kids]. rewrite size_eq. lia. Qed.

Lemma sizes_cons : forall c tl, sizes (c :: tl) = size c + sizes tl.
Proof. reflexivity. Qed.

Lemma iter_eq : forall n path k kids,
  iter n path (Node k kids)
  = (mkPel n k, path) :: iter_list (S n) (path ++ [mkPel n k]) kids.
Proof.
  intros n path k kids. simpl. f_equal.
  generalize (S n). induction kids as [|c tl IH]; intros m; simpl; [reflexivity|].
  now rewrite IH.
Qed.

Lemma iter_list_cons : forall n path c tl,
  iter_list n path (c :: tl) = iter n path c ++ iter_list (n + size c) path tl.
Proof. reflexivity. Qed.

(* used from here on only through iter_eq, iter_list_cons, size_eq, sizes_cons *)
Global Opaque iter size.

Definition kof (x : visit) : kind := p_kind (fst x).

Lemma kinds_iter :
  (forall s n path, map kof (iter n path s) = kinds s)
  /\ (forall l n path, map kof (iter_list n path l) = flat_map kinds l).
Proof.
  apply stmt_list_ind.
  - intros k kids IH n path. rewrite iter_eq. simpl. f_equal. apply IH.
  - reflexivity.
  - intros c tl Hc Htl n path. rewrite iter_list_cons, map_app, Hc, Htl. reflexivity.
Qed.

Lemma filter_map_kind : forall (f : kind -> bool) (vs : list visit),
  map (fun x : visit => p_kind (fst x)) (filter (fun x => f (p_kind (fst x))) vs)
  = filter f (map (fun x : visit => p_kind (fst x)) vs).
Proof.
  intros f vs. induction vs as [|x tl IH]; simpl; [reflexivity|].
  destruct (f (p_kind (fst x))); simpl; now rewrite IH.
Qed.

Lemma forallb_map : forall {A B} (g : A -> B) (f : B -> bool) l,
  forallb f (map g l) = forallb (fun x => f (g x)) l.
Proof. intros. induction l; simpl; [reflexivity|]. now rewrite IHl. Qed.

Lemma existsb_map : forall {A B} (g : A -> B) (f : B -> bool) l,
  existsb f (map g l) = existsb (fun x => f (g x)) l.
Proof. intros. induction l; simpl; [reflexivity|]. now rewrite IHl. Qed.

Definition kind_is (a : lattr) (k : kind) : bool :=
  match okl_attr k with Some b => lattr_eqb a b | None => false end.

Lemma has_attr_kinds : forall a,
  (forall s, has_attr a s = existsb (kind_is a) (kinds s))
  /\ (forall l, existsb (has_attr a) l = existsb (kind_is a) (flat_map kinds l)).
Proof.
  intros a. apply stmt_list_ind.
  - intros k kids IH. simpl. now rewrite IH.
  - reflexivity.
  - intros c tl Hc Htl. simpl. now rewrite existsb_app, Hc, Htl.
Qed.

Definition loop_kind_ok (k : kind) : bool :=
  match k with
  | KFor o i h => if o || i then negb (o && i) && header_ok h else true
  | _ => true
  end.

Lemma loops_ok_kinds :
  (forall s, loops_ok s = forallb loop_kind_ok (kinds s))
  /\ (forall l, forallb loops_ok l = forallb loop_kind_ok (flat_map kinds l)).
Proof.
  apply stmt_list_ind.
  - intros k kids IH. simpl. now rewrite IH.
  - reflexivity.
  - intros c tl Hc Htl. simpl. now rewrite forallb_app, Hc, Htl.
Qed.

(* A test f on every visit that sees the path only through a state (st) folded along it is the
   structural rule g that hands the state down. *)
Section Walk.
  Variables (St : Type) (st : list pel -> St) (next : St -> kind -> St).
  Variables (f : visit -> bool) (here : St -> kind -> bool) (g : St -> stmt -> bool).
  Hypothesis st_snoc : forall path n k, st (path ++ [mkPel n k]) = next (st path) k.
  Hypothesis f_here : forall n k path, f (mkPel n k, path) = here (st path) k.
  Hypothesis g_eq : forall x k kids, g x (Node k kids) = here x k && forallb (g (next x k)) kids.

  Lemma forallb_iter :
    (forall s n path, forallb f (iter n path s) = g (st path) s)
    /\ (forall l n path, forallb f (iter_list n path l) = forallb (g (st path)) l).
  Proof using st_snoc f_here g_eq.
    apply stmt_list_ind.
    - intros k kids IH n path. rewrite iter_eq, g_eq. cbn [forallb]. now rewrite f_here, IH, st_snoc.
    - reflexivity.
    - intros c tl Hc Htl n path. rewrite iter_list_cons, forallb_app, Hc, Htl. reflexivity.
  Qed.

  Definition forallb_iter_list := proj2 forallb_iter.
End Walk.

(* state of the walk `pathSmnt = pathSmnt->up`: inside some @outer / @inner loop *)
Definition flags (path : list pel) : bool * bool :=
  (in_attr has_outer (rev path), in_attr has_inner (rev path)).

Definition flags_next (x : bool * bool) (k : kind) : bool * bool :=
  match k with KFor o i _ => (fst x || o, snd x || i) | _ => x end.

Lemma flags_snoc : forall path n k, flags (path ++ [mkPel n k]) = flags_next (flags path) k.
Proof.
  intros. unfold flags. rewrite rev_app_distr. destruct k; try reflexivity.
  cbn. f_equal; apply orb_comm.
Qed.

(* the check on one visited statement, in terms of the flags of its path *)
Definition here_ok (x : bool * bool) (k : kind) : bool :=
  match k with
  | KDecl VShared dims =>
    (match dims with [] => false | _ => forallb (fun b => b) dims end) && fst x && negb (snd x)
  | KDecl VExclusive _ => fst x && negb (snd x)
  | KUse VShared | KUse VExclusive => snd x
  | _ => true
  end.

(* the walk starts at the statement itself *)
Lemma in_attr_self : forall f path n k, is_for (mkPel n k) = false ->
  in_attr f (rev (path ++ [mkPel n k])) = in_attr f (rev path).
Proof.
  intros f path n k H. rewrite rev_app_distr. unfold in_attr. cbn [rev app existsb]. now rewrite H.
Qed.

Lemma visit_shared_ok_here : forall n k path,
  visit_shared_ok (mkPel n k, path) = here_ok (flags path) k.
Proof.
  intros n k path. unfold visit_shared_ok, usage_ok. cbn [fst snd p_kind].
  destruct k as [| | | | | | | | | vk dims | vk |]; try reflexivity;
    rewrite !in_attr_self by reflexivity; unfold here_ok, shared_array_ok, flags; cbn [fst snd].
  - (* KDecl *)
    destruct vk, (in_attr has_inner (rev path)), (in_attr has_outer (rev path));
      cbn; rewrite ?andb_true_r, ?andb_false_r; reflexivity.
  - (* KUse *)
    destruct vk, (in_attr has_inner (rev path)); reflexivity.
Qed.

Lemma shared_walk : forall l n path,
  forallb visit_shared_ok (iter_list n path l)
  = forallb (place_ok (fst (flags path)) (snd (flags path))) l.
Proof.
  refine (forallb_iter_list _ flags flags_next visit_shared_ok here_ok
                            (fun x => place_ok (fst x) (snd x)) flags_snoc visit_shared_ok_here _).
  intros x []; reflexivity.
Qed.

Lemma shared_valid_spec : forall k,
  shared_valid (visits k) = forallb (place_ok false false) (k_body k).
Proof. intros k. unfold shared_valid, visits. cbn [forallb]. now rewrite shared_walk. Qed.

(* what the walk finds first: the statement a break (is_break) / continue would act on *)
Fixpoint tgt (is_break : bool) (chain : list pel) : target :=
  match chain with
  | [] => TNone
  | p :: up =>
    match p_kind p with
    | KWhile _ => TRegular
    | KSwitch => if is_break then TRegular else tgt is_break up
    | KFor o i _ => if o || i then TOkl else TRegular
    | _ => tgt is_break up
    end
  end.

(* a variant whose switches shield continue judges a continue by the target of a break *)
Lemma bc_walk_tgt : forall v b chain,
  bc_walk v b chain = negb (not_okl (tgt (v_switch_shields_continue v || b) chain)).
Proof.
  intros v b chain. induction chain as [|p up IH]; [reflexivity|].
  simpl. destruct (p_kind p); try exact IH; try reflexivity.
  - destruct o, i; reflexivity.
  - destruct (v_switch_shields_continue v || b); [reflexivity|exact IH].
Qed.

Definition visit_bc_fine (x : visit) : bool := negb (visit_bc_error fixed x).

Lemma bc_valid_forallb : forall v vs,
  bc_valid v vs = forallb (fun x => negb (visit_bc_error v x)) vs.
Proof.
  intros v vs. unfold bc_valid. induction vs as [|x tl IH]; [reflexivity|].
  simpl. destruct (visit_bc_error v x); simpl; [reflexivity|exact IH].
Qed.

(* state of the walk: the targets of a break and of a continue *)
Definition targets (path : list pel) : target * target := (tgt true (rev path), tgt false (rev path)).

Definition targets_next (x : target * target) (k : kind) : target * target :=
  match k with
  | KFor o i _ => let t := if o || i then TOkl else TRegular in (t, t)
  | KWhile _ => (TRegular, TRegular)
  | KSwitch => (TRegular, snd x)
  | _ => x
  end.

Definition bc_here (x : target * target) (k : kind) : bool :=
  match k with KBreak => not_okl (fst x) | KContinue => not_okl (snd x) | _ => true end.

Lemma targets_snoc : forall path n k, targets (path ++ [mkPel n k]) = targets_next (targets path) k.
Proof. intros path n k. unfold targets. rewrite rev_app_distr. destruct k; reflexivity. Qed.

Lemma bc_walk_targets : forall l n path,
  forallb visit_bc_fine (iter_list n path l)
  = forallb (bc_ok (fst (targets path)) (snd (targets path))) l.
Proof.
  refine (forallb_iter_list _ targets targets_next visit_bc_fine bc_here
                            (fun x => bc_ok (fst x) (snd x)) targets_snoc _ _).
  - intros n k path. unfold visit_bc_fine, visit_bc_error. cbn [fst snd p_kind].
    destruct k; try reflexivity; cbn [negb]; now rewrite bc_walk_tgt, negb_involutive.
  - intros x []; reflexivity.
Qed.

Lemma bc_valid_spec : forall k,
  bc_valid fixed (visits k) = forallb (bc_ok TNone TNone) (k_body k).
Proof.
  intros k. rewrite bc_valid_forallb. fold visit_bc_fine. unfold visits. cbn [forallb].
  now rewrite bc_walk_targets.
Qed.
