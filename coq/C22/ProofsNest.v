(* pathHasValidOklLoopOrdering and the count comparison per outermost @outer loop, run over the
   reversed leaves, decide exactly the nesting rule of Spec.v; the depth test of the repaired source
   decides the depth bound. *)
From Coq Require Import List Bool Arith ZArith Lia.
From OV.C22 Require Import Model Spec Statements ProofsBase ProofsPaths.
Import ListNotations.

Lemma lattr_eqb_eq : forall x y, lattr_eqb x y = true <-> x = y.
Proof. intros [] []; simpl; split; congruence. Qed.

Lemma sig_eqb_eq : forall x y, sig_eqb x y = true <-> x = y.
Proof.
  induction x as [|a x IH]; intros [|b y]; simpl; split; try congruence; auto.
  - intros H. apply andb_prop in H. destruct H as [H1 H2].
    apply lattr_eqb_eq in H1. apply IH in H2. congruence.
  - intros H. inversion H; subst. apply andb_true_intro. split; [now apply lattr_eqb_eq|now apply IH].
Qed.

Lemma lead_o_spec : forall sg, sg = repeat LO (fst (lead_o sg)) ++ snd (lead_o sg).
Proof.
  induction sg as [|[] sg IH]; simpl; [reflexivity| |reflexivity].
  destruct (lead_o sg) as [n r]. simpl in *. now rewrite <- IH.
Qed.

Lemma lead_o_run : forall a b, 1 <= b -> lead_o (repeat LO a ++ repeat LI b) = (a, repeat LI b).
Proof.
  induction a as [|a IH]; intros b Hb; simpl; [|now rewrite IH].
  destruct b; [lia|reflexivity].
Qed.

Lemma Shape_lead_o : forall sg a b, Shape sg a b -> lead_o sg = (a, repeat LI b).
Proof. intros sg a b (_ & Hb & ->). now apply lead_o_run. Qed.

Lemma all_li_repeat : forall r, forallb (lattr_eqb LI) r = true <-> r = repeat LI (length r).
Proof.
  induction r as [|a r IH]; simpl; [tauto|].
  destruct a; simpl; split; try congruence.
  - intros H. f_equal. now apply IH.
  - intros H. injection H as H. now apply IH.
Qed.

Lemma shape_ok_iff : forall sg, shape_ok sg = true <-> exists a b, Shape sg a b.
Proof.
  intros sg. unfold shape_ok. split.
  - pose proof (lead_o_spec sg) as Hsg. destruct (lead_o sg) as [a r]. simpl in Hsg.
    intros H. apply andb_prop in H. destruct H as [H H3]. apply andb_prop in H. destruct H as [H1 H2].
    apply Nat.ltb_lt in H1, H2. apply all_li_repeat in H3.
    exists a, (length r). repeat split; try lia. now rewrite <- H3.
  - intros (a & b & H). rewrite (Shape_lead_o _ _ _ H). destruct H as (Ha & Hb & _).
    rewrite repeat_length.
    apply andb_true_intro. split; [apply andb_true_intro; split; apply Nat.ltb_lt; lia|].
    apply all_li_repeat. now rewrite repeat_length.
Qed.

Lemma Shape_inj : forall sg a b a' b', Shape sg a b -> Shape sg a' b' -> a = a' /\ b = b'.
Proof.
  intros sg a b a' b' H H'. apply Shape_lead_o in H, H'. rewrite H in H'. injection H' as -> H'.
  split; [reflexivity|].
  apply (f_equal (@length lattr)) in H'. now rewrite !repeat_length in H'.
Qed.

(* pathHasValidOklLoopOrdering looks at a path of OKL loops only through their attributes *)
Definition cls (e : pel) : lattr := if has_outer e then LO else LI.

Fixpoint ordering_sig (sg : list lattr) (ic oc : nat) : option (nat * nat) :=
  match sg with
  | [] => Some (ic, oc)
  | LO :: tl => if Nat.ltb 0 ic then None else ordering_sig tl ic (S oc)
  | LI :: tl => if Nat.eqb oc 0 then None else ordering_sig tl (S ic) oc
  end.

Definition path_ordering_sig (sg : list lattr) : option (nat * nat) :=
  match ordering_sig sg 0 0 with
  | None => None
  | Some (ic, oc) =>
    if Nat.eqb ic 0 then (if existsb (lattr_eqb LO) sg then None else Some (ic, oc))
    else Some (ic, oc)
  end.

Definition all_okl (p : list pel) : Prop := forall e, In e p -> is_okl e = true.

Lemma ordering_cls : forall p ic oc, all_okl p -> ordering p ic oc = ordering_sig (map cls p) ic oc.
Proof.
  induction p as [|e p IH]; intros ic oc H; [reflexivity|].
  assert (He : is_okl e = true) by (apply H; now left).
  assert (Hp : all_okl p) by (intros x Hx; apply H; now right).
  simpl. unfold cls at 1. unfold is_okl in He.
  destruct (has_outer e); simpl.
  - destruct (0 <? ic); [reflexivity|]. now apply IH.
  - simpl in He. rewrite He. destruct (oc =? 0); [reflexivity|]. now apply IH.
Qed.

Lemma path_ordering_cls : forall p, all_okl p -> path_ordering p = path_ordering_sig (map cls p).
Proof.
  intros p H. unfold path_ordering, path_ordering_sig. rewrite ordering_cls by assumption.
  assert (E : existsb has_outer p = existsb (lattr_eqb LO) (map cls p)).
  { clear H. induction p as [|e p IH]; simpl; [reflexivity|].
    rewrite IH. unfold cls. destruct (has_outer e); reflexivity. }
  now rewrite E.
Qed.

Lemma ordering_sig_O : forall a rest oc, ordering_sig (repeat LO a ++ rest) 0 oc = ordering_sig rest 0 (oc + a).
Proof.
  induction a as [|a IH]; intros rest oc; simpl.
  - now rewrite Nat.add_0_r.
  - rewrite IH. f_equal. apply Nat.add_succ_comm.
Qed.

Lemma ordering_sig_I : forall b ic oc, 1 <= oc -> ordering_sig (repeat LI b) ic oc = Some (ic + b, oc).
Proof.
  induction b as [|b IH]; intros ic oc Hoc; simpl.
  - now rewrite Nat.add_0_r.
  - destruct oc; [inversion Hoc|]. simpl. rewrite IH by assumption. now rewrite Nat.add_succ_comm.
Qed.

Lemma ordering_sig_shape : forall sg ic oc ic' oc', ordering_sig sg ic oc = Some (ic', oc') ->
  exists a b, sg = repeat LO a ++ repeat LI b /\ oc' = a + oc /\ ic' = b + ic
              /\ (ic <> 0 -> a = 0) /\ (b <> 0 -> oc' <> 0).
Proof.
  induction sg as [|[] sg IH]; intros ic oc ic' oc' H; simpl in H.
  - injection H as <- <-. exists 0, 0. repeat split; congruence.
  - destruct ic; [|discriminate]. simpl in H.
    apply IH in H. destruct H as (a & b & -> & -> & -> & _ & Hb).
    exists (S a), b. rewrite <- Nat.add_succ_comm in *. repeat split; [now intros []|exact Hb].
  - destruct oc; [discriminate|]. simpl in H.
    apply IH in H. destruct H as (a & b & -> & -> & -> & Ha & Hb).
    rewrite (Ha (Nat.neq_succ_0 ic)) in *.
    exists 0, (S b). repeat split; [symmetry; apply Nat.add_succ_comm|discriminate].
Qed.

(* the checker counts (inner, outer); Shape takes (outer, inner) *)
Lemma path_ordering_sig_shape : forall sg ic oc, sg <> [] -> (path_ordering_sig sg = Some (ic, oc) <-> Shape sg oc ic).
Proof.
  intros sg ic oc Hne. unfold path_ordering_sig. split.
  - destruct (ordering_sig sg 0 0) as [[ic0 oc0]|] eqn:E; [|discriminate].
    apply ordering_sig_shape in E. destruct E as (a & b & -> & -> & -> & _ & Hb).
    rewrite !Nat.add_0_r in *. destruct b as [|b]; simpl.
    + (* no @inner loop on the path *)
      rewrite app_nil_r in *. destruct a; [now elim Hne|]. intros H. discriminate H.
    + intros H. injection H as <- <-. destruct a; [now elim Hb|]. repeat split; apply le_n_S, Nat.le_0_l.
  - intros (Ha & Hb & ->). rewrite ordering_sig_O, ordering_sig_I by assumption. simpl.
    destruct ic; [inversion Hb|reflexivity].
Qed.

Lemma path_ordering_shape : forall p ic oc, p <> [] -> all_okl p ->
  (path_ordering p = Some (ic, oc) <-> Shape (map cls p) oc ic).
Proof.
  intros p ic oc Hne Hok. rewrite path_ordering_cls by assumption. apply path_ordering_sig_shape.
  intros E. now apply map_eq_nil in E.
Qed.

Lemma in_range_okl : forall lo hi p, in_range lo hi p -> all_okl p.
Proof. intros lo hi p H e He. now apply H. Qed.

Lemma is_okl_attr : forall n k,
  is_okl (mkPel n k) = match okl_attr k with Some _ => true | None => false end.
Proof. intros n k. destruct k; try reflexivity. destruct o, i; reflexivity. Qed.

Lemma cls_attr : forall n k a, okl_attr k = Some a -> cls (mkPel n k) = a.
Proof.
  intros n k a H. destruct k; try discriminate H.
  destruct o, i; try discriminate H; injection H as <-; reflexivity.
Qed.

(* the leaves, read as attribute sequences, are the maximal OKL loop paths of Spec.v *)
Lemma G_sigs_both :
  (forall s n path,
     map (map cls) (G n path s) = map (app (map cls (Fp path))) (sigs s))
  /\ (forall l n path,
     map (map cls) (GL n path l) = map (app (map cls (Fp path))) (flat_map sigs l)).
Proof.
  apply stmt_list_ind.
  - intros k kids Hl n path. specialize (Hl (S n) (path ++ [mkPel n k])).
    rewrite Fp_snoc, is_okl_attr in Hl. rewrite G_eq, is_okl_attr. cbn [sigs]. cbv zeta.
    destruct (okl_attr k) as [a|] eqn:Ha; [|now rewrite app_nil_r in Hl].
    rewrite map_app in Hl. cbn [map] in Hl. rewrite (cls_attr _ _ _ Ha) in Hl.
    (* by Hl both lists are empty or neither: the `match` of G_eq and that of `sigs` agree *)
    destruct (GL (S n) (path ++ [mkPel n k]) kids), (flat_map sigs kids); try discriminate Hl.
    + cbn [map]. rewrite map_app. cbn [map]. now rewrite (cls_attr _ _ _ Ha).
    + rewrite Hl, map_map. apply map_ext. intros x. now rewrite <- app_assoc.
  - reflexivity.
  - intros c tl Hc Htl n path. rewrite GL_cons, map_app, Hc, Htl. cbn [flat_map]. now rewrite map_app.
Qed.

(* one group of the count loop: every path has the counts of the first *)
Definition same_counts (x : nat * nat) (p : list pel) : bool :=
  match path_ordering p with
  | Some y => Nat.eqb (fst x) (fst y) && Nat.eqb (snd x) (snd y)
  | None => false
  end.

Definition group_ok (L : list (list pel)) : bool :=
  match L with
  | [] => true
  | p :: r =>
    match path_ordering p with
    | None => false
    | Some x => forallb (same_counts x) r
    end
  end.

(* the count loop without the depth test: `count_loop` reads its variant only there *)
Definition count_loop0 := count_loop pinned.

Lemma count_loop_same : forall L t rest ic oc,
  (forall p, In p L -> head_id p = t) ->
  count_loop0 (L ++ rest) (Some t) ic oc
  = forallb (same_counts (ic, oc)) L && count_loop0 rest (Some t) ic oc.
Proof.
  unfold count_loop0. induction L as [|p L IH]; intros t rest ic oc Hh; [reflexivity|].
  simpl app. simpl count_loop. unfold same_counts at 1. simpl forallb.
  destruct (path_ordering p) as [[ic' oc']|]; [|reflexivity].
  rewrite (Hh p (or_introl eq_refl)), Nat.eqb_refl. simpl negb. cbn iota. simpl fst. simpl snd.
  destruct (ic =? ic') eqn:E1; simpl; [|reflexivity].
  destruct (oc =? oc') eqn:E2; simpl; [|reflexivity].
  apply IH. intros q Hq. apply Hh. now right.
Qed.

(* the leaves are consumed reversed: what follows those below a statement numbered from n comes
   from earlier siblings, starts with a smaller number, and the counts are reset *)
Definition rest_below (n : nat) (rest : list (list pel)) : Prop :=
  rest = [] \/ head_id (hd [] rest) < n.

Lemma rest_below_mono : forall n m rest, n <= m -> rest_below n rest -> rest_below m rest.
Proof. intros n m rest H [->|Hr]; [now left|right; lia]. Qed.

Lemma count_loop_reset : forall rest t ic oc, rest_below t rest ->
  count_loop0 rest (Some t) ic oc = count_loop0 rest None 0 0.
Proof.
  unfold count_loop0. intros [|p rest] t ic oc H; [reflexivity|].
  destruct H as [H|H]; [discriminate|]. simpl in H. simpl.
  destruct (path_ordering p) as [[ic' oc']|]; [|reflexivity].
  replace (t =? head_id p) with false by (symmetry; apply Nat.eqb_neq; lia).
  reflexivity.
Qed.

Lemma count_loop_group : forall L t rest,
  L <> [] -> (forall p, In p L -> head_id p = t) -> rest_below t rest ->
  count_loop0 (L ++ rest) None 0 0 = group_ok L && count_loop0 rest None 0 0.
Proof.
  intros [|p L] t rest Hne Hh Hr; [congruence|].
  unfold count_loop0 at 1. simpl app. simpl count_loop. fold count_loop0. unfold group_ok.
  destruct (path_ordering p) as [[ic oc]|]; [|reflexivity].
  simpl negb. cbn iota.
  rewrite (Hh p (or_introl eq_refl)).
  rewrite count_loop_same by (intros q Hq; apply Hh; now right).
  now rewrite (count_loop_reset rest t ic oc Hr).
Qed.

Lemma same_counts_iff : forall x p, same_counts x p = true <-> path_ordering p = Some x.
Proof.
  intros [a b] p. unfold same_counts. destruct (path_ordering p) as [[c d]|]; simpl; split; try congruence.
  - intros H. apply andb_prop in H. destruct H as [H1 H2].
    apply Nat.eqb_eq in H1, H2. congruence.
  - intros H. inversion H; subst. now rewrite !Nat.eqb_refl.
Qed.

Lemma group_ok_iff : forall L, L <> [] ->
  (group_ok L = true <-> exists x, forall p, In p L -> path_ordering p = Some x).
Proof.
  intros [|p L] Hne; [congruence|]. unfold group_ok. split.
  - destruct (path_ordering p) as [x|] eqn:E; [|discriminate]. intros H.
    exists x. intros q [<-|Hq]; [assumption|].
    rewrite forallb_forall in H. now apply same_counts_iff, H.
  - intros [x H]. rewrite (H p (or_introl eq_refl)).
    apply forallb_forall. intros q Hq. apply same_counts_iff, H. now right.
Qed.

Lemma sigs_okl_nonempty : forall k kids a, okl_attr k = Some a -> sigs (Node k kids) <> [].
Proof.
  intros k kids a H. simpl. rewrite H. destruct (flat_map sigs kids); simpl; discriminate.
Qed.

Lemma tops_sigs_nonempty :
  (forall s t, In t (tops s) -> sigs t <> [])
  /\ (forall l t, In t (flat_map tops l) -> sigs t <> []).
Proof.
  apply stmt_list_ind.
  - intros k kids IH t Ht. simpl in Ht. destruct (okl_attr k) as [a|] eqn:Ha; [|now apply IH].
    destruct Ht as [<-|[]]. eapply sigs_okl_nonempty; eauto.
  - intros t [].
  - intros c tl Hc Htl t Ht. simpl in Ht. apply in_app_or in Ht. destruct Ht; auto.
Qed.

Lemma top_ok_iff : forall t, sigs t <> [] -> (top_ok t = true <-> TopOK t).
Proof.
  intros t Hne. unfold top_ok, TopOK. destruct (sigs t) as [|s0 rest]; [congruence|]. split.
  - intros H. apply andb_prop in H. destruct H as [H1 H2].
    apply shape_ok_iff in H1. destruct H1 as (a & b & Hs). exists a, b.
    intros sg [<-|Hsg]; [assumption|].
    rewrite forallb_forall in H2. apply H2, sig_eqb_eq in Hsg. now subst.
  - intros (a & b & H). apply andb_true_intro. split.
    + apply shape_ok_iff. exists a, b. apply H. now left.
    + apply forallb_forall. intros sg Hsg. apply sig_eqb_eq.
      destruct (H sg (or_intror Hsg)) as (_ & _ & ->).
      destruct (H s0 (or_introl eq_refl)) as (_ & _ & ->). reflexivity.
Qed.

(* the leaves below an outermost OKL loop: one group, numbered by that loop *)
Section Top.
  Variables (n : nat) (path : list pel) (k : kind) (kids : list stmt) (a : lattr).
  Hypothesis HF : Fp path = [].
  Hypothesis Ha : okl_attr k = Some a.
  Let T := Node k kids.
  Let L := G n path T.

  Lemma top_leaves_nonempty : rev L <> [].
  Proof.
    unfold L, T. rewrite G_eq, is_okl_attr, Ha. cbv zeta.
    destruct (GL _ _ _) as [|p r]; [discriminate|].
    cbn [rev]. destruct (rev r); discriminate.
  Qed.

  Lemma top_leaves_head : forall p, In p L -> head_id p = n.
  Proof.
    intros p Hp. apply im_incl in Hp. unfold T in Hp. rewrite LP_eq, is_okl_attr, Ha in Hp.
    apply in_app_or in Hp. destruct Hp as [[<-|[]]|Hp].
    - rewrite HF. reflexivity.
    - destruct (LPL_shape _ _ _ _ Hp) as (q & -> & _).
      rewrite Fp_snoc, is_okl_attr, Ha, HF. reflexivity.
  Qed.

  Lemma top_sigs : map (map cls) L = sigs T.
  Proof. unfold L. rewrite (proj1 G_sigs_both), HF. apply map_id. Qed.

  Lemma group_ok_top : group_ok (rev L) = top_ok T.
  Proof.
    apply Bool.eq_true_iff_eq.
    rewrite (group_ok_iff _ top_leaves_nonempty), (top_ok_iff T (sigs_okl_nonempty _ _ _ Ha)).
    unfold TopOK. rewrite <- top_sigs.
    assert (Hs : forall p ic oc, In p L ->
              (path_ordering p = Some (ic, oc) <-> Shape (map cls p) oc ic)).
    { intros p ic oc Hp. destruct (G_shape _ _ _ _ HF Hp) as [Hne Hr].
      apply path_ordering_shape; [assumption|]. exact (in_range_okl _ _ _ Hr). }
    split.
    - intros [[ic oc] H]. exists oc, ic. intros sg Hsg.
      apply in_map_iff in Hsg. destruct Hsg as (p & <- & Hp).
      apply (Hs _ _ _ Hp), H. now apply -> in_rev.
    - intros (oc & ic & H). exists (ic, oc). intros p Hp. apply in_rev in Hp.
      apply (Hs _ _ _ Hp), H. now apply in_map.
  Qed.
End Top.

Lemma rest_below_step : forall s n path rest, Fp path = [] -> rest_below n rest ->
  rest_below (n + size s) (rev (G n path s) ++ rest).
Proof.
  intros s n path rest HF Hr.
  destruct (rev (G n path s)) as [|p r] eqn:E.
  - apply (rest_below_mono n); [lia|exact Hr].
  - right. cbn.
    assert (Hp : In p (G n path s)) by (apply in_rev; rewrite E; now left).
    destruct (G_shape _ _ _ _ HF Hp) as [Hne Hrg]. apply (in_range_head _ _ _ Hne Hrg).
Qed.

Lemma nest_both :
  (forall s n path rest, Fp path = [] -> rest_below n rest ->
     count_loop0 (rev (G n path s) ++ rest) None 0 0
     = forallb top_ok (tops s) && count_loop0 rest None 0 0)
  /\ (forall l n path rest, Fp path = [] -> rest_below n rest ->
     count_loop0 (rev (GL n path l) ++ rest) None 0 0
     = forallb top_ok (flat_map tops l) && count_loop0 rest None 0 0).
Proof.
  apply stmt_list_ind.
  - intros k kids HL n path rest HF Hr.
    cbn [tops]. destruct (okl_attr k) as [a|] eqn:Ha.
    + cbn [forallb]. rewrite andb_true_r, <- (group_ok_top n path k kids a HF Ha).
      apply (count_loop_group _ n).
      * exact (top_leaves_nonempty n path k kids a Ha).
      * intros p Hp. apply in_rev in Hp. now apply (top_leaves_head n path k kids a HF Ha).
      * exact Hr.
    + rewrite G_eq, is_okl_attr, Ha. apply HL.
      * now rewrite Fp_snoc, is_okl_attr, Ha, app_nil_r.
      * apply (rest_below_mono n); [lia|exact Hr].
  - reflexivity.
  - intros c tl Hc Htl n path rest HF Hr.
    rewrite GL_cons, rev_app_distr, <- app_assoc.
    rewrite Htl by (auto using rest_below_step).
    rewrite Hc by assumption. cbn [flat_map]. rewrite forallb_app, !andb_assoc. f_equal. apply andb_comm.
Qed.

Lemma count_attr_app : forall a x y, count_attr a (x ++ y) = count_attr a x + count_attr a y.
Proof. induction x as [|b x IH]; intros y; simpl; [reflexivity|]. rewrite IH. lia. Qed.

Lemma count_attr_repeat : forall a b n,
  count_attr a (repeat b n) = if lattr_eqb a b then n else 0.
Proof.
  intros a b n. induction n as [|n IH]; simpl; [now destruct (lattr_eqb a b)|].
  rewrite IH. now destruct (lattr_eqb a b).
Qed.

Lemma Shape_depth : forall sg a b, Shape sg a b -> depth_sig_ok sg = Nat.leb a 3 && Nat.leb b 3.
Proof.
  intros sg a b (_ & _ & ->). unfold depth_sig_ok.
  rewrite !count_attr_app, !count_attr_repeat. cbn. now rewrite Nat.add_0_r.
Qed.

Lemma forallb_rev : forall {A} (f : A -> bool) l, forallb f (rev l) = forallb f l.
Proof.
  intros A f l. induction l as [|a l IH]; [reflexivity|].
  simpl. rewrite forallb_app, IH. simpl. rewrite andb_true_r. apply andb_comm.
Qed.

(* the depth test looks at the counts of the path alone, so it can be taken out of the loop *)
Lemma count_loop_depth : forall v ps cur ci co,
  (forall p, In p ps -> p <> [] /\ all_okl p) ->
  count_loop v ps cur ci co
  = count_loop0 ps cur ci co
    && (v_depth_unchecked v || forallb depth_sig_ok (map (map cls) ps)).
Proof.
  unfold count_loop0. induction ps as [|p ps IH]; intros cur ci co H; [now rewrite orb_true_r|].
  cbn [count_loop map forallb].
  destruct (path_ordering p) as [[ic oc]|] eqn:E; [|reflexivity].
  destruct (H p (or_introl eq_refl)) as [Hne Hok].
  apply (path_ordering_shape p ic oc Hne Hok) in E. rewrite (Shape_depth _ _ _ E).
  rewrite !IH by (intros q Hq; apply H; now right).
  unfold depth_ok. cbn [pinned v_depth_unchecked orb negb].
  rewrite (andb_comm (Nat.leb ic 3)).
  destruct (v_depth_unchecked v); cbn [orb negb]; [now rewrite !andb_true_r|].
  destruct (Nat.leb oc 3 && Nat.leb ic 3); cbn [negb andb]; [|now rewrite andb_false_r].
  destruct (negb _); [reflexivity|]. destruct (negb _); [reflexivity|]. now destruct (negb _).
Qed.

Lemma count_loop_variant : forall v k,
  count_loop v (innerMostPaths (visits k)) None 0 0
  = nesting_ok (k_body k) && (v_depth_unchecked v || depth_rule (k_body k)).
Proof.
  intros v k. rewrite innerMostPaths_leaves, count_loop_depth.
  - rewrite map_rev, forallb_rev, (proj2 G_sigs_both), map_id.
    rewrite <- (app_nil_r (rev _)), (proj2 nest_both) by (try reflexivity; now left).
    unfold count_loop0. cbn [count_loop]. now rewrite andb_true_r.
  - intros p Hp. apply in_rev in Hp.
    destruct (GL_shape 1 [root] _ p eq_refl Hp) as [Hne Hr]. eauto using in_range_okl.
Qed.
