(* C19 — proofs.  (A) the index tree the fixed code builds is a tree a C parser produces, so its text is
   read back unchanged and its value is the Horner form of the documented sum; (B) the Horner form
   over a permutation of the positions is a bijection from in-range index tuples onto [0, prod D). *)
From Coq Require Import List ZArith Bool Lia Arith Permutation.
From OV.C17 Require Import Expr ExprProofs.
From OV.C19 Require Import Model Spec.
Import ListNotations.
Local Open Scope Z_scope.

Fixpoint horner (os : list nat) (D A : list Z) : Z :=
  match os with
  | [] => 0
  | o :: t => nth o A 0 + nth o D 0 * horner t D A
  end.

Lemma mr_sum_horner : forall os D A w, mr_sum os D A w = w * horner os D A.
Proof.
  induction os as [|o t IH]; intros D A w; cbn [mr_sum horner]; [symmetry; apply Z.mul_0_r|].
  rewrite IH, Z.mul_add_distr_l, (Z.mul_comm w (nth o A 0)), Z.mul_assoc. reflexivity.
Qed.

Lemma mixed_radix_horner : forall os D A, mixed_radix os D A = horner os D A.
Proof. intros. unfold mixed_radix. rewrite mr_sum_horner. apply Z.mul_1_l. Qed.

Definition hstep (D A : list Z) (acc : Z) (o : nat) : Z := nth o A 0 + nth o D 0 * acc.

(* index_tree walks rev order, accumulating from the last entry *)
Lemma horner_fold : forall os D A, horner os D A = fold_left (hstep D A) (rev os) 0.
Proof.
  induction os as [|o t IH]; intros D A; [reflexivity|].
  cbn [horner rev]. rewrite fold_left_app. cbn [fold_left]. unfold hstep at 1. rewrite IH. reflexivity.
Qed.

(* one round of the loop, ARG + ((DIM) * (index)), with the two lookups made total *)
Definition round (dims args : list expr) (idx : expr) (o : nat) : expr :=
  Bin Add (wrap (nth o args (Num 0))) (wrap (Bin Mul (wrap (nth o dims (Num 0))) (wrap idx))).

Lemma fold_index_rounds : forall dims args os idx,
  (forall o, In o os -> (o < length args)%nat /\ (o < length dims)%nat) ->
  fold_index d_fixed dims args os idx = Some (fold_left (round dims args) os idx).
Proof.
  intros dims args os. induction os as [|o t IH]; intros idx H; [reflexivity|].
  destruct (H o (or_introl eq_refl)) as [Ha Hd]. cbn [fold_index fold_left].
  rewrite (nth_error_nth' args (Num 0) Ha), (nth_error_nth' dims (Num 0) Hd).
  apply IH. intros o' Ho'. apply H. right. exact Ho'.
Qed.

(* the default of the lookup is a literal, so no bound on the position is needed *)
Lemma safe_nth : forall l o, forallb safe l = true -> safe (nth o l (Num 0)) = true.
Proof.
  intros l o H. destruct (nth_in_or_default o l (Num 0)) as [Hin| ->]; [|reflexivity].
  rewrite forallb_forall in H. apply H, Hin.
Qed.

Lemma safe_rounds : forall dims args os idx,
  forallb safe dims = true -> forallb safe args = true -> safe idx = true ->
  safe (fold_left (round dims args) os idx) = true.
Proof.
  intros dims args os. induction os as [|o t IH]; intros idx Sd Sa Si; [exact Si|].
  cbn [fold_left]. apply IH; try assumption. unfold round. cbn [wrap safe eprec bprec].
  rewrite !safe_wrap, !eprec_wrap, (safe_nth _ o Sa), (safe_nth _ o Sd), Si. reflexivity.
Qed.

Lemma eval_rounds : forall rho dims args os idx,
  eval rho (fold_left (round dims args) os idx) =
  fold_left (hstep (map (eval rho) dims) (map (eval rho) args)) os (eval rho idx).
Proof.
  intros rho dims args os. induction os as [|o t IH]; intros idx; [reflexivity|].
  cbn [fold_left]. rewrite IH. f_equal. unfold round, hstep. cbn [wrap eval bin_sem].
  rewrite !eval_wrap, <- (map_nth (eval rho) args (Num 0)), <- (map_nth (eval rho) dims (Num 0)).
  reflexivity.
Qed.

Definition prod_over (os : list nat) (D : list Z) : Z :=
  fold_right (fun o p => nth o D 0 * p) 1 os.

Definition digits_ok (os : list nat) (D A : list Z) : Prop :=
  forall o, In o os -> 0 <= nth o A 0 < nth o D 0.

Lemma digit_range : forall a d h p, 0 <= a < d -> 0 <= h < p -> 0 <= a + d * h < d * p.
Proof.
  intros a d h p Ha Hh.
  assert (0 <= d * h <= d * (p - 1)).
  { split; [apply Z.mul_nonneg_nonneg|apply Z.mul_le_mono_nonneg_l]; lia. }
  lia.
Qed.

Lemma digit_inj : forall a a' d h h',
  0 <= a < d -> 0 <= a' < d -> a + d * h = a' + d * h' -> h = h' /\ a = a'.
Proof.
  intros a a' d h h' Ha Ha' E. apply (Z.div_mod_unique d); [left; exact Ha|left; exact Ha'|].
  rewrite (Z.add_comm (d * h)), (Z.add_comm (d * h')). exact E.
Qed.

Lemma digits_ok_tail : forall o t D A, digits_ok (o :: t) D A -> digits_ok t D A.
Proof. intros o t D A H x Hx. apply H. right. exact Hx. Qed.

Lemma horner_range : forall os D A, digits_ok os D A -> 0 <= horner os D A < prod_over os D.
Proof.
  induction os as [|o t IH]; intros D A H; cbn [horner prod_over fold_right]; [lia|].
  apply digit_range; [apply H; left; reflexivity|apply IH, (digits_ok_tail o), H].
Qed.

Lemma horner_inj : forall os D A A',
  digits_ok os D A -> digits_ok os D A' -> horner os D A = horner os D A' ->
  forall o, In o os -> nth o A 0 = nth o A' 0.
Proof.
  induction os as [|o t IH]; intros D A A' H H' E o' Ho'; [contradiction|].
  cbn [horner] in E.
  destruct (digit_inj _ _ _ _ _ (H o (or_introl eq_refl)) (H' o (or_introl eq_refl)) E) as [Eh Ea].
  destruct Ho' as [<-|Hin]; [exact Ea|].
  exact (IH D A A' (digits_ok_tail o _ _ _ H) (digits_ok_tail o _ _ _ H') Eh o' Hin).
Qed.

Lemma horner_ext : forall os D A A',
  (forall o, In o os -> nth o A 0 = nth o A' 0) -> horner os D A = horner os D A'.
Proof.
  induction os as [|o t IH]; intros D A A' H; cbn [horner]; [reflexivity|].
  rewrite (H o (or_introl eq_refl)), (IH D A A'); [reflexivity|].
  intros; apply H; right; assumption.
Qed.

(* digit at position j when x is decoded along os *)
Fixpoint decode (os : list nat) (D : list Z) (x : Z) (j : nat) : Z :=
  match os with
  | [] => 0
  | o :: t => if Nat.eqb j o then x mod nth o D 0 else decode t D (x / nth o D 0) j
  end.

Lemma horner_decode : forall os D x A,
  NoDup os -> (forall o, In o os -> 0 < nth o D 0) -> 0 <= x < prod_over os D ->
  (forall o, In o os -> nth o A 0 = decode os D x o) ->
  horner os D A = x /\ digits_ok os D A.
Proof.
  induction os as [|o t IH]; intros D x A Hnd Hpos Hx HA.
  - cbn [prod_over fold_right] in Hx. split; [cbn [horner]; lia|intros o []].
  - apply NoDup_cons_iff in Hnd as [Hnotin Hnd'].
    pose proof (Hpos o (or_introl eq_refl)) as Ho.
    cbn [prod_over fold_right] in Hx. fold (prod_over t D) in Hx.
    pose proof (HA o (or_introl eq_refl)) as Hao. cbn [decode] in Hao. rewrite Nat.eqb_refl in Hao.
    destruct (IH D (x / nth o D 0) A Hnd' (fun o' H' => Hpos o' (or_intror H'))) as [IH1 IH2].
    { split; [apply Z.div_pos; [apply Hx|exact Ho]|apply Z.div_lt_upper_bound; [exact Ho|apply Hx]]. }
    { intros o' Ho'. rewrite (HA o' (or_intror Ho')). cbn [decode].
      destruct (Nat.eqb_spec o' o); [subst; contradiction|reflexivity]. }
    split.
    + cbn [horner]. rewrite Hao, IH1, Z.add_comm. symmetry. apply Z.div_mod, Z.neq_sym, Z.lt_neq, Ho.
    + intros o' [<-|Ho']; [rewrite Hao; apply Z.mod_pos_bound; exact Ho|apply IH2; exact Ho'].
Qed.

Lemma in_seq0 : forall k n, In k (seq 0 n) <-> (k < n)%nat.
Proof.
  intros k n. rewrite in_seq. split; [intros [_ H]; exact H|intro H; split; [apply Nat.le_0_l|exact H]].
Qed.

Lemma prod_over_perm : forall os os' D, Permutation os os' -> prod_over os D = prod_over os' D.
Proof.
  intros os os' D H. unfold prod_over. induction H; cbn [fold_right].
  - reflexivity.
  - rewrite IHPermutation. reflexivity.
  - apply Z.mul_shuffle3.
  - rewrite IHPermutation1. exact IHPermutation2.
Qed.

Lemma prod_over_shift : forall (D : list Z) d k n,
  prod_over (seq (S k) n) (d :: D) = prod_over (seq k n) D.
Proof.
  intros D d k n. revert k. induction n; intros k; cbn [seq prod_over fold_right]; [reflexivity|].
  fold (prod_over (seq (S (S k)) n) (d :: D)). fold (prod_over (seq (S k) n) D).
  rewrite IHn. reflexivity.
Qed.

Lemma prod_over_seq : forall D, prod_over (seq 0 (length D)) D = total D.
Proof.
  induction D as [|d t IH]; cbn [length seq prod_over fold_right total]; [reflexivity|].
  fold (prod_over (seq 1 (length t)) (d :: t)). rewrite prod_over_shift, IH. reflexivity.
Qed.
