(* C19 — @dim array access computes the documented linear index.  The lemmas the proofs use are
   in Proofs.v.  Vocabulary: C17/Expr.v (trees, print, reread, eval), C19/Model.v (the fold of
   dim::applyCodeTransformations), C19/Spec.v (documented mixed-radix index). *)
From Coq Require Import List ZArith Bool Lia Permutation.
From OV.C17 Require Import Expr.
From OV.C19 Require Import Model Spec Proofs.
Import ListNotations.
Local Open Scope Z_scope.

(* For every arity, every order whose entries are positions, and index / dimension expressions of any
   operator class (anything a C parser can produce): the rewritten subscript, READ BACK from its
   printed text with C precedence, has the documented mixed-radix value in every environment. *)
Theorem dim_formula : forall rho order dims args,
  wf_dim dims args = true -> order <> [] ->
  (forall o, In o order -> (o < length args)%nat) ->
  index_value d_fixed rho order dims args =
  Some (mixed_radix order (map (eval rho) dims) (map (eval rho) args)).
Proof.
  intros rho order dims args Hwf Hne Hos.
  unfold wf_dim in Hwf. apply andb_prop in Hwf as [Hwf Sa]. apply andb_prop in Hwf as [Hlen Sd].
  apply Nat.eqb_eq in Hlen.
  rewrite mixed_radix_horner, horner_fold.
  unfold index_value, index_tree.
  destruct (rev order) as [|o t] eqn:Er.
  { apply (f_equal (@rev nat)) in Er. rewrite rev_involutive in Er. cbn in Er. contradiction. }
  assert (Hin : forall o', In o' (o :: t) -> (o' < length args)%nat).
  { intros o' Ho'. apply Hos. apply in_rev. rewrite Er. exact Ho'. }
  rewrite (nth_error_nth' args (Num 0) (Hin o (or_introl eq_refl))).
  rewrite fold_index_rounds
    by (intros o' Ho'; split; [|rewrite Hlen]; apply Hin; right; exact Ho').
  rewrite ExprProofs.reread_safe by (apply safe_rounds; auto using safe_nth).
  rewrite eval_rounds.
  (* index_tree starts from the bare last argument: the first round of the Horner fold from 0 *)
  cbn [fold_left]. do 2 f_equal.
  unfold hstep. rewrite Z.mul_0_r, Z.add_0_r. symmetry. apply (map_nth (eval rho) args (Num 0)).
Qed.
Print Assumptions dim_formula.

(* The check dimOrder::isValid / getDimOrder performs yields a permutation. *)
Theorem valid_order_permutation : forall n order,
  valid_order n order = true -> Permutation order (seq 0 n).
Proof.
  intros n order H. unfold valid_order in H.
  apply andb_prop in H as [H Hc]. apply andb_prop in H as [Hl Hb].
  apply Nat.eqb_eq in Hl. rewrite forallb_forall in Hb, Hc.
  apply (Permutation_count_occ Nat.eq_dec). intros k.
  destruct (lt_dec k n) as [Hk|Hk].
  - apply in_seq0 in Hk. specialize (Hc k Hk). apply Nat.eqb_eq in Hc. rewrite Hc.
    symmetry. apply NoDup_count_occ'; [apply seq_NoDup|exact Hk].
  - rewrite (proj1 (count_occ_not_In Nat.eq_dec order k)).
    + symmetry. apply count_occ_not_In. intro Hin. apply Hk, in_seq0, Hin.
    + intro Hin. apply Hk, Nat.ltb_lt, Hb, Hin.
Qed.
Print Assumptions valid_order_permutation.

(* For a permutation order the documented index maps the in-range index tuples one-to-one onto
   [0, D0 * ... * Dk). *)
Theorem dim_bijection : forall order D,
  Permutation order (seq 0 (length D)) ->
  (forall A, in_range D A -> 0 <= mixed_radix order D A < total D) /\
  (forall A A', in_range D A -> in_range D A' ->
                mixed_radix order D A = mixed_radix order D A' -> A = A') /\
  ((forall j, (j < length D)%nat -> 0 < nth j D 0) ->
   forall x, 0 <= x < total D -> exists A, in_range D A /\ mixed_radix order D A = x).
Proof.
  intros order D HP.
  assert (Hin : forall o, In o order <-> (o < length D)%nat).
  { intros o. rewrite <- in_seq0. split; apply Permutation_in; [|apply Permutation_sym]; exact HP. }
  assert (Hprod : prod_over order D = total D).
  { rewrite (prod_over_perm _ _ D HP). apply prod_over_seq. }
  assert (Hok : forall A, in_range D A -> digits_ok order D A).
  { intros A [_ HA] o Ho. apply HA. apply Hin. exact Ho. }
  split; [|split].
  - intros A HA. rewrite mixed_radix_horner, <- Hprod. apply horner_range. apply Hok. exact HA.
  - intros A A' HA HA' E. rewrite !mixed_radix_horner in E.
    pose proof (horner_inj order D A A' (Hok A HA) (Hok A' HA') E) as Hd.
    destruct HA as [LA _]. destruct HA' as [LA' _].
    apply (nth_ext A A' 0 0); [congruence|].
    intros j Hj. apply Hd. apply Hin. rewrite <- LA. exact Hj.
  - intros Hpos x Hx.
    assert (Hnd : NoDup order).
    { apply (Permutation_NoDup (Permutation_sym HP)). apply seq_NoDup. }
    set (A := map (decode order D x) (seq 0 (length D))).
    assert (HnA : forall o, In o order -> nth o A 0 = decode order D x o).
    { intros o Ho. apply Hin in Ho. unfold A.
      rewrite (nth_indep _ 0 (decode order D x 0)) by (rewrite map_length, seq_length; exact Ho).
      rewrite map_nth, seq_nth by exact Ho. reflexivity. }
    rewrite <- Hprod in Hx.
    destruct (horner_decode order D x A Hnd (fun o Ho => Hpos o (proj1 (Hin o) Ho)) Hx HnA)
      as [H1 H2].
    exists A. split.
    + split; [unfold A; rewrite map_length, seq_length; reflexivity|].
      intros j Hj. apply H2. apply Hin. exact Hj.
    + rewrite mixed_radix_horner. exact H1.
Qed.
Print Assumptions dim_bijection.

(* the pinned source: index arguments are not parenthesised *)
Definition a : expr := Var 0.
Definition b : expr := Var 1.
Definition c : expr := Var 2.
Definition j : expr := Var 3.
Definition X : expr := Var 4.
Definition Y : expr := Var 5.
Definition rho1 : env := fun x => match x with 0 => 1 | 1 => 2 | 2 => 3 | 3 => 1 | 4 => 4 | _ => 5 end.

(* x(a ? b : c, j) with @dim(X, Y): `a ? b : c + (X * j)` is b = 2, the documented index is 2 + 4*1 *)
Theorem dim_arg_parens_refuted : exists rho order dims args,
  wf_dim dims args = true /\ valid_order (length args) order = true /\
  index_value d_pinned rho order dims args = Some 2 /\
  mixed_radix order (map (eval rho) dims) (map (eval rho) args) = 6.
Proof.
  exists rho1, [0%nat; 1%nat], [X; Y], [Tern a b c; j]. repeat split; reflexivity.
Qed.
Print Assumptions dim_arg_parens_refuted.

(* x(a << 1, j): `a << 1 + (X * j)` shifts by 1 + 4;  x(4 | a, j): `4 | a + (X * j)`;
   x(c & 1, j): `c & 1 + (X * j)` *)
Theorem dim_arg_parens_refuted_shift_or_and :
  index_value d_pinned rho1 [0%nat; 1%nat] [X; Y] [Bin Shl a (Num 1); j] = Some 32 /\
  mixed_radix [0%nat; 1%nat] [4; 5] [2; 1] = 6 /\
  index_value d_pinned rho1 [0%nat; 1%nat] [X; Y] [Bin BOr (Num 4) a; j] = Some 5 /\
  mixed_radix [0%nat; 1%nat] [4; 5] [5; 1] = 9 /\
  index_value d_pinned rho1 [0%nat; 1%nat] [X; Y] [Bin BAnd c (Num 1); j] = Some 1 /\
  mixed_radix [0%nat; 1%nat] [4; 5] [1; 1] = 5.
Proof. repeat split; reflexivity. Qed.

Example ex_dim_order :
  (* docs/guide/okl/attributes.md: mat23 yx @dim(2,3) @dimOrder(1,0); yx(1,2) -> yx[2 + (1 * 3)] *)
  option_map print (index_tree d_fixed [1%nat; 0%nat] [Num 2; Num 3] [Num 1; Num 2]) =
    Some [KNum 2; KBin Add; KLP; KNum 3; KBin Mul; KNum 1; KRP] /\
  index_value d_fixed rho1 [1%nat; 0%nat] [Num 2; Num 3] [Num 1; Num 2] = Some 5 /\
  index_value d_fixed rho1 [0%nat; 1%nat] [X; Y] [Tern a b c; j] = Some 6 /\
  index_value d_fixed rho1 [2%nat; 0%nat; 1%nat] [X; Y; Num 3] [Bin Shl a (Num 1); Bin BOr b (Num 4); j]
    = Some (1 + 3 * (2 + 4 * 6)).
Proof. repeat split; reflexivity. Qed.
