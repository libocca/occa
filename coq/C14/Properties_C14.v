(* C14 — constant folding computes what C++ computes.

   Vocabulary: Syntax.expr (literals as written, unary/binary/conditional operators), Model.eval
   (OCCA's folder; cfg = fixed is the tree with fixes/C14-1..6 applied, cfg = pinned the tree
   before them), Spec.cpp_eval (C++17 on LP64; None = ill-formed or undefined), Spec.type_of,
   Spec.guards.  erase maps a C++ value to the OCCA primitive with the same value, signedness and
   width (long and long long are both int64, unsigned long and unsigned long long both uint64).

   Floats: every theorem holds for every type F and every implementation `ops : fops F` of the
   float interface that satisfies the two hypotheses spelled out in the statements
   (an integer z with |z| < 2^64 converts to a non-zero float exactly when z is non-zero;
   float -> double keeps zero-ness).

   FULL STATEMENT (false on the current code, see the *_refuted theorems on cfg = fixed):
       forall e v, cpp_eval ops e = Some v -> eval ops fixed e = Val (erase v)
   fold_agrees_partial has in addition the two float hypotheses and `guards e = true`, which
   excludes three recorded findings: `~` applied to a bool operand, `& | ^` applied to two bool
   operands, `?:` whose second and third operands have different types. *)
From Coq Require Import List ZArith Bool.
From OV.C14 Require Import Syntax Model Spec ProofsLit ProofsOps.
Import ListNotations.
Local Open Scope Z_scope.

Theorem fold_agrees_partial :
  forall (F : Type) (ops : fops F),
    (forall s z, - 2 ^ 64 < z < 2 ^ 64 -> fnonzero ops (f_of_Z ops s z) = negb (z =? 0)) ->
    (forall f, fnonzero ops (f64_of_f32 ops f) = fnonzero ops f) ->
    forall (e : expr F) (v : cval),
      guards e = true ->
      cpp_eval ops e = Some v ->
      eval ops fixed e = Val (erase v).
Proof. exact (@fold_agrees_guarded). Qed.
Print Assumptions fold_agrees_partial.

(* the static type of the expression is the type of the value the specification defines *)
Theorem cpp_eval_sound :
  forall (F : Type) (ops : fops F) (e : expr F) (v : cval),
    cpp_eval ops e = Some v -> type_of e = Some (ctype_of v).
Proof. intros F ops e v H. exact (proj1 (cpp_eval_typed ops e v H)). Qed.
Print Assumptions cpp_eval_sound.

(* literal text gets the type C++ gives it ([lex.icon]) and its exact value *)
Theorem literal_typing_agrees :
  forall (F : Type) (l : ilit) (t : ityp),
    lit_type l = Some t ->
    @load_int F fixed l = PI (erase_t t) (lit_value (l_base l) (l_digits l)).
Proof. exact (@load_int_agrees). Qed.
Print Assumptions literal_typing_agrees.

(* the conversion step of the usual arithmetic conversions is part of both sides: an integer operand
   compared with a float (double) operand is first converted into that floating type (f_of_Z with
   s = true / false), and only then compared; so 16777217 == 16777216.0f is decided in float, where
   both are 2^24 (== with the integer literal on the left; holds for every float implementation) *)
Theorem mixed_compare_converts_first :
  forall (F : Type) (ops : fops F) (s : bool) (il : ilit) (t : ityp) (f : F),
    lit_type il = Some t -> ffinite ops f = true ->
    let z := lit_value (l_base il) (l_digits il) in
    let e := EBin Eq (ELit (LInt il)) (ELit (LFloat s f)) in
    cpp_eval ops e = Some (CI TBool (b2z (feq ops (f_of_Z ops s z) f))) /\
    eval ops fixed e = Val (PI KBool (b2z (feq ops (f_of_Z ops s z) f))).
Proof.
  intros F ops s il t f Ht Hf z e. subst e. split.
  - cbn [cpp_eval lit_eval]. rewrite Ht, Hf. destruct s; reflexivity.
  - cbn [eval load]. rewrite (load_int_agrees il t Ht).
    cbn [fix_sc fixed andb]. unfold binop_eval. cbn [is_shift andb].
    rewrite ret_type_if. destruct s; reflexivity.
Qed.
Print Assumptions mixed_compare_converts_first.

(* operands that C++ does not evaluate are not evaluated: whatever b is (even if evaluating it is
   undefined behaviour in the library), a false left operand of && decides the result *)
Theorem and_skips_right :
  forall (F : Type) (ops : fops F),
    (forall s z, - 2 ^ 64 < z < 2 ^ 64 -> fnonzero ops (f_of_Z ops s z) = negb (z =? 0)) ->
    (forall f, fnonzero ops (f64_of_f32 ops f) = fnonzero ops f) ->
    forall (a b : expr F) (va : cval),
      guards a = true -> cpp_eval ops a = Some va -> truth ops va = false ->
      eval ops fixed (EBin LAnd a b) = Val (PI KBool 0).
Proof.
  intros F ops H1 H2 a b va Hg Ha Ht. cbn [eval].
  rewrite (fold_agrees_guarded ops H1 H2 a va Hg Ha).
  cbn [fix_sc fixed andb]. rewrite truthy_erase, Ht. reflexivity.
Qed.
Print Assumptions and_skips_right.

Theorem or_skips_right :
  forall (F : Type) (ops : fops F),
    (forall s z, - 2 ^ 64 < z < 2 ^ 64 -> fnonzero ops (f_of_Z ops s z) = negb (z =? 0)) ->
    (forall f, fnonzero ops (f64_of_f32 ops f) = fnonzero ops f) ->
    forall (a b : expr F) (va : cval),
      guards a = true -> cpp_eval ops a = Some va -> truth ops va = true ->
      eval ops fixed (EBin LOr a b) = Val (PI KBool 1).
Proof.
  intros F ops H1 H2 a b va Hg Ha Ht. cbn [eval].
  rewrite (fold_agrees_guarded ops H1 H2 a va Hg Ha).
  cbn [fix_sc fixed andb]. rewrite truthy_erase, Ht. reflexivity.
Qed.
Print Assumptions or_skips_right.

Definition dec (ds : list Z) : ilit := mk_ilit Dec ds false 0.
Definition decu (ds : list Z) : ilit := mk_ilit Dec ds true 0.
Definition hex (ds : list Z) : ilit := mk_ilit Hex ds false 0.
Definition zero : ilit := mk_ilit Oct [] false 0.          (* the literal "0" is an octal literal *)
Definition ilit_e {F} (l : ilit) : expr F := ELit (LInt l).

(* the pinned code violates the property: one witness per repaired defect; cfg = pinned *)
Theorem big_decimal_refuted :        (* 4294967296 is (long) 4294967296 in C++, (int) 0 in OCCA *)
  forall (F : Type) (ops : fops F), exists (e : expr F) v,
    cpp_eval ops e = Some v /\ eval ops pinned e <> Val (erase v).
Proof.
  intros. exists (ilit_e (dec [4;2;9;4;9;6;7;2;9;6])), (CI TLong 4294967296).
  split; [vm_compute; reflexivity | vm_compute; discriminate].
Qed.
Print Assumptions big_decimal_refuted.

Theorem hex_topbit_refuted :         (* 0x80000000 is (unsigned) 2147483648 in C++, (int) -2147483648 in OCCA *)
  forall (F : Type) (ops : fops F), exists (e : expr F) v,
    cpp_eval ops e = Some v /\ eval ops pinned e <> Val (erase v).
Proof.
  intros. exists (ilit_e (hex [8;0;0;0;0;0;0;0])), (CI TUInt 2147483648).
  split; [vm_compute; reflexivity | vm_compute; discriminate].
Qed.
Print Assumptions hex_topbit_refuted.

Theorem shift_type_refuted :         (* -1 >> 1u is (int) -1 in C++, (unsigned) 2147483647 in OCCA *)
  forall (F : Type) (ops : fops F), exists (e : expr F) v,
    cpp_eval ops e = Some v /\ eval ops pinned e <> Val (erase v).
Proof.
  intros. exists (EBin Shr (EUn UNeg (ilit_e (dec [1]))) (ilit_e (decu [1]))), (CI TInt (-1)).
  split; [vm_compute; reflexivity | vm_compute; discriminate].
Qed.
Print Assumptions shift_type_refuted.

Theorem eager_and_refuted :          (* 0 && (1 / 0) is false in C++; OCCA divides by zero *)
  forall (F : Type) (ops : fops F), exists (e : expr F) v,
    cpp_eval ops e = Some v /\ eval ops pinned e = UB.
Proof.
  intros. exists (EBin LAnd (ilit_e zero) (EBin Div (ilit_e (dec [1])) (ilit_e zero))), (CI TBool 0).
  split; vm_compute; reflexivity.
Qed.
Print Assumptions eager_and_refuted.

Theorem mixed_eq_refuted :           (* 1 == 1.0 is true in C++; OCCA compares the bytes of (int) 1 with those of 1.0 *)
  forall (F : Type) (ops : fops F) (one : F),
    ffinite ops one = true ->
    feq ops (f_of_Z ops false 1) one = true ->          (* `one` is the double 1.0 *)
    (fbits ops false one) mod 2 ^ 64 <> 1 ->             (* whose bit pattern is not that of the integer 1 *)
    exists (e : expr F) v,
      cpp_eval ops e = Some v /\ eval ops pinned e <> Val (erase v).
Proof.
  intros F ops one Hfin Heq Hbits.
  exists (EBin Eq (ilit_e (dec [1])) (ELit (LFloat false one))), (CI TBool 1).
  split.
  - cbn. rewrite Hfin. cbn. rewrite Heq. reflexivity.
  - change (eval ops pinned _) with (@Val F (pbool (1 =? fbits ops false one mod 2 ^ 64))).
    rewrite (proj2 (Z.eqb_neq _ _)) by congruence. discriminate.
Qed.
Print Assumptions mixed_eq_refuted.

Theorem not_float_refuted :          (* !x for a double x is a bool in C++; OCCA throws *)
  forall (F : Type) (ops : fops F) (x : F),
    ffinite ops x = true ->
    exists (e : expr F) v,
      cpp_eval ops e = Some v /\ eval ops pinned e = Err.
Proof.
  intros F ops x Hfin.
  exists (EUn UNot (ELit (LFloat false x))), (CI TBool (b2z (negb (fnonzero ops x)))).
  split; cbn; [rewrite Hfin; reflexivity | reflexivity].
Qed.
Print Assumptions not_float_refuted.

(* recorded findings: the repaired code still violates the full statement on these (cfg = fixed);
   they are what `guards` excludes *)
Theorem tilde_bool_refuted :         (* ~true is (int) -2 in C++, (bool) false in OCCA *)
  forall (F : Type) (ops : fops F), exists (e : expr F) v,
    guards e = false /\ cpp_eval ops e = Some v /\ eval ops fixed e <> Val (erase v).
Proof.
  intros. exists (EUn UTilde (ELit (LBool true))), (CI TInt (-2)).
  repeat split; vm_compute; try reflexivity; discriminate.
Qed.
Print Assumptions tilde_bool_refuted.

Theorem bitop_bool_refuted :         (* true & true is (int) 1 in C++; OCCA throws *)
  forall (F : Type) (ops : fops F), exists (e : expr F) v,
    guards e = false /\ cpp_eval ops e = Some v /\ eval ops fixed e = Err.
Proof.
  intros. exists (EBin BAnd (ELit (LBool true)) (ELit (LBool true))), (CI TInt 1).
  repeat split; vm_compute; reflexivity.
Qed.
Print Assumptions bitop_bool_refuted.

Theorem ternary_type_refuted :       (* 1 ? 1 : 2.0 is the double 1.0 in C++, (int) 1 in OCCA *)
  forall (F : Type) (ops : fops F) (two : F), exists (e : expr F) v,
    guards e = false /\ cpp_eval ops e = Some v /\ eval ops fixed e <> Val (erase v).
Proof.
  intros F ops two.
  exists (ETern (ilit_e (dec [1])) (ilit_e (dec [1])) (ELit (LFloat false two))), (CDb (f_of_Z ops false 1)).
  repeat split; vm_compute; reflexivity || discriminate.
Qed.
Print Assumptions ternary_type_refuted.

(* (2147483647 + 1u) * 3L  ==  (long) 6442450944 : promotions, unsigned wrap-free sum, widening *)
Example fold_example :
  forall (F : Type) (ops : fops F),
    let e : expr F :=
      EBin Mul (EBin Add (ilit_e (dec [2;1;4;7;4;8;3;6;4;7])) (ilit_e (decu [1])))
               (ilit_e (mk_ilit Dec [3] false 1)) in
    guards e = true /\ cpp_eval ops e = Some (CI TLong 6442450944) /\
    eval ops fixed e = Val (PI KI64 6442450944).
Proof. intros. repeat split; vm_compute; reflexivity. Qed.

(* the theorem's hypotheses are met by an expression whose unevaluated operand is undefined *)
Example guarded_division_example :
  forall (F : Type) (ops : fops F),
    let e : expr F :=
      EBin LOr (ilit_e (dec [1])) (EBin Div (ilit_e (dec [1])) (ilit_e zero)) in
    guards e = true /\ cpp_eval ops e = Some (CI TBool 1) /\ eval ops fixed e = Val (PI KBool 1) /\
    eval ops pinned e = UB.
Proof. intros. repeat split; vm_compute; reflexivity. Qed.
