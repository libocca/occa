(* C14 — the repaired folder (Model, cfg = fixed) against the C++17 specification (Spec): the
   specification's values (type, range), each operator, the main theorem by induction. *)
From Coq Require Import List ZArith Bool Lia ZifyBool.
From OV.C14 Require Import Syntax Model Spec ProofsLit.
Import ListNotations.
Local Open Scope Z_scope.

Definition rt_kind (ka kb : ikind) : ikind := if irank ka >? irank kb then ka else kb.

(* retType T against the common type t; bool op bool keeps T = bool *)
Lemma rt_kind_uac : forall ta tb,
  let T := rt_kind (erase_t ta) (erase_t tb) in
  let t := uac_int ta tb in
  promote T = erase_t t /\ (T = erase_t t \/ (ta = TBool /\ tb = TBool)).
Proof. destruct ta, tb; (split; [reflexivity | auto]). Qed.

Lemma uac_int_wider : forall ta tb,
  twidth ta <= twidth (uac_int ta tb) /\ twidth tb <= twidth (uac_int ta tb).
Proof. destruct ta, tb; split; discriminate. Qed.

Lemma promote_erase : forall t, promote (erase_t t) = erase_t (ipromote t).
Proof. destruct t; reflexivity. Qed.

Lemma promoted_nonbool : forall T t, promote T = erase_t t -> t <> TBool.
Proof. intros T t H ->. destruct T; discriminate H. Qed.

(* neither && || nor a shift *)
Definition in_common_type (o : binop) : bool :=
  match o with LAnd | LOr | Shl | Shr => false | _ => true end.

(* && || do not evaluate a right operand that is not needed (it must still be well-typed) *)
Definition skips (o : binop) (left : bool) : bool :=
  match o with LAnd => negb left | LOr => left | _ => false end.

Section Ops.
Context {F : Type} (ops : fops F).
(* a C++ value seen as an OCCA primitive: long/long long -> int64, unsigned long (long) -> uint64 *)
Definition erase (v : @cval F) : @prim F :=
  match v with
  | CI t z => PI (erase_t t) z
  | CFl f => PF true f
  | CDb f => PF false f
  end.

(* the value lies in the range of its C++ type: only there are conv and cvt the identity *)
Definition wf (v : @cval F) : Prop :=
  match v with CI t z => repr t z = true | _ => True end.

Lemma wf_cbool : forall b, wf (cbool b).
Proof. destruct b; reflexivity. Qed.

Lemma truthy_erase : forall v, truthy ops (erase v) = truth ops v.
Proof. destruct v; reflexivity. Qed.

(* the specification alone: its values have the static type and lie in its range *)
Lemma repr_mod : forall t z, tsigned t = false -> repr t (z mod 2 ^ twidth t) = true.
Proof.
  intros t z Hs. unfold repr, tmin, tmax. rewrite Hs.
  pose proof (Z.mod_pos_bound z (2 ^ twidth t)). pose proof (pow2_half _ (twidth_pos t)). lia.
Qed.

Lemma ires_typed : forall t z v, ires t z = Some v -> @ctype_of F v = TI t /\ wf v.
Proof.
  intros t z v H. unfold ires in H. destruct (tsigned t) eqn:Hs.
  - destruct (repr t z) eqn:Hr; inversion H. split; [reflexivity | exact Hr].
  - inversion H. split; [reflexivity | apply repr_mod, Hs].
Qed.

Lemma fres_some : forall s f v, fres ops s f = Some v -> v = if s then CFl f else CDb f.
Proof. intros s f v H. unfold fres in H. destruct (ffinite ops f); congruence. Qed.

Lemma un_eval_typed : forall o v v', un_eval ops o v = Some v' ->
  un_type o (ctype_of v) = Some (ctype_of v') /\ (wf v -> wf v').
Proof.
  intros o v v' H. destruct v as [t z | f | f].
  2,3: destruct o; try discriminate H; inversion H; (split; [reflexivity | intros; exact I || apply wf_cbool]).
  assert (Hpt : ipromote t <> TBool) by (destruct t; discriminate).
  destruct o; cbn [un_eval] in H; cbn [un_type ctype_of].
  - (* ! *) inversion H. split; [reflexivity | intros; apply wf_cbool].
  - (* + *) inversion H. split; [reflexivity | apply repr_promote].
  - (* - *) apply ires_typed in H. destruct H as [-> Hw]. auto.
  - (* ~ *) inversion H. split; [reflexivity|]. intros Hw. apply repr_promote in Hw.
    cbn [wf]. rewrite <- (cvt_lnot _ z Hpt Hw). apply cvt_repr.
Qed.

Lemma int_arith_typed : forall o t x y v, int_arith o t x y = Some v -> @ctype_of F v = TI t /\ wf v.
Proof.
  intros o t x y v H. destruct o; cbn [int_arith] in H; try discriminate H;
    try (destruct (y =? 0); [discriminate H|]); try (destruct (repr t (Z.quot x y)); [|discriminate H]);
    try exact (ires_typed _ _ _ H); inversion H; (split; [reflexivity | apply cvt_repr]).
Qed.

Lemma float_arith_typed : forall o s x y v, float_arith ops o s x y = Some v ->
  ctype_of v = (if is_cmp o then TI TBool else if s then TFloat else TDouble) /\ wf v.
Proof.
  intros o s x y v H. destruct o; cbn [float_arith] in H; try discriminate H;
    try (destruct (fnonzero ops y); [|discriminate H]);
    try (inversion H; split; [reflexivity | apply wf_cbool]);
    apply fres_some in H; subst v; destruct s; (split; reflexivity).
Qed.

Lemma shift_eval_typed : forall o t x n v, shift_eval o t x n = Some v -> @ctype_of F v = TI t /\ wf v.
Proof.
  intros o t x n v H. unfold shift_eval in H.
  destruct ((0 <=? n) && (n <? twidth t)); [|discriminate].
  destruct o, (tsigned t) eqn:Hs; try destruct (_ && _); inversion H;
    (split; [reflexivity | apply cvt_repr || apply repr_mod, Hs]).
Qed.

Lemma bin_eval_typed : forall o va vb v, bin_eval ops o va vb = Some v ->
  bin_type o (ctype_of va) (ctype_of vb) = Some (ctype_of v) /\ wf v.
Proof.
  intros o va vb v H.
  destruct o, va, vb; cbn [bin_eval ctype_of uac convert is_cmp] in H; try discriminate H;
    cbn [bin_type ctype_of uac is_arith_op is_int_op is_shift_op];
    first [ apply int_arith_typed in H | apply float_arith_typed in H | apply shift_eval_typed in H
          | inversion H; subst v; split; [reflexivity | apply wf_cbool] ];
    destruct H as [-> Hw]; (split; [reflexivity | exact Hw]).
Qed.

Lemma ctype_eqb_eq : forall a b, ctype_eqb a b = true -> a = b.
Proof. destruct a as [[]| |], b as [[]| |]; intros H; reflexivity || discriminate H. Qed.

Lemma convert_typed : forall t v v', convert ops t v = Some v' -> ctype_of v' = t /\ wf v'.
Proof.
  destruct t, v; cbn; intros v' H; try discriminate; inversion H;
    (split; [reflexivity | exact I || apply cvt_repr]).
Qed.

Lemma convert_same : forall v, wf v -> convert ops (ctype_of v) v = Some v.
Proof. destruct v; cbn; intros H; try reflexivity. rewrite cvt_id by exact H. reflexivity. Qed.

Lemma cpp_eval_strict : forall o a b, o <> LAnd -> o <> LOr ->
  cpp_eval ops (EBin o a b) =
  match cpp_eval ops a, cpp_eval ops b with Some va, Some vb => bin_eval ops o va vb | _, _ => None end.
Proof. destruct o; congruence || reflexivity. Qed.

Lemma cpp_eval_bin_inv : forall o a b v, cpp_eval ops (EBin o a b) = Some v ->
  exists va, cpp_eval ops a = Some va /\
    ((skips o (truth ops va) = true /\ type_of b <> None /\
      v = cbool (match o with LOr => true | _ => false end)) \/
     (skips o (truth ops va) = false /\
      exists vb, cpp_eval ops b = Some vb /\ bin_eval ops o va vb = Some v)).
Proof.
  intros o a b v H.
  assert (Ho : o = LAnd \/ o = LOr \/ (o <> LAnd /\ o <> LOr))
    by (destruct o; auto; right; right; split; discriminate).
  destruct Ho as [-> | [-> | [Ha Hb]]].
  - (* && *) cbn [cpp_eval] in H. destruct (cpp_eval ops a) as [va|]; [|discriminate].
    destruct (type_of b); [|discriminate]. exists va. split; [reflexivity|].
    cbn [skips bin_eval]. destruct (truth ops va); cbn [negb].
    + right. split; [reflexivity|]. destruct (cpp_eval ops b) as [vb|]; [eauto | discriminate].
    + left. inversion H. repeat split. discriminate.
  - (* || *) cbn [cpp_eval] in H. destruct (cpp_eval ops a) as [va|]; [|discriminate].
    destruct (type_of b); [|discriminate]. exists va. split; [reflexivity|].
    cbn [skips bin_eval]. destruct (truth ops va).
    + left. inversion H. repeat split. discriminate.
    + right. split; [reflexivity|]. destruct (cpp_eval ops b) as [vb|]; [eauto | discriminate].
  - rewrite cpp_eval_strict in H by assumption.
    destruct (cpp_eval ops a) as [va|]; [|discriminate]. destruct (cpp_eval ops b) as [vb|]; [|discriminate].
    exists va. split; [reflexivity|]. right. split; [destruct o; congruence || reflexivity | eauto].
Qed.

Lemma cpp_eval_typed : forall e v, cpp_eval ops e = Some v -> type_of e = Some (ctype_of v) /\ wf v.
Proof.
  induction e as [l | o a IHa | o a IHa b IHb | c IHc a IHa b IHb]; intros v H.
  - destruct l as [b | il | s f]; cbn in *.
    + inversion H. split; [reflexivity | apply (wf_cbool b)].
    + destruct (lit_type il) as [t|] eqn:Et; inversion H. split; [reflexivity|].
      unfold lit_type in Et. destruct (digits_ok _ _); [exact (first_fit_repr _ _ _ Et) | discriminate].
    + apply fres_some in H. subst v. destruct s; split; reflexivity.
  - cbn in *. destruct (cpp_eval ops a) as [va|] eqn:Ea; [|discriminate].
    destruct (IHa va eq_refl) as [-> Hwa]. destruct (un_eval_typed _ _ _ H); auto.
  - destruct (cpp_eval_bin_inv _ _ _ _ H) as (va & Ea & [(Hs & Tb & ->) | (_ & vb & Eb & Hb)]);
      cbn [type_of]; rewrite (proj1 (IHa va Ea)).
    + split; [|apply wf_cbool]. destruct (type_of b); [|congruence]. destruct o; try discriminate Hs; reflexivity.
    + rewrite (proj1 (IHb vb Eb)). apply bin_eval_typed; exact Hb.
  - cbn [cpp_eval] in H. cbn [type_of].
    destruct (cpp_eval ops c) as [vc|] eqn:Ec; [|discriminate].
    rewrite (proj1 (IHc vc eq_refl)).
    destruct (type_of a) as [ta|]; [|discriminate]. destruct (type_of b) as [tb|]; [|discriminate].
    destruct (cpp_eval ops (if truth ops vc then a else b)) as [v0|]; [|discriminate].
    destruct (convert_typed _ _ _ H) as [-> Hw]. split; [reflexivity | exact Hw].
Qed.

Lemma cpp_eval_tern_inv : forall c a b v,
  cpp_eval ops (ETern c a b) = Some v -> same_type (type_of a) (type_of b) = true ->
  exists vc, cpp_eval ops c = Some vc /\ cpp_eval ops (if truth ops vc then a else b) = Some v.
Proof.
  intros c a b v H Hst. cbn [cpp_eval] in H.
  destruct (cpp_eval ops c) as [vc|]; [|discriminate].
  destruct (type_of a) as [ta|] eqn:Ta; [|discriminate]. destruct (type_of b) as [tb|] eqn:Tb; [|discriminate].
  cbn [same_type] in Hst. unfold cond_type in H. rewrite Hst in H. apply ctype_eqb_eq in Hst. subst tb.
  destruct (cpp_eval ops (if truth ops vc then a else b)) as [v0|] eqn:Ex; [|discriminate].
  exists vc. split; [reflexivity|].
  (* the selected branch has the type ta: converting to it is the identity *)
  destruct (cpp_eval_typed _ _ Ex) as [Ty Hw].
  replace ta with (ctype_of v0) in H by (destruct (truth ops vc); congruence).
  rewrite (convert_same v0 Hw) in H. congruence.
Qed.

Lemma guards_inv : forall e : expr F, guards e = true ->
  match e with
  | ELit _ => True
  | EUn o a => guards a = true /\ (o = UTilde -> is_bool (type_of a) = false)
  | EBin o a b => guards a = true /\ guards b = true /\
                  is_bitop o && is_bool (type_of a) && is_bool (type_of b) = false
  | ETern c a b => guards c = true /\ guards a = true /\ guards b = true /\
                   same_type (type_of a) (type_of b) = true
  end.
Proof.
  unfold guards. destruct e; cbn [no_tilde_bool no_bitop_bool tern_same_type]; intros H;
    rewrite ?andb_true_iff, ?negb_true_iff in *; [exact I | split; [tauto | intros ->; tauto] | tauto ..].
Qed.

Lemma ret_type_int : forall ka kb (x y : Z),
  ret_type (@PI F ka x) (PI kb y) = RI (rt_kind ka kb).
Proof. intros. unfold ret_type, rt_kind, prank, pkind. destruct (irank ka >? irank kb); reflexivity. Qed.
Lemma ret_type_if : forall k x s f, ret_type (@PI F k x) (PF s f) = RF s.
Proof. destruct k, s; reflexivity. Qed.
Lemma ret_type_fi : forall k x s f, ret_type (PF s f) (@PI F k x) = RF s.
Proof. destruct k, s; reflexivity. Qed.
Lemma ret_type_ff : forall s f s' f', ret_type (@PF F s f) (PF s' f') = RF (s && s').
Proof. destruct s, s'; reflexivity. Qed.

Lemma binop_eval_plain : forall c o a b, is_shift o = false ->
  binop_eval ops c o a b =
  match ret_type a b with
  | RI T => match to_int ops T a, to_int ops T b with
            | Some x, Some y => int_binop o T x y
            | _, _ => Err
            end
  | RF s => float_binop ops c o s a b
  end.
Proof. intros c o a b H. unfold binop_eval. rewrite H. reflexivity. Qed.

(* to<retType>() is the C++ conversion to the common type; bool op bool: both are the identity *)
Lemma to_common : forall ta tb x, repr ta x = true \/ repr tb x = true ->
  conv (rt_kind (erase_t ta) (erase_t tb)) x = cvt (uac_int ta tb) x.
Proof.
  intros ta tb x Hx. destruct (rt_kind_uac ta tb) as (_ & [-> | [-> ->]]); [apply conv_cvt|].
  assert (Hb : repr TBool x = true) by tauto.
  rewrite cvt_id by (apply (repr_promote TBool); exact Hb).
  apply conv_id. rewrite (in_range_erase TBool). exact Hb.
Qed.

Lemma to_common_eq0 : forall ta tb x, repr ta x = true \/ repr tb x = true ->
  (conv (rt_kind (erase_t ta) (erase_t tb)) x =? 0) = (x =? 0).
Proof.
  intros ta tb x Hx. rewrite (to_common ta tb x Hx). apply cvt_eq0.
  destruct (uac_int_wider ta tb), Hx as [Hx | Hx]; eapply repr_abs; eassumption.
Qed.

(* primitive(e): a signed result out of range is undefined, an unsigned one wraps *)
Lemma ret_arith_ires : forall t z v, t <> TBool -> ires t z = Some v ->
  ret_arith (erase_t t) z = Val (erase v).
Proof.
  intros t z v Ht H. unfold ires in H. unfold ret_arith. rewrite isigned_erase, in_range_erase.
  destruct (tsigned t) eqn:Hs.
  - destruct (repr t z); inversion H. reflexivity.
  - inversion H. rewrite <- (cvt_unsigned t z Ht Hs), conv_cvt. reflexivity.
Qed.

Lemma ires_id : forall t z, repr t z = true -> @ires F t z = Some (CI t z).
Proof.
  intros t z H. unfold ires. rewrite H. destruct (tsigned t) eqn:Hs; [reflexivity|].
  unfold repr, tmin, tmax in H. rewrite Hs in H. rewrite Z.mod_small by lia. reflexivity.
Qed.

(* `x op y` in the kind T of the operands against the C++ operation in the common type t *)
Lemma int_binop_agree : forall o T t x y v,
  promote T = erase_t t -> (is_bitop o = true -> T <> KBool) ->
  (if is_cmp o then int_cmp o x y else int_arith o t x y) = Some v ->
  int_binop o T x y = Val (erase v).
Proof.
  intros o T t x y v HP Hbit H. pose proof (promoted_nonbool _ _ HP) as Ht.
  destruct (is_cmp o) eqn:Ec.
  { destruct o; try discriminate Ec; cbn [int_cmp] in H;
      rewrite ?Z.geb_leb, ?Z.gtb_ltb in H; inversion H; reflexivity. }
  destruct (is_bitop o) eqn:Eb.
  { specialize (Hbit eq_refl). destruct o; try discriminate Eb; cbn [int_arith] in H; inversion H;
      cbn [int_binop]; (destruct T; [congruence | ..]); rewrite HP; unfold ret_bits; rewrite conv_cvt;
      reflexivity. }
  destruct o; cbn [int_arith] in H; try discriminate; cbn [int_binop]; rewrite HP.
  - (* + *) apply ret_arith_ires; assumption.
  - (* - *) apply ret_arith_ires; assumption.
  - (* * *) apply ret_arith_ires; assumption.
  - (* / *) destruct (y =? 0); [discriminate | apply ret_arith_ires; assumption].
  - (* % *) destruct (y =? 0); [discriminate|].
    destruct (repr t (Z.quot x y)) eqn:Hq; [|discriminate].
    (* INT_MIN % -1: the quotient is not representable *)
    replace (isigned (erase_t t) && (x =? imin (erase_t t)) && (y =? -1)) with false;
      [apply ret_arith_ires; assumption|].
    symmetry. apply not_true_is_false. intros Hm.
    unfold imin in Hm. rewrite isigned_erase, ibits_erase in Hm.
    unfold repr, tmin, tmax in Hq. destruct (tsigned t); [|discriminate].
    assert (y = - (1)) by lia. subst y. rewrite Z.quot_opp_r, Z.quot_1_r in Hq by lia. lia.
Qed.

Lemma int_bin_agree : forall o ta tb x y v,
  repr ta x = true -> repr tb y = true -> in_common_type o = true ->
  ~ (is_bitop o = true /\ ta = TBool /\ tb = TBool) ->
  bin_eval ops o (CI ta x) (CI tb y) = Some v ->
  binop_eval ops fixed o (PI (erase_t ta) x) (PI (erase_t tb) y) = Val (erase v).
Proof.
  intros o ta tb x y v Hx Hy Hp Hg H.
  rewrite binop_eval_plain, ret_type_int by (destruct o; try reflexivity; discriminate). cbn [to_int].
  rewrite (to_common ta tb x), (to_common ta tb y) by auto.
  destruct (rt_kind_uac ta tb) as (HP & HT).
  apply (int_binop_agree _ _ (uac_int ta tb)); try assumption.
  - intros Hb HT'. destruct HT as [HT | Hbb]; [|tauto].
    rewrite HT in HT'. apply (promoted_nonbool _ _ HP), erase_t_bool, HT'.
  - destruct o; try discriminate; exact H.
Qed.

Lemma tmax_unsigned_of : forall t, tmax (unsigned_of t) = 2 ^ twidth t - 1.
Proof. destruct t; reflexivity. Qed.

Lemma shift_eval_count : forall o t x n v, @shift_eval F o t x n = Some v ->
  (0 <= n < twidth t) /\ (0 <=? n) && (n <? twidth t) = true /\
  (n <? 0) || (ibits (erase_t t) <=? n) = false.
Proof.
  intros o t x n v H. unfold shift_eval in H. rewrite ibits_erase.
  destruct ((0 <=? n) && (n <? twidth t)) eqn:Hn; [lia | discriminate].
Qed.

Lemma shl_agree : forall t x n v, t <> TBool -> shift_eval Shl t x n = Some v ->
  shl (erase_t t) x n = Val (erase v).
Proof.
  intros t x n v Ht H. destruct (shift_eval_count _ _ _ _ _ H) as (Hn & Hs & Hm).
  unfold shift_eval in H. rewrite Hs, tmax_unsigned_of in H.
  unfold shl. rewrite Hm, isigned_erase, ibits_erase, Z.shiftl_mul_pow2 by lia.
  destruct (tsigned t) eqn:Hsg.
  - destruct (0 <=? x) eqn:Hx; [|discriminate]. replace (x <? 0) with false by lia.
    cbn [andb] in H. destruct (x * 2 ^ n <=? 2 ^ twidth t - 1); inversion H.
    rewrite conv_cvt. reflexivity.
  - inversion H. rewrite <- (cvt_unsigned t _ Ht Hsg), conv_cvt. reflexivity.
Qed.

Lemma shr_agree : forall t x n v, shift_eval Shr t x n = Some v ->
  shr (erase_t t) x n = Val (erase v).
Proof.
  intros t x n v H. destruct (shift_eval_count _ _ _ _ _ H) as (Hn & Hs & Hm).
  unfold shift_eval in H. rewrite Hs in H. inversion H.
  unfold shr. rewrite Hm, Z.shiftr_div_pow2, conv_cvt by lia. reflexivity.
Qed.

Lemma shift_agree : forall o ta tb x n v,
  repr ta x = true -> (o = Shl \/ o = Shr) ->
  shift_eval o (ipromote ta) x n = Some v ->
  binop_eval ops fixed o (PI (erase_t ta) x) (PI (erase_t tb) n) = Val (erase v).
Proof.
  intros o ta tb x n v Hx Ho H.
  unfold binop_eval. replace (is_shift o && fix_shift fixed) with true by (destruct Ho; subst; reflexivity).
  (* the count is converted to int64_t; a defined shift has 0 <= n < 64 *)
  assert (Hn : conv KI64 n = n).
  { destruct (shift_eval_count _ _ _ _ _ H) as (Hn & _).
    assert (twidth (ipromote ta) <= 64) by (destruct ta; discriminate).
    apply conv_id. unfold in_range. cbn. lia. }
  rewrite Hn, conv_id, promote_erase by (rewrite in_range_erase; exact Hx).
  destruct Ho; subst; [apply shl_agree | apply shr_agree]; try assumption.
  destruct ta; discriminate.
Qed.

Lemma unop_tilde_int : forall c k z, k <> KBool ->
  unop_eval ops c UTilde (PI k z) = ret_bits (promote k) (Z.lnot z).
Proof. destruct k; congruence || reflexivity. Qed.

Lemma un_agree_int : forall o t z v',
  repr t z = true -> un_eval ops o (CI t z) = Some v' -> ~ (o = UTilde /\ t = TBool) ->
  unop_eval ops fixed o (PI (erase_t t) z) = Val (erase v').
Proof.
  intros o t z v' Hw H Hg. pose proof (repr_promote t z Hw) as Hp.
  assert (Hpt : ipromote t <> TBool) by (destruct t; discriminate).
  destruct o; cbn [un_eval] in H.
  - (* ! *) inversion H. unfold truth. rewrite negb_involutive. reflexivity.
  - (* + *) inversion H. cbn [unop_eval]. rewrite promote_erase.
    apply ret_arith_ires; [exact Hpt | apply ires_id, Hp].
  - (* - *) cbn [unop_eval]. rewrite promote_erase. apply ret_arith_ires; assumption.
  - (* ~ *) assert (Ht : t <> TBool) by (intros ->; apply Hg; split; reflexivity).
    rewrite unop_tilde_int, promote_erase by (intros Hk; apply Ht, erase_t_bool, Hk).
    inversion H. rewrite <- (cvt_lnot _ z Hpt Hp). unfold ret_bits. rewrite conv_cvt. reflexivity.
Qed.

Lemma un_agree : forall o v v',
  wf v -> un_eval ops o v = Some v' ->
  ~ (o = UTilde /\ ctype_of v = TI TBool) ->
  unop_eval ops fixed o (erase v) = Val (erase v').
Proof.
  intros o v v' Hw H Hg. destruct v as [t z | f | f].
  2,3: destruct o; try discriminate H; inversion H; reflexivity.
  apply un_agree_int; trivial. intros [-> ->]. apply Hg. split; reflexivity.
Qed.

Lemma float_arith_agree : forall o s a b v,
  ret_type a b = RF s ->
  float_arith ops o s (to_f ops s a) (to_f ops s b) = Some v ->
  binop_eval ops fixed o a b = Val (erase v).
Proof.
  intros o s a b v Hr H. rewrite binop_eval_plain, Hr by (destruct o; try reflexivity; discriminate H).
  destruct o; try discriminate H;
    cbn [float_arith] in H; cbn [float_binop fix_feq fix_lfloat fixed];
    try (destruct (fnonzero ops (to_f ops s b)); [|discriminate]);
    try (apply fres_some in H; subst v; destruct s; reflexivity); inversion H; reflexivity.
Qed.

Lemma float_bin_agree : forall o va vb v,
  (forall t, uac (ctype_of va) (ctype_of vb) <> TI t) -> in_common_type o = true ->
  bin_eval ops o va vb = Some v ->
  binop_eval ops fixed o (erase va) (erase vb) = Val (erase v).
Proof.
  intros o va vb v Hf Hp H.
  destruct va as [ta x | fa | fa], vb as [tb y | fb | fb]; [exfalso; exact (Hf _ eq_refl) | ..]; cbn [erase];
    (eapply float_arith_agree;
       [rewrite ?ret_type_if, ?ret_type_fi, ?ret_type_ff; reflexivity | destruct o; try discriminate Hp; exact H]).
Qed.

End Ops.

Section Main.
Context {F : Type} (ops : fops F).
(* the two facts about the float implementation that the repaired && || rely on *)
Hypothesis H_nz_of_Z : forall s z, - 2 ^ 64 < z < 2 ^ 64 -> fnonzero ops (f_of_Z ops s z) = negb (z =? 0).
Hypothesis H_nz_ext : forall f, fnonzero ops (f64_of_f32 ops f) = fnonzero ops f.

Lemma truth_of_Z : forall s t z, repr t z = true -> fnonzero ops (f_of_Z ops s z) = negb (z =? 0).
Proof. intros s t z H. apply H_nz_of_Z, (repr_abs64 t), H. Qed.

(* conversion to retType keeps zero-ness: to_common_eq0 among integers, H_nz_of_Z from an integer
   to float or double, H_nz_ext from float to double; a double never becomes a float (ret_type_ff) *)
Lemma logic_agree : forall o va vb v,
  wf va -> wf vb -> (o = LAnd \/ o = LOr) -> bin_eval ops o va vb = Some v ->
  binop_eval ops fixed o (erase va) (erase vb) = Val (erase v).
Proof.
  intros o va vb v Hwa Hwb Ho H.
  rewrite binop_eval_plain by (destruct Ho; subst; reflexivity).
  destruct va as [ta x | fa | fa], vb as [tb y | fb | fb]; cbn [wf erase] in *;
    rewrite ?ret_type_int, ?ret_type_if, ?ret_type_fi, ?ret_type_ff; cbn [andb to_int];
    destruct Ho; subst; injection H as <-; cbn [int_binop float_binop to_f fix_lfloat fixed truth];
    rewrite ?(to_common_eq0 ta tb x), ?(to_common_eq0 ta tb y), ?H_nz_ext by auto;
    erewrite ?truth_of_Z by eassumption; reflexivity.
Qed.

Lemma bin_agree : forall o va vb v,
  wf va -> wf vb ->
  ~ (is_bitop o = true /\ ctype_of va = TI TBool /\ ctype_of vb = TI TBool) ->
  bin_eval ops o va vb = Some v ->
  binop_eval ops fixed o (erase va) (erase vb) = Val (erase v).
Proof.
  intros o va vb v Hwa Hwb Hg H.
  destruct (in_common_type o) eqn:Ep.
  - destruct va as [ta x | |], vb as [tb y | |];
      try (apply float_bin_agree; [discriminate | assumption ..]).
    apply int_bin_agree; try assumption.
    intros [Hb [-> ->]]. apply Hg. auto.
  - destruct o; try discriminate Ep; [apply logic_agree; auto .. | |];
      (destruct va, vb; try discriminate H; apply shift_agree; auto).
Qed.

Theorem fold_agrees_guarded : forall e v,
  guards e = true -> cpp_eval ops e = Some v -> eval ops fixed e = Val (erase v).
Proof.
  induction e as [l | o a IHa | o a IHa b IHb | c IHc a IHa b IHb]; intros v Hg H;
    apply guards_inv in Hg.
  - destruct l as [b | il | s f]; cbn [cpp_eval lit_eval eval load] in *.
    + inversion H. reflexivity.
    + destruct (lit_type il) as [t|] eqn:Et; inversion H. rewrite (load_int_agrees il t Et). reflexivity.
    + apply fres_some in H. subst v. destruct s; reflexivity.
  - destruct Hg as [Hga Hgt]. cbn [cpp_eval eval] in *.
    destruct (cpp_eval ops a) as [va|] eqn:Ea; [|discriminate].
    destruct (cpp_eval_typed ops a va Ea) as [Ty Hwa].
    rewrite (IHa va Hga eq_refl). apply un_agree; try assumption.
    intros [-> Hb]. rewrite Ty, Hb in Hgt. discriminate (Hgt eq_refl).
  - destruct Hg as [Hga [Hgb Hgo]].
    destruct (cpp_eval_bin_inv ops _ _ _ _ H) as (va & Ea & Hb).
    cbn [eval]. rewrite (IHa va Hga Ea), truthy_erase.
    change (fix_sc fixed && _) with (skips o (truth ops va)).
    destruct Hb as [(-> & _ & ->) | (-> & vb & Eb & Hb)]; [reflexivity|].
    destruct (cpp_eval_typed ops a va Ea) as [Ta Hwa]. destruct (cpp_eval_typed ops b vb Eb) as [Tb Hwb].
    rewrite (IHb vb Hgb Eb). apply bin_agree; try assumption.
    intros [Hbit [Hta Htb]]. rewrite Ta, Tb, Hbit, Hta, Htb in Hgo. discriminate.
  - destruct Hg as [Hgc [Hga [Hgb Hst]]].
    destruct (cpp_eval_tern_inv ops _ _ _ _ H Hst) as (vc & Ec & Ex).
    cbn [eval]. rewrite (IHc vc Hgc Ec), truthy_erase. destruct (truth ops vc); auto.
Qed.

End Main.
