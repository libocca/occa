(* C14 — OCCA's integer kinds against the C++ integer types ([erase_t]): to<T>() and the C++
   integral conversion are both the two's complement reduction [wrap].  Integer literals: the
   repaired primitive::load gives a well-formed literal the type and value of C++17 [lex.icon]. *)
From Coq Require Import List ZArith Bool Lia ZifyBool.
From OV.C14 Require Import Syntax Model Spec.
Import ListNotations.
Local Open Scope Z_scope.

Lemma pow2_half : forall b, 0 < b -> 0 < 2 ^ (b - 1) /\ 2 ^ b = 2 * 2 ^ (b - 1).
Proof.
  intros b Hb. split; [apply Z.pow_pos_nonneg; lia|].
  rewrite <- Z.pow_succ_r by lia. f_equal. lia.
Qed.

Lemma wrap_range : forall b (s : bool) z, 0 < b ->
  (if s then - 2 ^ (b - 1) else 0) <= wrap b s z <= (if s then 2 ^ (b - 1) - 1 else 2 ^ b - 1).
Proof.
  intros b s z Hb. pose proof (pow2_half b Hb). unfold wrap. destruct s.
  - pose proof (Z.mod_pos_bound (z + 2 ^ (b - 1)) (2 ^ b)). lia.
  - pose proof (Z.mod_pos_bound z (2 ^ b)). lia.
Qed.

Lemma wrap_id : forall b (s : bool) z, 0 < b ->
  (if s then - 2 ^ (b - 1) else 0) <= z <= (if s then 2 ^ (b - 1) - 1 else 2 ^ b - 1) -> wrap b s z = z.
Proof.
  intros b s z Hb Hz. pose proof (pow2_half b Hb).
  unfold wrap. destruct s; rewrite Z.mod_small by lia; lia.
Qed.

Lemma wrap_signed : forall b z, 0 < b ->
  wrap b true z = let m := z mod 2 ^ b in if m <? 2 ^ (b - 1) then m else m - 2 ^ b.
Proof.
  intros b z Hb. pose proof (pow2_half b Hb).
  unfold wrap. rewrite <- Zplus_mod_idemp_l.
  pose proof (Z.mod_pos_bound z (2 ^ b)). set (m := z mod 2 ^ b) in *. cbv zeta.
  destruct (m <? 2 ^ (b - 1)) eqn:E.
  - rewrite Z.mod_small by lia. lia.
  - replace (m + 2 ^ (b - 1)) with (m - 2 ^ (b - 1) + 1 * 2 ^ b) by lia.
    rewrite Z_mod_plus_full, Z.mod_small by lia. lia.
Qed.

(* the bound is what an operand of a narrower type satisfies in the wider common type *)
Lemma wrap_eq0 : forall b (s : bool) z, 0 < b -> - 2 ^ b < z < 2 ^ b -> (wrap b s z =? 0) = (z =? 0).
Proof.
  intros b s z Hb Hz. pose proof (pow2_half b Hb).
  assert (Hm : z mod 2 ^ b = if z <? 0 then z + 2 ^ b else z).
  { destruct (z <? 0) eqn:E; [|apply Z.mod_small; lia].
    rewrite <- (Z_mod_plus_full z 1). rewrite Z.mul_1_l. apply Z.mod_small. lia. }
  destruct s; [rewrite wrap_signed by exact Hb; cbv zeta | unfold wrap]; rewrite Hm.
  - destruct (z <? 0) eqn:E; destruct (_ <? 2 ^ (b - 1)) eqn:E'; lia.
  - destruct (z <? 0) eqn:E; lia.
Qed.

Lemma ibits_pos : forall k, 0 < ibits k.
Proof. destruct k; reflexivity. Qed.

Lemma conv_wrap : forall k z, k = KBool \/ conv k z = wrap (ibits k) (isigned k) z.
Proof. destruct k; auto. Qed.

Lemma conv_in_range : forall k z, in_range k (conv k z) = true.
Proof.
  intros k z. unfold in_range. destruct (conv_wrap k z) as [-> | ->].
  - cbn. destruct (z =? 0); reflexivity.
  - pose proof (wrap_range _ _ z (ibits_pos k) : imin k <= _ <= imax k). lia.
Qed.

Lemma conv_id : forall k z, in_range k z = true -> conv k z = z.
Proof.
  intros k z H. unfold in_range in H. destruct (conv_wrap k z) as [-> | ->].
  - cbn in *. destruct (z =? 0) eqn:E; lia.
  - apply wrap_id; [apply ibits_pos | change (imin k <= z <= imax k); lia].
Qed.

Definition erase_t (t : ityp) : ikind :=
  match t with
  | TBool => KBool | TInt => KI32 | TUInt => KU32
  | TLong | TLLong => KI64 | TULong | TULLong => KU64
  end.

Lemma ibits_erase : forall t, ibits (erase_t t) = twidth t.
Proof. destruct t; reflexivity. Qed.
Lemma isigned_erase : forall t, isigned (erase_t t) = tsigned t.
Proof. destruct t; reflexivity. Qed.

Lemma erase_t_bool : forall t, erase_t t = KBool -> t = TBool.
Proof. destruct t; discriminate || reflexivity. Qed.

Lemma in_range_erase : forall t z, in_range (erase_t t) z = repr t z.
Proof.
  intros. unfold in_range, repr, imin, imax, tmin, tmax. rewrite ibits_erase, isigned_erase. reflexivity.
Qed.

Lemma cvt_nonbool : forall t z, t <> TBool ->
  cvt t z = if tsigned t
            then (if repr t z then z
                  else let m := z mod 2 ^ (twidth t) in if m <? 2 ^ (twidth t - 1) then m else m - 2 ^ (twidth t))
            else z mod 2 ^ (twidth t).
Proof. destruct t; congruence || reflexivity. Qed.

Lemma twidth_pos : forall t, 0 < twidth t.
Proof. destruct t; reflexivity. Qed.

Lemma cvt_unsigned : forall t z, t <> TBool -> tsigned t = false -> cvt t z = z mod 2 ^ twidth t.
Proof. intros t z Ht Hs. rewrite cvt_nonbool, Hs by exact Ht. reflexivity. Qed.

(* [conv.integral] as g++ implements it is the reduction that to<T>() performs *)
Lemma cvt_wrap : forall t z, t <> TBool -> cvt t z = wrap (twidth t) (tsigned t) z.
Proof.
  intros t z Ht. rewrite cvt_nonbool by exact Ht. pose proof (twidth_pos t).
  destruct (tsigned t) eqn:Hs; [|reflexivity].
  destruct (repr t z) eqn:Hr.
  - symmetry. apply wrap_id; [assumption|].
    unfold repr, tmin, tmax in Hr. rewrite Hs in Hr. lia.
  - symmetry. apply wrap_signed. assumption.
Qed.

Lemma conv_cvt : forall t z, conv (erase_t t) z = cvt t z.
Proof. intros t z. destruct t; [reflexivity | symmetry; apply cvt_wrap; discriminate ..]. Qed.

Lemma cvt_repr : forall t z, repr t (cvt t z) = true.
Proof. intros. rewrite <- conv_cvt, <- in_range_erase. apply conv_in_range. Qed.

Lemma cvt_id : forall t z, repr t z = true -> cvt t z = z.
Proof. intros t z H. rewrite <- conv_cvt. apply conv_id. rewrite in_range_erase. exact H. Qed.

Lemma repr_promote : forall t z, repr t z = true -> repr (ipromote t) z = true.
Proof. destruct t; trivial. unfold repr. cbn. lia. Qed.

Lemma repr_abs : forall t z w, repr t z = true -> twidth t <= w -> - 2 ^ w < z < 2 ^ w.
Proof.
  intros t z w H Hw. pose proof (pow2_half _ (twidth_pos t)).
  pose proof (Z.pow_le_mono_r 2 _ _ eq_refl Hw).
  unfold repr, tmin, tmax in H. destruct (tsigned t); lia.
Qed.

Lemma repr_abs64 : forall t z, repr t z = true -> - 2 ^ 64 < z < 2 ^ 64.
Proof. intros t z H. apply (repr_abs t); [exact H | destruct t; discriminate]. Qed.

Lemma cvt_eq0 : forall t z, - 2 ^ twidth t < z < 2 ^ twidth t -> (cvt t z =? 0) = (z =? 0).
Proof.
  intros t z H. destruct t; [cbn; destruct (z =? 0); reflexivity | ..];
    (rewrite cvt_wrap by discriminate; apply wrap_eq0; [reflexivity | exact H]).
Qed.

Lemma cvt_lnot : forall t z, t <> TBool -> repr t z = true ->
  cvt t (Z.lnot z) = if tsigned t then - z - 1 else 2 ^ twidth t - 1 - z.
Proof.
  intros t z Ht H. unfold Z.lnot. unfold repr, tmin, tmax in H. destruct (tsigned t) eqn:Hs.
  - apply cvt_id. unfold repr, tmin, tmax. rewrite Hs. lia.
  - rewrite cvt_unsigned by assumption.
    replace (Z.pred (- z)) with (2 ^ twidth t - 1 - z + (-1) * 2 ^ twidth t) by lia.
    rewrite Z_mod_plus_full. apply Z.mod_small. lia.
Qed.

Definition digits_in (r : Z) (ds : list Z) : Prop := Forall (fun d => 0 <= d < r) ds.

Lemma digits_ok_in : forall b ds, digits_ok b ds = true -> digits_in (radix b) ds.
Proof.
  unfold digits_ok, digits_in. intros b ds H. rewrite andb_true_iff, forallb_forall in H.
  apply Forall_forall. intros d Hd. destruct H as [H _]. specialize (H d Hd). lia.
Qed.

Lemma horner_bounds : forall r ds acc k, 0 < r -> digits_in r ds -> 0 <= k -> 0 <= acc < r ^ k ->
  0 <= fold_left (fun a d => a * r + d) ds acc < r ^ (k + Z.of_nat (length ds)).
Proof.
  induction ds as [|d ds IH]; intros acc k Hr Hd Hk Ha; cbn [fold_left length].
  - replace (k + Z.of_nat 0) with k by lia. exact Ha.
  - inversion Hd; subst.
    replace (k + Z.of_nat (S (length ds))) with ((k + 1) + Z.of_nat (length ds)) by lia.
    apply IH; try assumption; try lia.
    rewrite Z.pow_add_r, Z.pow_1_r by lia. nia.
Qed.

Lemma horner_nonneg : forall r ds, 0 < r -> digits_in r ds -> 0 <= fold_left (fun a d => a * r + d) ds 0.
Proof. intros r ds Hr Hd. apply (horner_bounds r ds 0 0); auto; lia. Qed.

Lemma accum_mod : forall (f : Z -> Z -> Z) r,
  (forall a d, 0 <= d < r -> f (u64 a) d = u64 (a * r + d)) ->
  forall ds acc, digits_in r ds ->
  fold_left f ds (u64 acc) = u64 (fold_left (fun a d => a * r + d) ds acc).
Proof.
  intros f r Hf. induction ds as [|d ds IH]; intros acc Hd; cbn [fold_left]; [reflexivity|].
  inversion Hd; subst. rewrite Hf by assumption. apply IH. assumption.
Qed.

Lemma accum_exact : forall (f : Z -> Z -> Z) r ds,
  (forall a d, 0 <= d < r -> f (u64 a) d = u64 (a * r + d)) ->
  0 < r -> digits_in r ds -> fold_left (fun a d => a * r + d) ds 0 < 2 ^ 64 ->
  fold_left f ds 0 = fold_left (fun a d => a * r + d) ds 0.
Proof.
  intros f r ds Hf Hr Hd Hlt. change 0 with (u64 0) at 1. rewrite (accum_mod f r Hf) by exact Hd.
  apply Z.mod_small. split; [apply horner_nonneg; assumption | exact Hlt].
Qed.

(* one step of parseInt (k = 10) and of parseBinary (k = 8), read modulo 2^64 *)
Lemma mul_add_step : forall k a d, u64 (u64 (u64 a * k) + d) = u64 (a * k + d).
Proof.
  intros. unfold u64. rewrite <- (Zplus_mod_idemp_l (a * k)), <- (Zmult_mod_idemp_l a k). reflexivity.
Qed.

Lemma lor_low : forall a d k, 0 <= k -> 0 <= d < 2 ^ k -> a mod 2 ^ k = 0 -> Z.lor a d = a + d.
Proof.
  intros a d k Hk Hd Ha.
  assert (Hl : Z.land a d = 0).
  { rewrite <- (Z.mod_small d (2 ^ k)), <- Z.land_ones, (Z.land_comm d), Z.land_assoc, Z.land_ones, Ha by lia.
    apply Z.land_0_l. }
  rewrite <- Z.lxor_lor, <- Z.add_nocarry_lxor by exact Hl. reflexivity.
Qed.

(* one step of loadHex (bp = 4) and loadBinary (bp = 1), read modulo 2^64 *)
Lemma shift_or_step : forall bp a d, 0 <= bp <= 64 -> 0 <= d < 2 ^ bp ->
  Z.lor (u64 (Z.shiftl (u64 a) bp)) d = u64 (a * 2 ^ bp + d).
Proof.
  intros bp a d Hbp Hd. rewrite Z.shiftl_mul_pow2 by lia. unfold u64. rewrite Zmult_mod_idemp_l.
  (* the low bp bits of the product are zero, so | d is + d; and | d commutes with cutting to 64 bits *)
  rewrite <- (lor_low (a * 2 ^ bp) d bp) by (lia || apply Z_mod_mult).
  assert (2 ^ bp <= 2 ^ 64) by (apply Z.pow_le_mono_r; lia).
  rewrite <- !Z.land_ones, Z.land_lor_distr_l, (Z.land_ones d), (Z.mod_small d) by lia.
  reflexivity.
Qed.

Lemma first_fit_repr : forall ts z t, first_fit ts z = Some t -> repr t z = true.
Proof.
  induction ts as [|t' ts IH]; intros z t H; cbn in H; [discriminate|].
  destruct (repr t' z) eqn:E; [inversion H; subst; exact E| apply IH; exact H].
Qed.

Lemma repr_nonneg : forall t v, 0 <= v -> repr t v = (v <=? tmax t).
Proof.
  intros t v Hv. unfold repr. assert (tmin t <= 0) by (destruct t; discriminate).
  replace (tmin t <=? v) with true by lia. reflexivity.
Qed.

(* v lies in one of five places among INT_MAX, UINT_MAX, LONG_MAX, ULONG_MAX *)
Lemma magnitude_ind : forall v (P : bool -> bool -> bool -> bool -> Prop),
  P true true true true -> P false true true true -> P false false true true ->
  P false false false true -> P false false false false ->
  P (v <=? 0x7FFFFFFF) (v <=? 0xFFFFFFFF) (v <=? 0x7FFFFFFFFFFFFFFF) (v <=? 0xFFFFFFFFFFFFFFFF).
Proof.
  intros v P H1 H2 H3 H4 H5.
  destruct (v <=? 0x7FFFFFFF) eqn:Ea, (v <=? 0xFFFFFFFF) eqn:Eb,
           (v <=? 0x7FFFFFFFFFFFFFFF) eqn:Ec, (v <=? 0xFFFFFFFFFFFFFFFF) eqn:Ed; assumption || lia.
Qed.

Lemma candidates_longs : forall longs,
  longs = 0 \/ longs = 1 \/ longs = 2 \/ forall dec uns, candidates dec uns longs = [].
Proof.
  intros. unfold candidates.
  destruct (Z.eqb_spec longs 0); auto. destruct (Z.eqb_spec longs 1); auto. destruct (Z.eqb_spec longs 2); auto.
Qed.

Section Lit.
Context {F : Type}.

(* H : first_fit over a concrete candidate list = Some t, for 0 <= v: both sides of the goal are
   cascades of the same four comparisons of v *)
Ltac by_magnitude v Hv H :=
  cbn [negb first_fit andb orb Z.eqb Pos.eqb Z.leb Z.compare Pos.compare] in *; rewrite ?(repr_nonneg _ v Hv) in H;
  repeat match type of H with context [tmax ?t] =>
    let c := eval cbv in (tmax t) in change (tmax t) with c in H end;
  revert H;
  pattern (v <=? 0x7FFFFFFF), (v <=? 0xFFFFFFFF), (v <=? 0x7FFFFFFFFFFFFFFF), (v <=? 0xFFFFFFFFFFFFFFFF);
  apply magnitude_ind; intros H; try discriminate H; injection H as <-; reflexivity.

Lemma conv_unsigned_small : forall k v b,
  isigned k = false -> 0 <= b <= ibits k -> 0 <= v < 2 ^ b -> conv k v = v.
Proof.
  intros k v b Hs Hb Hv. apply conv_id. unfold in_range, imin, imax. rewrite Hs.
  assert (2 ^ b <= 2 ^ ibits k) by (apply Z.pow_le_mono_r; lia). lia.
Qed.

(* loadHex / loadBinary: the value goes through the uint8/16/32/64 chosen by the digit count *)
Lemma load_hexbin : forall bp ds,
  0 <= bp <= 64 -> digits_in (2 ^ bp) ds ->
  let v := fold_left (fun a d => a * 2 ^ bp + d) ds 0 in
  let bits := bp * Z.of_nat (length ds) in
  v < 2 ^ 64 ->
  conv (if bits <? 8 then KU8 else if bits <? 16 then KU16 else if bits <? 32 then KU32 else KU64)
       (load_shift bp ds) = v.
Proof.
  intros bp ds Hbp Hin v bits HvM.
  assert (Hp : 0 < 2 ^ bp) by (apply Z.pow_pos_nonneg; lia).
  assert (Hv : 0 <= v < 2 ^ bits).
  { unfold bits. rewrite Z.pow_mul_r by lia. apply (horner_bounds (2 ^ bp) ds 0 0); auto; lia. }
  replace (load_shift bp ds) with v by (symmetry; apply (accum_exact _ (2 ^ bp)); auto; intros; apply shift_or_step; lia).
  destruct (bits <? 8) eqn:E8; [|destruct (bits <? 16) eqn:E16; [|destruct (bits <? 32) eqn:E32]];
    [apply (conv_unsigned_small _ v bits); [reflexivity | cbn; lia | exact Hv] ..|].
  apply (conv_unsigned_small _ v 64); [reflexivity | cbn; lia | lia].
Qed.

Theorem load_int_agrees : forall l t,
  lit_type l = Some t ->
  @load_int F fixed l = PI (erase_t t) (lit_value (l_base l) (l_digits l)).
Proof.
  intros [b ds uns longs] t H. unfold lit_type in H. cbn [l_base l_digits l_uns l_longs] in *.
  destruct (digits_ok b ds) eqn:Hok; [|discriminate].
  pose proof (digits_ok_in _ _ Hok) as Hin.
  set (v := lit_value b ds) in *.
  pose proof (first_fit_repr _ _ _ H) as Hr.
  assert (Hv0 : 0 <= v).
  { unfold v, lit_value. apply horner_nonneg; [destruct b; cbn; lia | exact Hin]. }
  assert (HvM : v < 2 ^ 64) by apply (repr_abs64 t v Hr).
  (* the branches leave a last conversion to the chosen kind, which is the identity on v *)
  transitivity (@PI F (erase_t t) (conv (erase_t t) v));
    [| rewrite conv_id by (rewrite in_range_erase; exact Hr); reflexivity].
  unfold load_int. cbn [l_base l_digits l_uns l_longs fix_dec fix_hex fixed].
  destruct b; cbn match in *.
  1: replace (parse_dec ds) with v by (symmetry; apply (accum_exact _ 10); auto using mul_add_step; lia).
  2: replace (parse_oct ds) with v by
       (symmetry; apply (accum_exact _ 8); auto; [intros; rewrite Z.shiftl_mul_pow2 by lia; apply mul_add_step | lia]).
  (* Hex, Bin: value_ in the tests is v; the result PI KU64 (conv KU64 v) keeps its conversion *)
  3,4: rewrite (load_hexbin _ ds) by (lia || assumption); change (fold_left _ ds 0) with v;
       set (r := PI KU64 (conv KU64 v));
       rewrite (conv_id KU64 v) by (unfold in_range; cbn; lia); subst r;
       rewrite !(Z.ltb_antisym v).
  all: destruct (candidates_longs longs) as [-> | [-> | [-> | E]]]; [.. | rewrite E in H; discriminate];
       unfold candidates in H; destruct uns; by_magnitude v Hv0 H.
Qed.

End Lit.
