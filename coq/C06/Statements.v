(* C06 -- the key as an ideal XOR hash value (std++ side): decidable equality and countability of
   JSON values and atoms, `key`, and the link between the executable comparison of Model.v and
   equality of keys. *)
From stdpp Require Import base decidable countable list strings gmap.
From Coq Require Import ZArith.
From OV.C06 Require Import XorHash Model.

Section jv_ind.
  Variable P : jv -> Prop.
  Hypothesis HNone : P JNone.
  Hypothesis HNull : P JNull.
  Hypothesis HBool : forall b, P (JBool b).
  Hypothesis HInt : forall z, P (JInt z).
  Hypothesis HStr : forall s, P (JStr s).
  Hypothesis HArr : forall l, Forall P l -> P (JArr l).
  Hypothesis HObj : forall l, Forall (fun kv => P (snd kv)) l -> P (JObj l).

  Fixpoint jv_ind' (j : jv) : P j :=
    match j with
    | JNone => HNone
    | JNull => HNull
    | JBool b => HBool b
    | JInt z => HInt z
    | JStr s => HStr s
    | JArr l => HArr l ((fix go (l : list jv) : Forall P l :=
                           match l with
                           | [] => @List.Forall_nil _ _
                           | a :: l' => @List.Forall_cons _ P a l' (jv_ind' a) (go l')
                           end) l)
    | JObj l => HObj l ((fix go (l : list (string * jv)) : Forall (fun kv => P (snd kv)) l :=
                           match l with
                           | [] => @List.Forall_nil _ _
                           | kv :: l' => @List.Forall_cons _ (fun kv => P (snd kv)) kv l' (jv_ind' (snd kv)) (go l')
                           end) l)
    end.
End jv_ind.

Lemma jv_eqb_eq : forall a b, jv_eqb a b = true <-> a = b.
Proof.
  induction a as [| | x | x | x | l IH | l IH] using jv_ind'; intros b; destruct b as [| | y | y | y | m | m];
    simpl; try (split; discriminate); try (split; reflexivity).
  - rewrite Bool.eqb_true_iff. split; [now intros -> | now intros [= ->]].
  - rewrite Z.eqb_eq. split; [now intros -> | now intros [= ->]].
  - rewrite String.eqb_eq. split; [now intros -> | now intros [= ->]].
  - revert m. induction IH as [|a l Ha _ IHl]; intros [|b m]; simpl;
      try (split; discriminate); [split; reflexivity|].
    rewrite andb_true_iff, Ha, (IHl m). split; [now intros [-> [= ->]] | now intros [= -> ->]].
  - revert m. induction IH as [|[k a] l Ha _ IHl]; intros [|[k' b] m]; simpl;
      try (split; discriminate); [split; reflexivity|].
    simpl in Ha. rewrite !andb_true_iff, String.eqb_eq, Ha, (IHl m).
    split; [now intros [[-> ->] [= ->]] | now intros [= -> -> ->]].
Qed.

Global Instance jv_eq_dec : EqDecision jv.
Proof.
  intros a b. destruct (jv_eqb a b) eqn:E.
  - left. apply jv_eqb_eq. exact E.
  - right. intros Heq. apply jv_eqb_eq in Heq. congruence.
Defined.

(* countability through std++'s generic trees *)
Definition leafT : Type := bool + Z + string.

Fixpoint jv_enc (j : jv) : gen_tree leafT :=
  match j with
  | JNone => GenNode 0 []
  | JNull => GenNode 1 []
  | JBool b => GenLeaf (inl (inl b))
  | JInt z => GenLeaf (inl (inr z))
  | JStr s => GenLeaf (inr s)
  | JArr l => GenNode 2 (List.map jv_enc l)
  | JObj l => GenNode 3 (List.map (fun kv => GenNode 4 [GenLeaf (inr (fst kv)); jv_enc (snd kv)]) l)
  end.

Fixpoint jv_dec (t : gen_tree leafT) : jv :=
  match t with
  | GenLeaf (inl (inl b)) => JBool b
  | GenLeaf (inl (inr z)) => JInt z
  | GenLeaf (inr s) => JStr s
  | GenNode 0 _ => JNone
  | GenNode 1 _ => JNull
  | GenNode 2 l => JArr (List.map jv_dec l)
  | GenNode 3 l => JObj (List.map (fun t => match t with
                                            | GenNode _ [GenLeaf (inr k); v] => (k, jv_dec v)
                                            | _ => (EmptyString, JNone)
                                            end) l)
  | GenNode _ _ => JNone
  end.

Lemma jv_dec_enc : forall j, jv_dec (jv_enc j) = j.
Proof.
  induction j as [| | x | x | x | l IH | l IH] using jv_ind'; simpl; try reflexivity.
  - f_equal. induction IH as [|a l Ha _ IHl]; simpl; [reflexivity|]. now rewrite Ha, IHl.
  - f_equal. induction IH as [|[k a] l Ha _ IHl]; simpl; [reflexivity|]. simpl in Ha. now rewrite Ha, IHl.
Qed.

Global Instance jv_countable : Countable jv.
Proof. exact (inj_countable' jv_enc jv_dec jv_dec_enc). Defined.

Global Instance atom_eq_dec : EqDecision atom.
Proof. solve_decision. Defined.

Global Instance atom_countable : Countable atom.
Proof.
  refine (inj_countable' (fun a => match a with ARaw s => inl s | AVal j => inr j end)
                         (fun x => match x with inl s => ARaw s | inr j => AVal j end) _).
  intros []; reflexivity.
Defined.

Lemma atom_eqb_eq a b : atom_eqb a b = true <-> a = b.
Proof.
  destruct a as [s|j], b as [s'|j']; simpl; try (split; discriminate).
  - rewrite String.eqb_eq. split; [now intros -> | now intros [= ->]].
  - rewrite jv_eqb_eq. split; [now intros -> | now intros [= ->]].
Qed.

Definition key (sh : shape) (c : cfg) : hv atom := xor_list (atoms_of sh c).

Lemma occb_occ a l : occb a l = occ a l.
Proof.
  induction l as [|b l IH]; simpl; [reflexivity|]. rewrite IH. f_equal.
  destruct (decide (a = b)) as [->|Hne].
  - now rewrite (proj2 (atom_eqb_eq b b) eq_refl).
  - destruct (atom_eqb a b) eqn:E; [apply atom_eqb_eq in E; contradiction | reflexivity].
Qed.

Lemma parityb_spec l1 l2 : parityb l1 l2 = true <-> xor_list l1 = xor_list l2.
Proof.
  rewrite xor_list_eq_iff. unfold parityb. rewrite forallb_forall. setoid_rewrite occb_occ. split.
  - (* an atom that occurs in neither list occurs zero times in both *)
    intros Hall a. destruct (decide (a ∈ l1 ++ l2)) as [Hin|Hnin].
    + apply Bool.eqb_prop, Hall, elem_of_list_In, Hin.
    + apply not_elem_of_app in Hnin as [N1 N2]. apply occ_0_not_in in N1, N2. now rewrite N1, N2.
  - intros Hp a _. rewrite Hp. apply Bool.eqb_reflx.
Qed.

Lemma keys_equal_spec sh c1 c2 : keys_equal sh c1 c2 = true <-> key sh c1 = key sh c2.
Proof. apply parityb_spec. Qed.
