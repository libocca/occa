(* The ideal XOR hash (DESIGN.md section 3), used by C06.

   occa::hash_t is eight 32-bit words; `operator^` XORs the words (src/utils/hash.cpp).  The ideal
   model keeps exactly the algebra that this composition has and nothing else: a hash value is a finite
   set of *atoms* (an atom stands for "the 256-bit hash of this particular input"), hashing an input
   gives the singleton of its atom, and `^` is symmetric difference.  Accidental collisions of the
   FNV-style hash function are idealised away (distinct inputs have distinct atoms); the collisions that
   XOR composition itself creates -- commutativity and self-cancellation -- are all kept.

   The type of atoms is a parameter (C06: raw texts / JSON values).  The laws of `xor` and `xor_list`
   below (commutative, associative, self-cancelling, unit, invariant under permutation) record that
   the model has the algebra of `operator^`; C06's proofs go through `elem_of_xor_list` only. *)
From stdpp Require Import base decidable countable list gmap fin_sets.
From Coq Require Import Arith.

Section xor.
  Context {A : Type} `{Countable A}.

  Definition hv := gset A.

  Definition hash1 (a : A) : hv := {[ a ]}.

  Definition xor (x y : hv) : hv := (x ∖ y) ∪ (y ∖ x).

  Definition xor_list (l : list A) : hv := foldr (fun a acc => xor (hash1 a) acc) ∅ l.

  Lemma elem_of_xor a x y : a ∈ xor x y <-> ((a ∈ x /\ a ∉ y) \/ (a ∈ y /\ a ∉ x)).
  Proof. unfold xor. set_solver. Qed.

  Lemma xor_comm x y : xor x y = xor y x.
  Proof. unfold xor. apply (comm_L (∪)). Qed.

  Lemma set_eq_bool (x y : hv) : (forall a, bool_decide (a ∈ x) = bool_decide (a ∈ y)) -> x = y.
  Proof.
    intros E. apply set_eq. intros a.
    now rewrite <- (bool_decide_eq_true (a ∈ x)), <- (bool_decide_eq_true (a ∈ y)), E.
  Qed.

  (* membership in a XOR is the exclusive or of the memberships, so `xor` inherits associativity
     from `xorb` *)
  Lemma elem_of_xor_b a x y :
    bool_decide (a ∈ xor x y) = xorb (bool_decide (a ∈ x)) (bool_decide (a ∈ y)).
  Proof. pose proof (elem_of_xor a x y). repeat case_bool_decide; simpl; tauto. Qed.

  Lemma xor_assoc x y z : xor x (xor y z) = xor (xor x y) z.
  Proof.
    apply set_eq_bool. intros a. now rewrite !elem_of_xor_b, xorb_assoc.
  Qed.

  Lemma xor_self x : xor x x = ∅.
  Proof. unfold xor. set_solver. Qed.

  Lemma xor_empty_l x : xor ∅ x = x.
  Proof. unfold xor. set_solver. Qed.

  Lemma xor_empty_r x : xor x ∅ = x.
  Proof. unfold xor. set_solver. Qed.

  Lemma xor_cancel_l x y z : xor x y = xor x z -> y = z.
  Proof.
    intros E. rewrite <- (xor_empty_l y), <- (xor_empty_l z), <- (xor_self x), <- !xor_assoc.
    now rewrite E.
  Qed.

  Fixpoint occ (a : A) (l : list A) : nat :=
    match l with
    | [] => 0
    | b :: l' => (if decide (a = b) then 1 else 0) + occ a l'
    end.

  Lemma occ_app a l1 l2 : occ a (l1 ++ l2) = occ a l1 + occ a l2.
  Proof. induction l1 as [|b l1 IH]; simpl; [reflexivity|]. rewrite IH. lia. Qed.

  Lemma occ_0_not_in a l : occ a l = 0 <-> a ∉ l.
  Proof.
    induction l as [|b l IH]; simpl.
    - split; [intros _; apply not_elem_of_nil | reflexivity].
    - rewrite not_elem_of_cons. destruct (decide (a = b)); simpl; [split; [discriminate | tauto]|].
      rewrite IH. tauto.
  Qed.

  Lemma occ_nodup a l : NoDup l -> a ∈ l -> occ a l = 1.
  Proof.
    induction 1 as [|b l Hb Hl IH]; [intros Hin; inversion Hin|].
    intros Hin. simpl. destruct (decide (a = b)) as [->|Hne].
    - apply occ_0_not_in in Hb. rewrite Hb. reflexivity.
    - apply elem_of_cons in Hin as [?|Hin]; [contradiction|]. rewrite (IH Hin). reflexivity.
  Qed.

  Lemma xor_list_odd a l : bool_decide (a ∈ xor_list l) = Nat.odd (occ a l).
  Proof.
    induction l as [|b l IH]; simpl; [apply bool_decide_eq_false_2, not_elem_of_empty|].
    rewrite elem_of_xor_b, IH, Nat.odd_add. f_equal. unfold hash1.
    destruct (decide (a = b)) as [->|N].
    - now apply bool_decide_eq_true_2, elem_of_singleton.
    - apply bool_decide_eq_false_2. now rewrite elem_of_singleton.
  Qed.

  Lemma elem_of_xor_list a l : a ∈ xor_list l <-> Nat.odd (occ a l) = true.
  Proof. rewrite <- xor_list_odd. symmetry. apply bool_decide_eq_true. Qed.

  Lemma xor_list_eq_iff l1 l2 :
    xor_list l1 = xor_list l2 <-> forall a, Nat.odd (occ a l1) = Nat.odd (occ a l2).
  Proof.
    split.
    - intros E a. now rewrite <- !xor_list_odd, E.
    - intros Hp. apply set_eq_bool. intros a. now rewrite !xor_list_odd, Hp.
  Qed.

  Lemma xor_list_app l1 l2 : xor_list (l1 ++ l2) = xor (xor_list l1) (xor_list l2).
  Proof.
    induction l1 as [|a l1 IH]; simpl; [now rewrite xor_empty_l|]. now rewrite IH, xor_assoc.
  Qed.

  Lemma xor_list_perm l1 l2 : l1 ≡ₚ l2 -> xor_list l1 = xor_list l2.
  Proof.
    intros P. apply xor_list_eq_iff. intros a. f_equal.
    induction P; simpl; try lia.
  Qed.

  Lemma xor_list_cancel a l : xor_list (a :: a :: l) = xor_list l.
  Proof. simpl. now rewrite xor_assoc, xor_self, xor_empty_l. Qed.
End xor.

Arguments hv A {_ _}.
