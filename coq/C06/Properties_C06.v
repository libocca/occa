(* C06 -- kernel cache keys separate every build configuration.  The general proofs are in Proofs.v;
   the witnesses are evaluated here.

   Vocabulary (Model.v / Spec.v / Statements.v):
     cfg            one kernel build: device mode, source text, merged kernel properties (path -> JSON value)
     shape          how the key is composed: per mode a list of terms that are XORed
                      TField p   = hash of the value of property p alone        (occa::hash(props["p"]))
                      TRecord ps = hash of ONE object {p: value | p in ps, set} (kernelPropsHash(props, {...}))
                      TConst s / TConstVal j / TSource = string literal / settings()["version"] / kernel source
     key sh c       the key as an ideal XOR hash value: the set of atoms occurring an odd number of times
     effective c    the sub-record the build consumes (mode, source, values at Spec.effective_paths);
                    Spec.build (compiler command line, header inputs, parser settings) is a function of it
     good_shape     decidable: no TField, records duplicate-free and pairwise disjoint and covering the
                    effective paths, literals distinct and different between the modes, source hashed once
     dom_sepb sh c  domain separation: the source text is not one of the string literals the key hashes
                    ("host", "openmp device::hash", ...).  The other half of the separation -- a raw text
                    is never the dump of a hashed JSON value, and dump is injective (C24) -- is built into
                    the atoms (ARaw / AVal).
   The shape of the CURRENT tree is generated from the C++ text on every run (coq/gen/C06_KeyFields.v);
   coq/gen/C06_KeyChecks.v re-proves `good_shape effective_paths gen_shape = true` and instantiates
   key_injective for it.  pinned_shape is the composition at the snapshot, fixed_shape the one after
   fixes/C06-1.patch. *)
From stdpp Require Import base gmap.
From Coq Require Import List String ZArith Bool.
From OV.C06 Require Import XorHash Model Spec Statements Proofs.
Import ListNotations.
Local Open Scope string_scope.

(* MAIN.  Two builds share a cache entry only if their effective inputs are identical: for every
   well-formed key composition, all configurations (any JSON values, any source texts, any further
   properties). *)
Theorem key_injective : forall (sh : shape) (c1 c2 : cfg),
  good_shape effective_paths sh = true ->
  dom_sepb sh c1 = true -> dom_sepb sh c2 = true ->
  key sh c1 = key sh c2 -> effective c1 = effective c2.
Proof. exact Proofs.key_injective. Qed.

(* ... and then they run the same compiler command on the same generated source *)
Theorem key_injective_build : forall (sh : shape) (c1 c2 : cfg) env text truth vsf vstd omp,
  good_shape effective_paths sh = true ->
  dom_sepb sh c1 = true -> dom_sepb sh c2 = true ->
  key sh c1 = key sh c2 ->
  build env text truth vsf vstd omp c1 = build env text truth vsf vstd omp c2.
Proof.
  intros sh c1 c2 env text truth vsf vstd omp Hg H1 H2 Hk.
  apply build_factors. exact (Proofs.key_injective sh c1 c2 Hg H1 H2 Hk).
Qed.

(* Identical builds resolve to the same entry: the key is a function of the configuration only (no
   address, time or process id enters the model; the check compares the keys of two processes). *)
Theorem same_cfg_same_key : forall (sh : shape) (c1 c2 : cfg),
  c_mode c1 = c_mode c2 -> c_source c1 = c_source c2 -> (forall p, get c1 p = get c2 p) ->
  key sh c1 = key sh c2.
Proof. exact Proofs.same_cfg_same_key. Qed.

(* the composition after fixes/C06-1.patch is well formed, whatever the version string *)
Theorem fixed_shape_good : forall ver, good_shape effective_paths (fixed_shape ver) = true.
Proof. exact Proofs.fixed_shape_good. Qed.

Corollary fixed_key_injective : forall ver c1 c2,
  dom_sepb (fixed_shape ver) c1 = true -> dom_sepb (fixed_shape ver) c2 = true ->
  key (fixed_shape ver) c1 = key (fixed_shape ver) c2 -> effective c1 = effective c2.
Proof. intros ver c1 c2. exact (Proofs.key_injective _ c1 c2 (Proofs.fixed_shape_good ver)). Qed.

Print Assumptions key_injective.
Print Assumptions key_injective_build.
Print Assumptions same_cfg_same_key.
Print Assumptions fixed_shape_good.
Print Assumptions fixed_key_injective.

Definition k0 : string := "@kernel void k(int *out) { /* ... */ }".
Definition cfgS (props : list (string * jv)) : cfg := mkCfg Serial k0 (("mode", JStr "Serial") :: props).

(* DESIGN section 8 #10: values that move between properties.  compiler_flags = "-O1" with
   compiler_linker_flags = "-O2" and the swapped pair have the same key. *)
Definition swap1 := cfgS [("compiler_flags", JStr "-O1"); ("compiler_linker_flags", JStr "-O2")].
Definition swap2 := cfgS [("compiler_flags", JStr "-O2"); ("compiler_linker_flags", JStr "-O1")].

Theorem xor_swap_collision_refuted : forall ver,
  dom_sepb (pinned_shape ver) swap1 = true /\ dom_sepb (pinned_shape ver) swap2 = true /\
  key (pinned_shape ver) swap1 = key (pinned_shape ver) swap2 /\ effective swap1 <> effective swap2.
Proof.
  intros ver. split; [vm_compute; reflexivity|]. split; [vm_compute; reflexivity|].
  apply pinned_collision; vm_compute; reflexivity.
Qed.

(* #10: equal values cancel.  A build that defines X=5 (and has an equal `functions` entry) has the key of
   the build without any of the two; so does one with two equal flag strings. *)
Definition cancel1 := cfgS [("defines", JObj [("X", JInt 5)]); ("functions", JObj [("X", JInt 5)])].
Definition cancel2 := cfgS [].
Definition cancel3 := cfgS [("compiler_flags", JStr "-O0"); ("compiler_linker_flags", JStr "-O0")].

Theorem xor_cancel_collision_refuted : forall ver,
  dom_sepb (pinned_shape ver) cancel1 = true /\ dom_sepb (pinned_shape ver) cancel2 = true /\
  key (pinned_shape ver) cancel1 = key (pinned_shape ver) cancel2 /\ effective cancel1 <> effective cancel2 /\
  key (pinned_shape ver) cancel3 = key (pinned_shape ver) cancel2 /\ effective cancel3 <> effective cancel2.
Proof.
  intros ver. split; [vm_compute; reflexivity|]. split; [vm_compute; reflexivity|].
  apply Coq.Init.Logic.and_assoc. split; apply pinned_collision; vm_compute; reflexivity.
Qed.

(* #11: settings that change the generated code are not in the key at all *)
Definition okl1 := cfgS [("okl/include_paths", JArr [JStr "/opt/a"])].
Definition okl2 := cfgS [("okl/include_paths", JArr [JStr "/opt/b"])].
Definition okl3 := cfgS [("serial/include_std", JBool true)].
Definition okl4 := cfgS [("okl/restrict", JStr "disabled")].
Definition okl5 := cfgS [("kernel/include_occa", JBool true)].
Definition okl6 := cfgS [("okl/enabled", JBool false)].

Theorem okl_settings_not_in_key_refuted : forall ver,
  key (pinned_shape ver) okl1 = key (pinned_shape ver) okl2 /\ effective okl1 <> effective okl2 /\
  Forall (fun c => key (pinned_shape ver) c = key (pinned_shape ver) cancel2 /\ effective c <> effective cancel2)
         [okl1; okl3; okl4; okl5; okl6].
Proof.
  intros ver. apply Coq.Init.Logic.and_assoc. split; [apply pinned_collision; vm_compute; reflexivity|].
  repeat (apply Forall_cons; [apply pinned_collision; vm_compute; reflexivity|]). apply Forall_nil.
Qed.

Theorem pinned_shape_not_good : forall ver, good_shape effective_paths (pinned_shape ver) = false.
Proof. exact Proofs.pinned_shape_not_good. Qed.

Print Assumptions xor_swap_collision_refuted.
Print Assumptions xor_cancel_collision_refuted.
Print Assumptions okl_settings_not_in_key_refuted.

(* with the fixed composition the same witnesses have different keys *)
Example fixed_separates_witnesses :
  keys_equal (fixed_shape "2.0.0") swap1 swap2 = false /\
  keys_equal (fixed_shape "2.0.0") cancel1 cancel2 = false /\
  keys_equal (fixed_shape "2.0.0") cancel3 cancel2 = false /\
  forallb (fun c => negb (keys_equal (fixed_shape "2.0.0") c cancel2)) [okl1; okl2; okl3; okl4; okl5; okl6] = true /\
  keys_equal (fixed_shape "2.0.0") okl1 okl2 = false.
Proof. vm_compute. repeat split; reflexivity. Qed.

(* the hypotheses of key_injective are met by real-looking configurations, Serial against OpenMP too *)
Example hypotheses_inhabited :
  let c1 := cfgS [("defines", JObj [("N", JInt 16)]); ("compiler_flags", JStr "-O2 -g")] in
  let c2 := mkCfg OpenMP k0 [("mode", JStr "OpenMP"); ("defines", JObj [("N", JInt 16)]); ("compiler_flags", JStr "-O2 -g")] in
  dom_sepb (fixed_shape "2.0.0") c1 = true /\ dom_sepb (fixed_shape "2.0.0") c2 = true /\
  keys_equal (fixed_shape "2.0.0") c1 c1 = true /\ keys_equal (fixed_shape "2.0.0") c1 c2 = false.
Proof. vm_compute. repeat split; reflexivity. Qed.

(* why domain separation is asked for: a "kernel" whose text is the literal `host` violates it, and its
   atom occurs twice in the key, i.e. cancels the device hash *)
Example dom_sep_needed :
  let c := mkCfg Serial "host" [] in
  dom_sepb (fixed_shape "2.0.0") c = false /\
  occb (ARaw "host") (atoms_of (fixed_shape "2.0.0") c) = 2.
Proof. vm_compute. split; reflexivity. Qed.
