(* C06 -- proofs.  Main result: for every well-formed key shape (good_shape, a decidable condition that
   the generated shape of the current tree is checked against on every run), equal keys imply equal
   mode, source and property values at every needed path.  Unbounded in the configurations: arbitrary
   JSON trees, arbitrary source texts, arbitrary other properties. *)
From stdpp Require Import base decidable countable list strings gmap.
From Coq Require Import ZArith Arith Lia.
From OV.C06 Require Import XorHash Model Spec Statements.

Lemma mem_In p l : mem p l = true <-> In p l.
Proof.
  unfold mem. rewrite existsb_exists. split.
  - intros [x [Hin E]]. apply String.eqb_eq in E. now subst.
  - intros Hin. exists p. split; [assumption | apply String.eqb_refl].
Qed.

Lemma mem_false p l : mem p l = false <-> ~ In p l.
Proof. rewrite <- mem_In. destruct (mem p l); split; congruence. Qed.

Lemma nodupb_NoDup l : nodupb l = true -> List.NoDup l.
Proof.
  induction l as [|a l IH]; simpl; [constructor|].
  rewrite andb_true_iff, negb_true_iff, mem_false. intros [Hn Hl]. constructor; auto.
Qed.

Lemma is_none_true j : is_none j = true -> j = JNone.
Proof. destruct j; simpl; congruence. Qed.

Lemma rec_of_cons q ps c :
  rec_of (q :: ps) c = if is_none (get c q) then rec_of ps c else (q, get c q) :: rec_of ps c.
Proof. unfold rec_of. simpl. destruct (is_none (get c q)); reflexivity. Qed.

Lemma rec_of_names ps c p v : In (p, v) (rec_of ps c) -> In p ps.
Proof.
  unfold rec_of. rewrite filter_In, in_map_iff. intros [[q [E Hq]] _]. now injection E as <- _.
Qed.

Lemma rec_of_inj ps c1 c2 :
  List.NoDup ps -> rec_of ps c1 = rec_of ps c2 -> forall p, In p ps -> get c1 p = get c2 p.
Proof.
  induction ps as [|q ps IH]; intros Hnd E p Hin; [destruct Hin|].
  inversion Hnd as [|? ? Hq Hps]; subst.
  rewrite !rec_of_cons in E.
  destruct (is_none (get c1 q)) eqn:N1, (is_none (get c2 q)) eqn:N2.
  - destruct Hin as [<-|Hin]; [|now apply IH].
    now rewrite (is_none_true _ N1), (is_none_true _ N2).
  - exfalso. apply Hq. apply (rec_of_names ps c1 q (get c2 q)). rewrite E. now left.
  - exfalso. apply Hq. apply (rec_of_names ps c2 q (get c1 q)). rewrite <- E. now left.
  - injection E as Ev Et. destruct Hin as [<-|Hin]; [assumption | now apply IH].
Qed.

Lemma rec_of_ext ps c1 c2 : (forall p, get c1 p = get c2 p) -> rec_of ps c1 = rec_of ps c2.
Proof.
  intros Hg. unfold rec_of. f_equal. apply map_ext. intros p. now rewrite Hg.
Qed.

Notation atoms c ts := (List.map (term_atom c) ts).

Lemma occ_raw c ts s :
  occ (ARaw s) (atoms c ts)
  = occ s (consts_of ts) + (if decide (s = c_source c) then count_source ts else 0).
Proof.
  induction ts as [|t ts IH]; simpl; [now case_decide|].
  unfold count_source in *. destruct t as [p|ps|s'|j|]; simpl; rewrite IH;
    repeat case_decide; try congruence; lia.
Qed.

Lemma occ_obj c ts r :
  forallb term_ok ts = true ->
  occ (AVal (JObj r)) (atoms c ts) = occ r (List.map (fun ps => rec_of ps c) (records_of ts)).
Proof.
  induction ts as [|t ts IH]; simpl; [reflexivity|].
  rewrite andb_true_iff. intros [Ht Hts]. rewrite (IH Hts).
  destruct t as [p|ps|s'|j|]; simpl in *; repeat case_decide; try congruence; try lia.
  (* left: a hashed constant equal to the object, which term_ok excludes *)
  simplify_eq.
Qed.

(* An empty record hashes to `AVal (JObj [])` whichever record term it comes from, so two empty records
   cancel and nothing can be said about them in the key.  A non-empty record `(p, v) :: r` can only come
   from the one record term that lists p (the name lists are disjoint): its occurrences can be counted,
   and "both empty" is recovered as "neither side non-empty" (inj_record). *)
Lemma occ_record_other (c : cfg) p v r ls :
  (forall ps, In ps ls -> ~ In p ps) -> occ ((p, v) :: r) (List.map (fun ps => rec_of ps c) ls) = 0.
Proof.
  intros Hno. apply occ_0_not_in. intros Hin. apply elem_of_list_In, in_map_iff in Hin.
  destruct Hin as [ps [E Hps]]. apply (Hno ps Hps). apply (rec_of_names ps c p v). rewrite E. now left.
Qed.

Lemma disjointb_spec l1 l2 p : disjointb l1 l2 = true -> In p l1 -> ~ In p l2.
Proof.
  unfold disjointb. rewrite forallb_forall. intros H Hin. specialize (H p Hin).
  now apply negb_true_iff, mem_false in H.
Qed.

Lemma occ_record ls c p v r :
  pairwise_disjointb ls = true -> forall ps, In ps ls -> In p ps ->
  occ ((p, v) :: r) (List.map (fun ps' => rec_of ps' c) ls)
  = if decide (rec_of ps c = (p, v) :: r) then 1 else 0.
Proof.
  induction ls as [|l0 ls IH]; intros Hpd ps Hps Hp; [destruct Hps|].
  simpl in Hpd. apply andb_true_iff in Hpd as [Hd Hpd]. rewrite forallb_forall in Hd.
  simpl. destruct (mem p l0) eqn:Hm.
  - apply mem_In in Hm.
    assert (Hothers : forall ps', In ps' ls -> ~ In p ps').
    { intros ps' Hin. exact (disjointb_spec l0 ps' p (Hd _ Hin) Hm). }
    assert (ps = l0) as ->.
    { destruct Hps as [E|Hin]; [now symmetry|]. destruct (Hothers ps Hin Hp). }
    rewrite (occ_record_other c p v r ls Hothers), Nat.add_0_r.
    destruct (decide (_ = rec_of l0 c)), (decide (rec_of l0 c = _)); congruence.
  - apply mem_false in Hm.
    destruct (decide ((p, v) :: r = rec_of l0 c)) as [E|N].
    + destruct Hm. apply (rec_of_names l0 c p v). rewrite <- E. now left.
    + destruct Hps as [E|Hin]; [subst; contradiction|]. now apply IH.
Qed.

(* the conjunct `jv_nodupb (constvals_of ts)` of terms_ok is not among the parts: injectivity does not need it *)
Lemma terms_ok_parts needed ts :
  terms_ok needed ts = true ->
  forallb term_ok ts = true /\ count_source ts = 1 /\ List.NoDup (consts_of ts)
  /\ (forall ps, In ps (records_of ts) -> List.NoDup ps)
  /\ pairwise_disjointb (records_of ts) = true
  /\ (forall p, In p needed -> exists ps, In ps (records_of ts) /\ In p ps).
Proof.
  unfold terms_ok. rewrite !andb_true_iff. intros [[[[[[H1 H2] H3] _] H5] H6] H7].
  repeat split; try assumption.
  - now apply Nat.eqb_eq.
  - now apply nodupb_NoDup.
  - intros ps Hin. rewrite forallb_forall in H5. now apply nodupb_NoDup, H5.
  - intros p Hin. rewrite forallb_forall in H7. specialize (H7 p Hin).
    apply existsb_exists in H7 as [ps [Hps Hm]]. exists ps. split; [assumption | now apply mem_In].
Qed.

Lemma same_set_spec l1 l2 : same_set l1 l2 = true <-> forall s, In s l1 <-> In s l2.
Proof.
  unfold same_set. rewrite andb_true_iff, !forallb_forall. setoid_rewrite mem_In.
  split; [intros [H1 H2] s; split; auto | intros H; split; intros s; apply H].
Qed.

Lemma same_set_sym l1 l2 : same_set l1 l2 = same_set l2 l1.
Proof. apply andb_comm. Qed.

Lemma good_shape_parts needed sh :
  good_shape needed sh = true ->
  (forall m, terms_ok needed (sh m) = true)
  /\ same_set (consts_of (sh Serial)) (consts_of (sh OpenMP)) = false.
Proof.
  unfold good_shape. rewrite !andb_true_iff, negb_true_iff. intros [[H1 H2] H3].
  split; [intros []; assumption | assumption].
Qed.

Lemma dom_sep_not_const sh c m :
  dom_sepb sh c = true -> ~ In (c_source c) (consts_of (sh m)).
Proof.
  unfold dom_sepb, reserved. rewrite negb_true_iff, mem_false, in_app_iff. intros Hn Hin.
  apply Hn. destruct m; [left | right]; assumption.
Qed.

Section KeyAtoms.
  Variables (needed : list string) (sh : shape) (c : cfg).
  Hypothesis Hok : terms_ok needed (sh (c_mode c)) = true.

  Lemma raw_in_key s :
    dom_sepb sh c = true ->
    ARaw s ∈ key sh c <-> In s (consts_of (sh (c_mode c))) \/ s = c_source c.
  Proof.
    intros Hsep. destruct (terms_ok_parts _ _ Hok) as (_ & Hs & Hnd & _).
    unfold key, atoms_of. rewrite elem_of_xor_list, occ_raw, Hs.
    destruct (decide (s = c_source c)) as [->|Hne].
    - rewrite (proj2 (occ_0_not_in _ _)); [tauto|].
      rewrite elem_of_list_In. exact (dom_sep_not_const sh c _ Hsep).
    - rewrite Nat.add_0_r. destruct (decide (s ∈ consts_of (sh (c_mode c)))) as [Hin|Hnin].
      + rewrite (occ_nodup _ _ (proj2 (NoDup_ListNoDup _) Hnd) Hin). apply elem_of_list_In in Hin. tauto.
      + rewrite (proj2 (occ_0_not_in _ _) Hnin). rewrite elem_of_list_In in Hnin.
        split; [discriminate | tauto].
  Qed.

  Lemma rec_in_key ps p v r :
    In ps (records_of (sh (c_mode c))) -> In p ps ->
    AVal (JObj ((p, v) :: r)) ∈ key sh c <-> rec_of ps c = (p, v) :: r.
  Proof.
    intros Hps Hp. destruct (terms_ok_parts _ _ Hok) as (Hto & _ & _ & _ & Hpd & _).
    unfold key, atoms_of.
    rewrite elem_of_xor_list, (occ_obj _ _ _ Hto), (occ_record _ c p v r Hpd ps Hps Hp).
    destruct (decide (rec_of ps c = (p, v) :: r)); [tauto | split; [discriminate | tauto]].
  Qed.
End KeyAtoms.

Section Injective.
  Variable needed : list string.
  Variable sh : shape.
  Hypothesis Hgood : good_shape needed sh = true.

  Let Hok : forall m, terms_ok needed (sh m) = true := proj1 (good_shape_parts _ _ Hgood).

  (* one direction of each conclusion, to be used both ways round *)
  Section OneWay.
    Variables ca cb : cfg.
    Hypothesis Hsepa : dom_sepb sh ca = true.
    Hypothesis Hsepb : dom_sepb sh cb = true.
    Hypothesis Hkey : key sh ca = key sh cb.

    Lemma inj_source : c_source ca = c_source cb.
    Proof.
      assert (Hin : ARaw (c_source ca) ∈ key sh cb).
      { rewrite <- Hkey. apply (raw_in_key needed); auto. }
      apply (raw_in_key needed) in Hin as [Hin|Hin]; auto.
      destruct (dom_sep_not_const sh ca _ Hsepa Hin).
    Qed.

    Lemma consts_incl s : In s (consts_of (sh (c_mode ca))) -> In s (consts_of (sh (c_mode cb))).
    Proof.
      intros Hs. assert (Hin : ARaw s ∈ key sh cb).
      { rewrite <- Hkey. apply (raw_in_key needed); auto. }
      apply (raw_in_key needed) in Hin as [Hin|E]; auto.
      rewrite E in Hs. destruct (dom_sep_not_const sh cb _ Hsepb Hs).
    Qed.

    Lemma rec_transfer ps p v r :
      c_mode ca = c_mode cb -> In ps (records_of (sh (c_mode ca))) ->
      rec_of ps ca = (p, v) :: r -> rec_of ps cb = (p, v) :: r.
    Proof.
      intros Hm Hps R.
      assert (Hp : In p ps) by (apply (rec_of_names ps ca p v); rewrite R; now left).
      apply (rec_in_key needed sh ca (Hok _) ps p v r Hps Hp) in R.
      rewrite Hkey in R. rewrite Hm in Hps. exact (proj1 (rec_in_key needed sh cb (Hok _) ps p v r Hps Hp) R).
    Qed.
  End OneWay.

  Variables c1 c2 : cfg.
  Hypothesis Hsep1 : dom_sepb sh c1 = true.
  Hypothesis Hsep2 : dom_sepb sh c2 = true.
  Hypothesis Hkey : key sh c1 = key sh c2.

  (* the two modes hash the same literals, which good_shape excludes for different modes *)
  Lemma inj_mode : c_mode c1 = c_mode c2.
  Proof.
    assert (Hsame : same_set (consts_of (sh (c_mode c1))) (consts_of (sh (c_mode c2))) = true).
    { apply same_set_spec. intros s. split; apply consts_incl; auto. }
    pose proof (proj2 (good_shape_parts _ _ Hgood)) as Hdiff.
    destruct (c_mode c1), (c_mode c2); [reflexivity | | | reflexivity].
    - congruence.
    - rewrite same_set_sym in Hsame. congruence.
  Qed.

  Lemma inj_record ps : In ps (records_of (sh (c_mode c1))) -> rec_of ps c1 = rec_of ps c2.
  Proof.
    intros Hps. pose proof inj_mode as Hm.
    destruct (rec_of ps c1) as [|[p v] r] eqn:R1.
    - destruct (rec_of ps c2) as [|[p v] r] eqn:R2; [reflexivity|].
      rewrite Hm in Hps. rewrite <- R1.
      exact (rec_transfer c2 c1 (eq_sym Hkey) ps p v r (eq_sym Hm) Hps R2).
    - symmetry. exact (rec_transfer c1 c2 Hkey ps p v r Hm Hps R1).
  Qed.

  Lemma inj_paths : forall p, In p needed -> get c1 p = get c2 p.
  Proof.
    intros p Hin.
    destruct (terms_ok_parts _ _ (Hok (c_mode c1))) as (_ & _ & _ & Hnd & _ & Hcov).
    destruct (Hcov p Hin) as [ps [Hps Hp]].
    exact (rec_of_inj ps c1 c2 (Hnd ps Hps) (inj_record ps Hps) p Hp).
  Qed.
End Injective.

Theorem key_injective_gen needed sh c1 c2 :
  good_shape needed sh = true -> dom_sepb sh c1 = true -> dom_sepb sh c2 = true ->
  key sh c1 = key sh c2 ->
  c_mode c1 = c_mode c2 /\ c_source c1 = c_source c2 /\ forall p, In p needed -> get c1 p = get c2 p.
Proof.
  intros Hg H1 H2 Hk. split; [|split].
  - exact (inj_mode needed sh Hg c1 c2 H1 H2 Hk).
  - exact (inj_source needed sh Hg c1 c2 H1 H2 Hk).
  - exact (inj_paths needed sh Hg c1 c2 H1 H2 Hk).
Qed.

Theorem key_injective sh c1 c2 :
  good_shape effective_paths sh = true -> dom_sepb sh c1 = true -> dom_sepb sh c2 = true ->
  key sh c1 = key sh c2 -> effective c1 = effective c2.
Proof.
  intros Hg H1 H2 Hk. destruct (key_injective_gen _ _ _ _ Hg H1 H2 Hk) as (Hm & Hs & Hp).
  unfold effective. rewrite Hm, Hs. f_equal. apply map_ext_in. exact Hp.
Qed.

Theorem same_cfg_same_key sh c1 c2 :
  c_mode c1 = c_mode c2 -> c_source c1 = c_source c2 -> (forall p, get c1 p = get c2 p) ->
  key sh c1 = key sh c2.
Proof.
  intros Hm Hs Hg. unfold key, atoms_of. rewrite Hm. f_equal. apply map_ext. intros t.
  destruct t as [p|ps|s|j|]; simpl; try reflexivity.
  - now rewrite Hg.
  - now rewrite (rec_of_ext ps c1 c2 Hg).
  - now rewrite Hs.
Qed.

Definition rebuilt (e : mode * string * list jv) : cfg :=
  let '(m, s, vs) := e in mkCfg m s (combine effective_paths vs).

(* Every `get c p` in the body of `build` has p among effective_paths, so each read evaluates to the
   same term on both sides. *)
Lemma build_rebuilt env text truth vsf vstd omp c :
  build env text truth vsf vstd omp (rebuilt (effective c)) = build env text truth vsf vstd omp c.
Proof. exact eq_refl. Qed.

Theorem build_factors env text truth vsf vstd omp c1 c2 :
  effective c1 = effective c2 ->
  build env text truth vsf vstd omp c1 = build env text truth vsf vstd omp c2.
Proof. intros E. rewrite <- (build_rebuilt _ _ _ _ _ _ c1), E. apply build_rebuilt. Qed.

Lemma fixed_shape_good ver : good_shape effective_paths (fixed_shape ver) = true.
Proof. reflexivity. Qed.

Lemma pinned_shape_not_good ver : good_shape effective_paths (pinned_shape ver) = false.
Proof. reflexivity. Qed.

(* a term whose atom is the same on both sides can be added to both keys *)
Lemma key_cons sh sh' t c1 c2 :
  (forall m, sh' m = t :: sh m) -> term_atom c1 t = term_atom c2 t ->
  key sh c1 = key sh c2 -> key sh' c1 = key sh' c2.
Proof. intros Hsh Ht Hk. unfold key, atoms_of in *. rewrite !Hsh. simpl. now rewrite Ht, Hk. Qed.

Lemma jvs_eqb_refl l : jvs_eqb l l = true.
Proof. induction l as [|a l IH]; simpl; [reflexivity|]. now rewrite IH, (proj2 (jv_eqb_eq a a) eq_refl). Qed.

Lemma effective_neq c1 c2 : effective_eqb c1 c2 = false -> effective c1 <> effective c2.
Proof.
  unfold effective, effective_eqb. generalize effective_paths as l. intros l Hf [= Em Es El].
  rewrite Em, Es, El, jvs_eqb_refl, String.eqb_refl in Hf. now destruct (c_mode c2).
Qed.

(* a pair with equal keys over the pinned shape (whose first term is the version) and different
   effective parts, both checked by evaluation *)
Lemma pinned_collision ver c1 c2 :
  keys_equal pinned_tail c1 c2 = true -> effective_eqb c1 c2 = false ->
  key (pinned_shape ver) c1 = key (pinned_shape ver) c2 /\ effective c1 <> effective c2.
Proof.
  intros Hk He. split; [|now apply effective_neq].
  apply (key_cons pinned_tail _ (TConstVal (JStr ver))); [reflexivity.. | now apply keys_equal_spec].
Qed.
