(* C24 — determinism: an object is a std::map, so its representation (and therefore its dump and
   its hash) depends only on the finite map it denotes, not on the order of insertions. *)
From Coq Require Import List NArith Bool.
From OV.C24 Require Import Model Spec PBytes.
Import ListNotations.

Section Det.
  Variables F32 F64 : Type.
  Notation json := (json F32 F64).
  Notation jobj := (Model.jobj F32 F64).
  Notation sorted := (fun m : jobj => keys_sorted F32 F64 m = true).
  Notation ofind := (obj_find F32 F64).
  Notation oset := (obj_set F32 F64).

  (* the binding a sequence of insertions leaves for k: the last one *)
  Fixpoint assoc_last (k : bytes) (l : list (bytes * json)) : option json :=
    match l with
    | [] => None
    | (k', v) :: t => match assoc_last k t with
                      | Some w => Some w
                      | None => if bytes_eqb k k' then Some v else None
                      end
    end.

  Lemma sorted_tail : forall kv (m : jobj), sorted (kv :: m) -> sorted m.
  Proof.
    intros [k v] m H. cbn [keys_sorted] in H. destruct m as [|[k2 v2] m]; [reflexivity|].
    now apply andb_true_iff in H as [_ H].
  Qed.

  Lemma sorted_head_lt : forall k (v : json) (m : jobj), sorted ((k, v) :: m) ->
    forall k', In k' (map fst m) -> bytes_ltb k k' = true.
  Proof.
    intros k v m. revert k v. induction m as [|[k2 v2] m IH]; intros k v H k' Hin; [destruct Hin|].
    cbn [keys_sorted] in H. apply andb_true_iff in H as [H1 H2].
    destruct Hin as [<-|Hin]; [exact H1|].
    eapply bytes_ltb_trans; [exact H1|]. apply (IH k2 v2); [exact H2 | exact Hin].
  Qed.

  Lemma sorted_cons : forall k (v : json) (m : jobj), sorted m ->
    (forall k', In k' (map fst m) -> bytes_ltb k k' = true) -> sorted ((k, v) :: m).
  Proof.
    intros k v [|[k2 v2] m] Hs Hlt; [reflexivity|].
    cbn [keys_sorted]. rewrite (Hlt k2 (or_introl eq_refl)). exact Hs.
  Qed.

  Lemma find_none_lt : forall k (m : jobj), (forall k', In k' (map fst m) -> bytes_ltb k k' = true) -> ofind k m = None.
  Proof.
    induction m as [|[k' v'] m IH]; intros H; [reflexivity|].
    cbn [obj_find]. rewrite bytes_eqb_sym, (bytes_ltb_neq k k') by (apply H; now left).
    apply IH. intros k'' Hin; apply H; now right.
  Qed.

  Lemma find_in : forall k (m : jobj) v, ofind k m = Some v -> In k (map fst m).
  Proof.
    induction m as [|[k' v'] m IH]; intros v H; [discriminate|].
    cbn [obj_find] in H. destruct (bytes_eqb k k') eqn:E.
    - apply bytes_eqb_eq in E; subst; now left.
    - right; eapply IH; eassumption.
  Qed.

  (* std::map::operator[]= *)
  Lemma find_set : forall k k' v (m : jobj),
    ofind k (oset k' v m) = if bytes_eqb k k' then Some v else ofind k m.
  Proof.
    induction m as [|[k0 v0] m IH]; cbn [obj_set obj_find].
    - destruct (bytes_eqb k k'); reflexivity.
    - destruct (bytes_ltb k' k0) eqn:Hlt.
      + cbn [obj_find]. destruct (bytes_eqb k k'); reflexivity.
      + destruct (bytes_eqb k' k0) eqn:Heq.
        * apply bytes_eqb_eq in Heq; subst k0. cbn [obj_find].
          destruct (bytes_eqb k k'); reflexivity.
        * cbn [obj_find]. destruct (bytes_eqb k k0) eqn:E0.
          -- apply bytes_eqb_eq in E0; subst k0.
             rewrite bytes_eqb_sym, Heq. reflexivity.
          -- exact IH.
  Qed.

  Lemma set_keys : forall k' k v (m : jobj), In k' (map fst (oset k v m)) -> k' = k \/ In k' (map fst m).
  Proof.
    induction m as [|[k0 v0] m IH]; cbn [obj_set]; intros H.
    - destruct H as [<-|[]]; now left.
    - destruct (bytes_ltb k k0).
      + destruct H as [<-|H]; [now left | now right].
      + destruct (bytes_eqb k k0).
        * destruct H as [<-|H]; [now left | right; now right].
        * destruct H as [<-|H]; [right; now left|].
          destruct (IH H) as [->|Hin]; [now left | right; now right].
  Qed.

  Lemma set_sorted : forall k v (m : jobj), sorted m -> sorted (oset k v m).
  Proof.
    induction m as [|[k0 v0] m IH]; intros Hs; [reflexivity|].
    cbn [obj_set]. destruct (bytes_ltb k k0) eqn:Hlt.
    - apply sorted_cons; [exact Hs|]. intros k' [<-|Hin]; [exact Hlt|].
      eapply bytes_ltb_trans; [exact Hlt|]. eapply sorted_head_lt; eassumption.
    - destruct (bytes_eqb k k0) eqn:Heq.
      + apply bytes_eqb_eq in Heq; subst k0.
        apply sorted_cons; [eapply sorted_tail; eassumption|].
        eapply sorted_head_lt; eassumption.
      + apply sorted_cons; [apply IH; eapply sorted_tail; eassumption|].
        intros k' Hin. destruct (set_keys _ _ _ _ Hin) as [->|Hin'].
        * apply bytes_ltb_total; [exact Hlt | exact Heq].
        * eapply sorted_head_lt; eassumption.
  Qed.

  (* k is above every key of ks: std::map::operator[] then appends *)
  Definition lt_all (ks : list bytes) (k : bytes) : Prop := forall k', In k' ks -> bytes_ltb k' k = true.

  Lemma obj_set_append : forall k (v : json) acc, lt_all (map fst acc) k -> oset k v acc = acc ++ [(k, v)].
  Proof.
    induction acc as [|[k' v'] acc IH]; intros H; [reflexivity|].
    cbn [obj_set app].
    assert (Hk : bytes_ltb k' k = true) by (apply H; now left).
    rewrite (bytes_ltb_asym _ _ Hk), (bytes_ltb_neq _ _ Hk).
    f_equal. apply IH. intros k'' Hin; apply H; now right.
  Qed.

  Theorem sorted_ext : forall (m1 m2 : jobj), sorted m1 -> sorted m2 ->
    (forall k, ofind k m1 = ofind k m2) -> m1 = m2.
  Proof.
    induction m1 as [|[k1 v1] t1 IH]; intros [|[k2 v2] t2] H1 H2 Hf.
    - reflexivity.
    - specialize (Hf k2). cbn [obj_find] in Hf. rewrite bytes_eqb_refl in Hf. discriminate.
    - specialize (Hf k1). cbn [obj_find] in Hf. rewrite bytes_eqb_refl in Hf. discriminate.
    - assert (Hk : k1 = k2).
      { pose proof (Hf k1) as A. pose proof (Hf k2) as B. cbn [obj_find] in A, B.
        rewrite bytes_eqb_refl in A, B.
        destruct (bytes_eqb k1 k2) eqn:E; [now apply bytes_eqb_eq|].
        rewrite bytes_eqb_sym, E in B.
        symmetry in A. apply find_in in A. apply find_in in B.
        pose proof (sorted_head_lt _ _ _ H2 _ A) as L1.
        pose proof (sorted_head_lt _ _ _ H1 _ B) as L2.
        rewrite (bytes_ltb_asym _ _ L1) in L2. discriminate. }
      subst k2.
      assert (Hv : v1 = v2).
      { specialize (Hf k1). cbn [obj_find] in Hf. rewrite bytes_eqb_refl in Hf. now injection Hf. }
      subst v2. f_equal.
      apply IH; [eapply sorted_tail; eassumption | eapply sorted_tail; eassumption|].
      intros k. specialize (Hf k). cbn [obj_find] in Hf.
      destruct (bytes_eqb k k1) eqn:E; [|exact Hf].
      apply bytes_eqb_eq in E; subst k.
      rewrite !find_none_lt; [reflexivity | |]; eapply sorted_head_lt; eassumption.
  Qed.

  Lemma fold_set_sorted : forall l (m : jobj), sorted m ->
    sorted (fold_left (fun m kv => oset (fst kv) (snd kv) m) l m).
  Proof.
    induction l as [|[k v] l IH]; intros m Hm; [exact Hm|].
    cbn [fold_left fst snd]. apply IH. now apply set_sorted.
  Qed.

  Lemma fold_set_find : forall k l (m : jobj),
    ofind k (fold_left (fun m kv => oset (fst kv) (snd kv) m) l m) =
      match assoc_last k l with Some w => Some w | None => ofind k m end.
  Proof.
    induction l as [|[k' v] l IH]; intros m; [reflexivity|].
    cbn [fold_left fst snd assoc_last]. rewrite IH, find_set.
    destruct (assoc_last k l); [reflexivity|]. destruct (bytes_eqb k k'); reflexivity.
  Qed.

  Theorem obj_of_list_sorted : forall l, sorted (obj_of_list F32 F64 l).
  Proof. intros; unfold obj_of_list. now apply fold_set_sorted. Qed.

  Theorem obj_of_list_find : forall k l, ofind k (obj_of_list F32 F64 l) = assoc_last k l.
  Proof. intros; unfold obj_of_list. rewrite fold_set_find. now destruct (assoc_last k l). Qed.

  Theorem obj_of_list_canonical : forall l1 l2,
    (forall k, assoc_last k l1 = assoc_last k l2) -> obj_of_list F32 F64 l1 = obj_of_list F32 F64 l2.
  Proof.
    intros l1 l2 H. apply sorted_ext; try apply obj_of_list_sorted.
    intros k. now rewrite !obj_of_list_find.
  Qed.

End Det.
