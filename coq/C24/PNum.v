(* C24 — the bytes that may follow a dumped value (`stop`, `stopr`), and lemmas on numbers: fixed-width
   conversions, decimal printing, parseInt, and primitive::load on the text of a printed integer or float. *)
From Coq Require Import List NArith ZArith Bool Lia.
From OV.C24 Require Import Model Spec PBytes.
Import ListNotations.
Local Open Scope Z_scope.

(* what follows a value in a dump: NUL, ',', ']', '}' or white space *)
Definition stop (c : N) : bool :=
  ((c =? 0) || (c =? 44) || (c =? 93) || (c =? 125))%N || is_ws c.
Definition stopr (r : bytes) : Prop := exists c t, r = c :: t /\ stop c = true.

(* every stop byte is below '.', or is ']' or '}': not a digit, not a dot, not a letter *)
Lemma stop_range : forall c, stop c = true -> (c < 46 \/ c = 93 \/ c = 125)%N.
Proof.
  intros c H; unfold stop, is_ws in H.
  repeat (apply orb_true_iff in H as [H|H]); apply N.eqb_eq in H; lia.
Qed.

Lemma upper_other : forall c, (c < 97 \/ 122 < c)%N -> upper c = c.
Proof. intros c H; unfold upper. destruct (N.leb_spec 97 c), (N.leb_spec c 122); trivial; lia. Qed.

Lemma stop_upper : forall c, stop c = true -> upper c = c.
Proof. intros c H. apply stop_range in H. apply upper_other; lia. Qed.

Lemma pow64 : 2 ^ 64 = 18446744073709551616.
Proof. reflexivity. Qed.

Lemma wrap64_small : forall z, 0 <= z < 2 ^ 64 -> wrap64 z = z.
Proof. intros; unfold wrap64, wrap_u; now apply Z.mod_small. Qed.

Lemma wrap64_opp : forall z, wrap64 (- wrap64 z) = wrap64 (- z).
Proof. intros; unfold wrap64, wrap_u. rewrite <- !Z.sub_0_l. apply Zminus_mod_idemp_r. Qed.

(* A signed conversion keeps the residue modulo 2^bits and is determined by it; the residue modulo 2^b is
   determined by that modulo 2^c for b <= c.  The identities between conversions below need no range. *)
Lemma wrap_s_mod : forall b z, wrap_s b z mod 2 ^ b = z mod 2 ^ b.
Proof. intros; unfold wrap_s. rewrite Zminus_mod_idemp_l. f_equal; ring. Qed.

Lemma wrap_s_congr : forall b x y, x mod 2 ^ b = y mod 2 ^ b -> wrap_s b x = wrap_s b y.
Proof. intros b x y H; unfold wrap_s. now rewrite <- Zplus_mod_idemp_l, H, Zplus_mod_idemp_l. Qed.

Lemma mod_pow2_le : forall b c z, 0 <= b <= c -> (z mod 2 ^ c) mod 2 ^ b = z mod 2 ^ b.
Proof.
  intros b c z H. replace c with (b + (c - b)) by lia.
  rewrite Z.pow_add_r, Z.rem_mul_r by (try apply Z.pow_nonzero; try apply Z.pow_pos_nonneg; lia).
  rewrite Z.mul_comm, Z_mod_plus_full. apply Z.mod_mod, Z.pow_nonzero; lia.
Qed.

Lemma wrap_s_idem : forall b z, wrap_s b (wrap_s b z) = wrap_s b z.
Proof. intros; apply wrap_s_congr, wrap_s_mod. Qed.

Lemma wrap_u_wrap_s : forall b z, wrap_u b (wrap_s b z) = wrap_u b z.
Proof. intros; apply wrap_s_mod. Qed.

(* every integral type has at most 64 bits: converting the 64-bit value is converting the number *)
Lemma cast_wrap64 : forall k z, k <> KBool -> cast k (wrap64 z) = cast k z.
Proof.
  intros k z Hk; destruct k; [congruence | ..]; unfold cast, wrap64;
    try apply wrap_s_congr; apply mod_pow2_le; lia.
Qed.

Lemma wrap_s_small : forall b z, 0 < b -> - 2 ^ (b - 1) <= z <= 2 ^ (b - 1) - 1 -> wrap_s b z = z.
Proof.
  intros b z Hb H. unfold wrap_s. replace (2 ^ b) with (2 * 2 ^ (b - 1)).
  - rewrite Z.mod_small; lia.
  - rewrite <- Z.pow_succ_r by lia. f_equal; lia.
Qed.

Lemma wrap_u_small : forall b z, 0 <= z <= 2 ^ b - 1 -> wrap_u b z = z.
Proof. intros; unfold wrap_u. apply Z.mod_small; lia. Qed.

Lemma cast_id : forall k v, in_kind k v = true -> cast k v = v.
Proof.
  intros k v H. apply andb_true_iff in H as [H1 H2]. apply Z.leb_le in H1, H2.
  (* kind_min / kind_max are the bounds of the two lemmas above, up to computing bits - 1 *)
  destruct k; cbn [cast];
    try (apply wrap_s_small; [reflexivity | exact (conj H1 H2)]); try exact (wrap_u_small _ v (conj H1 H2)).
  unfold kind_min, kind_max in *. destruct (Z.eqb_spec v 0); lia.
Qed.

Lemma in_kind_fits : forall k k' v, in_kind k v = true ->
  kind_min k' <= kind_min k -> v <= kind_max k' -> in_kind k' v = true.
Proof.
  unfold in_kind; intros k k' v H Hmin Hmax. apply andb_true_iff in H as [H1 _]. apply Z.leb_le in H1.
  apply andb_true_iff; split; apply Z.leb_le; lia.
Qed.

Lemma kind_range : forall k, - 2 ^ 63 <= kind_min k /\ kind_max k <= 2 ^ 64 - 1.
Proof.
  (* closed `<=`: `discriminate` computes the comparison; `lia` on these constants is dear to check *)
  destruct k; split; discriminate.
Qed.

Lemma in_kind_abs : forall k v, in_kind k v = true -> Z.abs v < 2 ^ 64.
Proof.
  intros k v H. apply andb_true_iff in H as [H1 H2]. apply Z.leb_le in H1, H2.
  destruct (kind_range k). lia.
Qed.

(* sign and magnitude as parseInt and primitive::load compute them *)
Lemma signed_magnitude : forall v, Z.abs v < 2 ^ 64 ->
  (if v <? 0 then wrap64 (- Z.abs v) else Z.abs v) = wrap64 v.
Proof.
  intros v H. destruct (Z.ltb_spec v 0).
  - f_equal; lia.
  - rewrite wrap64_small; lia.
Qed.

Lemma magnitude_abs : forall v, Z.abs v < 2 ^ 64 ->
  (if v <? 0 then wrap64 (- wrap64 v) else wrap64 v) = Z.abs v.
Proof.
  intros v H. destruct (Z.ltb_spec v 0).
  - rewrite wrap64_opp, wrap64_small; lia.
  - rewrite wrap64_small; lia.
Qed.

Definition dval (ds : bytes) (a : Z) : Z := fold_left (fun a c => a * 10 + digit_val c) ds a.
Definition digits (ds : bytes) : Prop := forallb is_digit ds = true.

Lemma digits_cons : forall c ds, digits (c :: ds) <-> is_digit c = true /\ digits ds.
Proof. intros; apply andb_true_iff. Qed.

Lemma is_digit_range : forall c, is_digit c = true <-> (48 <= c <= 57)%N.
Proof. intros c; unfold is_digit. now rewrite andb_true_iff, !N.leb_le. Qed.

Lemma is_digit_val : forall c, is_digit c = true -> 0 <= digit_val c <= 9.
Proof. intros c H; apply is_digit_range in H; unfold digit_val; lia. Qed.

(* a digit is none of the bytes outside '0'..'9', and no letter *)
Lemma digit_neq : forall c k, is_digit c = true -> (k < 48 \/ 57 < k)%N -> (c =? k)%N = false.
Proof. intros c k H Hk; apply is_digit_range in H; apply N.eqb_neq; lia. Qed.

Lemma digit_upper : forall c, is_digit c = true -> upper c = c.
Proof. intros c H; apply is_digit_range in H; apply upper_other; lia. Qed.

Lemma is_digit_not_ws : forall c, is_digit c = true -> is_ws c = false.
Proof. intros c H; unfold is_ws. now rewrite !(digit_neq c _ H) by lia. Qed.

Lemma digit_upper_not_bx : forall c, is_digit c = true -> (upper c =? 66)%N = false /\ (upper c =? 88)%N = false.
Proof. intros c H. rewrite (digit_upper c H). split; apply digit_neq; trivial; lia. Qed.

Lemma dval_app : forall a b v, dval (a ++ b) v = dval b (dval a v).
Proof. intros; unfold dval; now rewrite fold_left_app. Qed.

Lemma dval_ge : forall ds v, digits ds -> 0 <= v -> v <= dval ds v.
Proof.
  induction ds as [|c ds IH]; intros v H Hv; [reflexivity|].
  apply digits_cons in H as [Hc Hd]. apply is_digit_val in Hc.
  etransitivity; [|apply (IH _ Hd)]; lia.
Qed.

Lemma dec_loop_app : forall ds r v, digits ds ->
  (match r with [] => True | c :: _ => is_digit c = false end) ->
  0 <= v -> dval ds v < 2 ^ 64 ->
  dec_loop (ds ++ r) v = (dval ds v, r).
Proof.
  induction ds as [|c ds IH]; intros r v Hd Hr Hv Hlt; cbn [app dec_loop].
  - destruct r as [|c r]; [reflexivity|]. cbn [dec_loop]. now rewrite Hr.
  - apply digits_cons in Hd as [Hc Hd]. rewrite Hc. pose proof (is_digit_val c Hc) as Hcv.
    change (dval (c :: ds) v) with (dval ds (v * 10 + digit_val c)) in *.
    pose proof (dval_ge ds (v * 10 + digit_val c) Hd ltac:(lia)) as Hle.
    rewrite (wrap64_small (v * 10)), wrap64_small by lia.
    apply IH; trivial; lia.
Qed.

Lemma dec_digits_spec : forall f n acc, (1 <= f)%nat -> (n < 2 ^ N.of_nat f)%N ->
  exists d t, dec_digits f n acc = d :: t ++ acc /\ digits (d :: t) /\ dval (d :: t) 0 = Z.of_N n /\
              (n <> 0%N -> d <> 48%N).
Proof.
  induction f as [|f IH]; intros n acc Hf Hn; [lia|]. cbn [dec_digits].
  pose proof (N.mod_lt n 10 ltac:(discriminate)) as Hm.
  pose proof (N.div_mod n 10 ltac:(discriminate)) as Hdm.
  assert (Hdig : is_digit (48 + n mod 10)%N = true).
  { unfold is_digit. apply andb_true_iff; split; apply N.leb_le; [apply N.le_add_r | lia]. }
  assert (Hdv : digit_val (48 + n mod 10)%N = Z.of_N (n mod 10)%N) by (unfold digit_val; lia).
  destruct (N.eqb_spec (n / 10) 0) as [Hq|Hq].
  - rewrite Hq in Hdm. exists (48 + n mod 10)%N, []; repeat split.
    + apply digits_cons; now split.
    + cbn [dval fold_left]. lia.
    + lia.
  - rewrite Nat2N.inj_succ, N.pow_succ_r' in Hn.
    assert (Hn' : (n / 10 < 2 ^ N.of_nat f)%N) by (apply N.div_lt_upper_bound; [discriminate | lia]).
    assert (Hf' : (1 <= f)%nat) by (destruct f; [change (2 ^ N.of_nat 0)%N with 1%N in Hn' |]; lia).
    destruct (IH (n / 10)%N ((48 + n mod 10)%N :: acc) Hf' Hn') as (d & t & E & Hd & Hv & Hnz).
    exists d, (t ++ [(48 + n mod 10)%N]); repeat split.
    + rewrite E, <- app_assoc. reflexivity.
    + change (digits ((d :: t) ++ [(48 + n mod 10)%N])). unfold digits in *.
      rewrite forallb_app, Hd. cbn [forallb]. now rewrite Hdig.
    + change (dval ((d :: t) ++ [(48 + n mod 10)%N]) 0 = Z.of_N n).
      rewrite dval_app, Hv. cbn [dval fold_left]. lia.
    + intros _. now apply Hnz.
Qed.

Lemma dec_of_Z_spec : forall v,
  exists d t, dec_of_Z v = (if v <? 0 then [45%N] else []) ++ d :: t /\
              digits (d :: t) /\ dval (d :: t) 0 = Z.abs v /\ (v <> 0 -> d <> 48%N).
Proof.
  assert (HN : forall n, exists d t, dec_of_N n = d :: t /\ digits (d :: t) /\
                 dval (d :: t) 0 = Z.of_N n /\ (n <> 0%N -> d <> 48%N)).
  { intros n. destruct (dec_digits_spec (S (N.to_nat (N.log2 n))) n []) as (d & t & E & H).
    - lia.
    - rewrite Nat2N.inj_succ, N2Nat.id. destruct n; [reflexivity | apply N.log2_spec; reflexivity].
    - exists d, t. rewrite app_nil_r in E. now split. }
  intros [|p|p]; unfold dec_of_Z.
  - destruct (HN 0%N) as (d & t & E & Hd & Hv & _). exists d, t. repeat split; trivial. congruence.
  - destruct (HN (N.pos p)) as (d & t & E & Hd & Hv & Hnz). exists d, t. repeat split; trivial.
    intros _; now apply Hnz.
  - destruct (HN (N.pos p)) as (d & t & E & Hd & Hv & Hnz). exists d, t. repeat split; trivial.
    + cbn [app Z.ltb Z.compare]. now rewrite E.
    + intros _; now apply Hnz.
Qed.

Lemma consumed_app : forall a r, consumed (a ++ r) r = a.
Proof.
  intros; unfold consumed. rewrite app_length.
  replace (length a + length r - length r)%nat with (length a) by lia.
  rewrite firstn_app, firstn_all, Nat.sub_diag; simpl. now rewrite app_nil_r.
Qed.

(* what may follow the digits of a plain literal: not a digit, not a dot, not the b / x of 0b / 0x *)
Definition plain_end (s : bytes) : Prop :=
  match s with
  | c :: _ => is_digit c = false /\ (c =? 46)%N = false /\ (upper c =? 66)%N = false /\ (upper c =? 88)%N = false
  | [] => True
  end.

Lemma plain_end_stop : forall r, stopr r -> plain_end r.
Proof.
  intros r (c & t & -> & Hc). cbn [plain_end]. rewrite (stop_upper c Hc). apply stop_range in Hc.
  repeat split; try (apply N.eqb_neq; lia).
  destruct (is_digit c) eqn:E; [apply is_digit_range in E; lia | reflexivity].
Qed.

Lemma scan_digits_app : forall ds rest n dec, digits ds -> plain_end rest ->
  scan_digits (ds ++ rest) n dec = (n + length ds, dec, rest)%nat.
Proof.
  induction ds as [|c ds IH]; intros rest n dec Hd Hr; cbn [app scan_digits length].
  - destruct rest as [|c rest]; [now rewrite Nat.add_0_r|].
    destruct Hr as (H1 & H2 & _); cbn [scan_digits]; now rewrite H1, H2, Nat.add_0_r.
  - apply digits_cons in Hd as [Hc Hd].
    rewrite Hc, IH by assumption. f_equal; f_equal; lia.
Qed.

Lemma scan_digits_mantissa : forall d frac rest, is_digit d = true -> digits frac -> plain_end rest ->
  exists n, scan_digits (d :: 46%N :: frac ++ rest) O false = (S n, true, rest).
Proof.
  intros d frac rest Hd Hf Hr. cbn [scan_digits]. rewrite Hd. cbn [scan_digits].
  change (is_digit 46) with false. change (46 =? 46)%N with true. cbv iota.
  rewrite scan_digits_app by assumption. eexists; reflexivity.
Qed.

Lemma sfx_loop_stop : forall (F32 F64 : Type) rec fm r st, stopr r -> sfx_loop F32 F64 rec fm r st = Ok st r.
Proof.
  intros F32 F64 rec fm r st (c & t & -> & Hc). cbn [sfx_loop].
  destruct (N.eqb_spec c 0); [reflexivity|].
  rewrite (stop_upper c Hc). apply stop_range in Hc.
  (* not one of the suffix letters L U E F *)
  assert (Hk : forall k, (46 <= k)%N -> k <> 93%N -> k <> 125%N -> (c =? k)%N = false) by (intros; apply N.eqb_neq; lia).
  rewrite (Hk 76%N), (Hk 85%N), (Hk 69%N), (Hk 70%N) by lia. now destruct fm.
Qed.

Lemma sfx_loop_L : forall (F32 F64 : Type) rec fm t st,
  sfx_loop F32 F64 rec fm (76%N :: t) st =
    sfx_loop F32 F64 rec fm t (Sfx (S (sx_longs st)) (sx_uns st) (sx_dec st) (sx_flt st)).
Proof. reflexivity. Qed.

Lemma sfx_loop_f : forall (F32 F64 : Type) rec t st,
  sfx_loop F32 F64 rec false (102%N :: t) st =
    sfx_loop F32 F64 rec false t (Sfx (sx_longs st) (sx_uns st) (sx_dec st) true).
Proof. reflexivity. Qed.

Lemma sfx_loop_e : forall (F32 F64 : Type) rec t st,
  sfx_loop F32 F64 rec false (101%N :: t) st =
    match rec t with
    | Ok (e, _) r => Ok (Sfx (sx_longs st) (sx_uns st) true (prim_is_float F32 F64 e)) r
    | Err => Err | Oob => Oob | NoFuel => NoFuel
    end.
Proof. reflexivity. Qed.

Lemma starts_with_first : forall p c a s, (c =? a)%N = false -> starts_with (a :: p) (c :: s) = false.
Proof. intros; simpl. rewrite N.eqb_sym, H. reflexivity. Qed.

(* On [-]digits[L] parseInt computes the 64-bit value of the number, which the pinned version then
   narrows to the type the suffix names.  "0" and "0L" go through parseBinary (a leading 0 is octal). *)
Lemma parse_int_dec : forall full v suf, Z.abs v < 2 ^ 64 -> (suf = [] \/ suf = [76%N]) ->
  parse_int full (dec_of_Z v ++ suf) =
    Some (if full then wrap64 v
          else wrap64 (cast (match suf with [] => KI32 | _ => KI64 end) (wrap64 v))).
Proof.
  intros full v suf Hlt Hsuf.
  destruct (Z.eq_dec v 0) as [->|Hv0].
  { destruct full, Hsuf as [->| ->]; reflexivity. }
  destruct (dec_of_Z_spec v) as (d & t & -> & Hd & Hv & Hnz).
  specialize (Hnz Hv0). apply N.eqb_neq in Hnz.
  pose proof Hd as Hdd. apply digits_cons in Hdd as [Hdd _].
  assert (Hsign : forall rest, let s := (if v <? 0 then [45%N] else []) ++ d :: rest in
                    skip_ws s = s /\ strip_sign s = (v <? 0, d :: rest)).
  { intros rest. destruct (v <? 0); cbn [app]; [split; reflexivity|].
    rewrite (skip_ws_stop d _ (is_digit_not_ws d Hdd)). unfold strip_sign.
    now rewrite (digit_neq d 43%N), (digit_neq d 45%N) by (trivial; lia). }
  unfold parse_int. rewrite <- app_assoc. cbn [app].
  destruct (Hsign (t ++ suf)) as [-> ->]. rewrite Hnz.
  change (d :: t ++ suf) with ((d :: t) ++ suf). rewrite dec_loop_app, Hv.
  - rewrite (signed_magnitude v Hlt).
    destruct full; [reflexivity|]. destruct Hsuf as [->| ->]; reflexivity.
  - exact Hd.
  - destruct Hsuf as [->| ->]; [exact I | reflexivity].
  - lia.
  - now rewrite Hv.
Qed.

Lemma pb_loop_digits : forall bits maxd ds ret, 10 <= maxd -> digits ds ->
  exists z, pb_loop bits maxd ds ret = Some z.
Proof.
  intros bits maxd. induction ds as [|c ds IH]; intros ret Hm Hd; simpl; [eexists; reflexivity|].
  apply digits_cons in Hd as [Hc Hd].
  rewrite Hc. pose proof (is_digit_val c Hc).
  destruct (Z.ltb_spec (digit_val c) maxd); [|lia]. now apply IH.
Qed.

(* The exponent of a printed float (+00, -03, +12) goes to parseInt.  When it begins with 0 parseInt hands it
   to parseBinary, which reads it as octal but accepts every digit below 10.  Only success matters: the
   suffix loop keeps nothing of the exponent but whether it is a float. *)

Lemma parse_int_exponent : forall full es ex, (es = 43%N \/ es = 45%N) -> digits ex -> ex <> [] ->
  exists z, parse_int full (es :: ex) = Some z.
Proof.
  intros full es ex Hes Hd Hne. destruct ex as [|d t]; [congruence|].
  apply digits_cons in Hd as [Hdd Hdt].
  unfold parse_int.
  assert (Hsk : skip_ws (es :: d :: t) = es :: d :: t) by (destruct Hes as [->| ->]; reflexivity).
  rewrite Hsk.
  assert (Hst : strip_sign (es :: d :: t) = ((es =? 45)%N, d :: t)) by (destruct Hes as [->| ->]; reflexivity).
  rewrite Hst.
  destruct (N.eqb_spec d 48) as [->|Hd48].
  - unfold parse_binary. rewrite Hsk, Hst. rewrite N.eqb_refl.
    assert (exists z, pb_loop 3 10 t 0 = Some z) as [z Hz] by (apply pb_loop_digits; [lia | exact Hdt]).
    destruct t as [|c t'].
    + simpl. eexists; reflexivity.
    + apply digits_cons in Hdt as [Hc _].
      destruct (digit_upper_not_bx c Hc) as [-> ->].
      rewrite Hz. eexists; reflexivity.
  - destruct (dec_loop (d :: t) 0) as [ret s2] eqn:E1.
    destruct full; [eexists; reflexivity|].
    destruct (int_sfx s2 0 false) as [longs uns] eqn:E2.
    eexists; reflexivity.
Qed.

Lemma take_digits_spec : forall s a b, take_digits s = (a, b) -> s = a ++ b /\ digits a.
Proof.
  induction s as [|c s IH]; intros a b H; cbn [take_digits] in H.
  - injection H as <- <-; split; reflexivity.
  - destruct (is_digit c) eqn:Hc.
    + destruct (take_digits s) as [a' b'] eqn:E. injection H as <- <-.
      destruct (IH a' b' eq_refl) as [-> Hd]. split; [reflexivity|].
      apply digits_cons; now split.
    + injection H as <- <-; split; reflexivity.
Qed.

Definition sci_text (t : bytes) : Prop :=
  exists sg d frac es ex,
    t = sg ++ d :: 46%N :: frac ++ 101%N :: es :: ex /\
    (sg = [] \/ sg = [45%N]) /\ is_digit d = true /\ digits frac /\
    (es = 43%N \/ es = 45%N) /\ ex <> [] /\ digits ex.

Lemma sci_shape_text : forall t, sci_shape t = true -> sci_text t.
Proof.
  intros t H. unfold sci_shape in H.
  set (t1 := match t with c :: t' => if (c =? 45)%N then t' else t | [] => t end) in H.
  assert (Hsg : exists sg, t = sg ++ t1 /\ (sg = [] \/ sg = [45%N])).
  { subst t1. destruct t as [|c t']; [exists []; split; [reflexivity | now left]|].
    destruct (N.eqb_spec c 45) as [->|_].
    - exists [45%N]; split; [reflexivity | now right].
    - exists []; split; [reflexivity | now left]. }
  destruct Hsg as (sg & Et & Hsg).
  destruct t1 as [|d [|dot rest]]; try discriminate.
  apply andb_true_iff in H as [H H3]. apply andb_true_iff in H as [H1 H2].
  apply N.eqb_eq in H2; subst dot.
  destruct (take_digits rest) as [frac rest2] eqn:E.
  destruct (take_digits_spec _ _ _ E) as [-> Hfrac].
  destruct rest2 as [|e [|es ex]]; try discriminate.
  apply andb_true_iff in H3 as [H3 H5]. apply andb_true_iff in H3 as [H3 H4].
  apply N.eqb_eq in H3; subst e.
  exists sg, d, frac, es, ex. split; [exact Et|]. split; [exact Hsg|]. split; [exact H1|].
  split; [exact Hfrac|]. split.
  { apply orb_true_iff in H4 as [H4|H4]; apply N.eqb_eq in H4; auto. }
  destruct ex as [|x ex]; [discriminate|]. split; [discriminate | exact H5].
Qed.

Section Load.
  Variables F32 F64 : Type.
  Variable print32 : F32 -> bytes.
  Variable print64 : F64 -> bytes.
  Variable parse32 : bytes -> F32.
  Variable parse64 : bytes -> F64.
  Variables lv fv : bool.          (* Model.lit_by_value, Model.fmt_by_value *)

  Notation prim := (prim F32 F64).
  Notation prim_load := (prim_load F32 F64 parse32 parse64 lv fv).
  Notation prim_toString := (prim_toString F32 F64 print32 print64).
  Notation pl_value := (pl_value F32 F64 parse32 parse64 lv).

  Lemma pl_fmt_plain : forall neg d rest, is_digit d = true ->
    (d = 48%N -> match rest with
                 | c :: _ => (upper c =? 66)%N = false /\ (upper c =? 88)%N = false
                 | [] => True
                 end) ->
    pl_fmt neg (d :: rest) = None.
  Proof.
    intros neg d rest Hd H. unfold pl_fmt.
    destruct (N.eqb_spec d 48) as [E|_]; [|reflexivity].
    specialize (H E). destruct rest as [|c rest]; [reflexivity|].
    destruct H as [-> ->]. reflexivity.
  Qed.

  (* primitive::load on an optional sign and a run that starts with a digit and is not a 0b / 0x literal.
     The sign only matters for the by-value typing; the text handed to parseInt / atof includes it. *)
  Lemma prim_load_plain : forall f sg d rest n dec r st r',
    (sg = [] \/ sg = [43%N] \/ sg = [45%N]) -> is_digit d = true ->
    (forall neg, pl_fmt neg (d :: rest) = None) ->
    scan_digits (d :: rest) O false = (S n, dec, r) ->
    sfx_loop F32 F64 (prim_load f true) false r (Sfx O false dec false) = Ok st r' ->
    prim_load (S f) true (sg ++ d :: rest) =
      pl_value (match sg with c :: _ => (c =? 45)%N | [] => false end) (d =? 48)%N (sg ++ d :: rest) st r'.
  Proof.
    intros f sg d rest n dec r st r' Hsg Hd Hfmt Hscan Hsfx.
    pose proof (fun k Hk => digit_neq d k Hd Hk) as Hne.
    cbn [Model.prim_load].
    destruct Hsg as [->|Hsg]; cbn [app].
    - rewrite !starts_with_first, (Hne 43%N), (Hne 45%N) by (try apply Hne; lia).
      cbn [orb andb]. now rewrite Hfmt, Hscan, Hsfx.
    - destruct Hsg as [->| ->]; cbn [app starts_with N.eqb Pos.eqb andb orb negb];
        rewrite (skip_ws_stop d _ (is_digit_not_ws d Hd)); now rewrite Hfmt, Hscan, Hsfx.
  Qed.

  Lemma prim_load_digits : forall f sg d t rest st r',
    (sg = [] \/ sg = [43%N] \/ sg = [45%N]) -> digits (d :: t) -> plain_end rest ->
    sfx_loop F32 F64 (prim_load f true) false rest (Sfx O false false false) = Ok st r' ->
    prim_load (S f) true (sg ++ d :: t ++ rest) =
      pl_value (match sg with c :: _ => (c =? 45)%N | [] => false end) (d =? 48)%N (sg ++ d :: t ++ rest) st r'.
  Proof.
    intros f sg d t rest st r' Hsg Hds Hrest Hsfx. pose proof Hds as Hd. apply digits_cons in Hd as [Hd Ht].
    apply (prim_load_plain f sg d (t ++ rest) (length t) false rest); trivial.
    - intros neg. apply pl_fmt_plain; [exact Hd|]. intros _. destruct t as [|c t]; cbn [app].
      + destruct rest; [exact I | exact (proj2 (proj2 Hrest))].
      + apply digit_upper_not_bx. now apply digits_cons in Ht as [? _].
    - change (d :: t ++ rest) with ((d :: t) ++ rest). now rewrite scan_digits_app.
  Qed.

  Lemma prim_load_exponent : forall f es ex fsuf r,
    (es = 43%N \/ es = 45%N) -> digits ex -> ex <> [] -> (fsuf = [] \/ fsuf = [102%N]) -> stopr r ->
    exists e src, prim_load (S f) true (es :: ex ++ fsuf ++ r) = Ok (e, src) r /\
                  prim_is_float F32 F64 e = match fsuf with [] => false | _ => true end.
  Proof.
    intros f es ex fsuf r Hes Hex Hne Hsf Hr.
    destruct ex as [|d t]; [congruence|].
    set (st := Sfx 0 false false (match fsuf with [] => false | _ => true end)).
    change (es :: (d :: t) ++ fsuf ++ r) with ([es] ++ d :: t ++ fsuf ++ r).
    rewrite (prim_load_digits f [es] d t (fsuf ++ r) st r); [| destruct Hes as [->| ->]; auto | exact Hex | |].
    - unfold Model.pl_value. subst st. cbn [sx_dec sx_flt orb].
      destruct Hsf as [->| ->]; cbn [app]; [|eexists _, _; split; reflexivity].
      change (es :: d :: t ++ r) with ((es :: d :: t) ++ r). rewrite consumed_app.
      destruct (parse_int_exponent lv es (d :: t) Hes Hex Hne) as [z ->].
      eexists _, _; split; reflexivity.
    - destruct Hsf as [->| ->]; [now apply plain_end_stop | repeat split; reflexivity].
    - subst st. destruct Hsf as [->| ->]; cbn [app]; [now apply sfx_loop_stop|].
      rewrite sfx_loop_f. now apply sfx_loop_stop.
  Qed.

  Lemma prim_load_sci : forall f t fsuf r,
    sci_text t -> (fsuf = [] \/ fsuf = [102%N]) -> stopr r ->
    prim_load (S (S f)) true (t ++ fsuf ++ r) =
      match fsuf with
      | [] => Ok (PF64 (parse64 t), t) r
      | _ => Ok (PF32 (parse32 (t ++ fsuf)), t ++ fsuf) r
      end.
  Proof.
    intros f t fsuf r (sg & d & frac & es & ex & -> & Hsg & Hd & Hfrac & Hes & Hne & Hex) Hsf Hr.
    destruct (prim_load_exponent f es ex fsuf r Hes Hex Hne Hsf Hr) as (e & esrc & He & Hfl).
    set (rest := 46%N :: frac ++ 101%N :: es :: ex).
    assert (Erest : forall tail, rest ++ tail = 46%N :: frac ++ 101%N :: es :: ex ++ tail)
      by (intros; subst rest; cbn [app]; now rewrite <- app_assoc).
    destruct (scan_digits_mantissa d frac (101%N :: es :: ex ++ fsuf ++ r) Hd Hfrac ltac:(repeat split; reflexivity))
      as [n Hn].
    change (sg ++ d :: 46%N :: frac ++ 101%N :: es :: ex) with (sg ++ d :: rest).
    rewrite <- app_assoc. change ((d :: rest) ++ fsuf ++ r) with (d :: rest ++ fsuf ++ r).
    rewrite (prim_load_plain (S f) sg d (rest ++ fsuf ++ r) n true (101%N :: es :: ex ++ fsuf ++ r)
               (Sfx 0 false true (match fsuf with [] => false | _ => true end)) r);
      [| tauto | exact Hd | | now rewrite Erest | ].
    - unfold Model.pl_value. cbn [sx_dec sx_flt orb].
      change (sg ++ d :: rest ++ fsuf ++ r) with (sg ++ (d :: rest) ++ fsuf ++ r).
      rewrite !app_assoc, consumed_app, <- !app_assoc.
      destruct Hsf as [->| ->]; [now rewrite app_nil_r | reflexivity].
    - intros neg. rewrite Erest. apply pl_fmt_plain; [exact Hd|]. intros _; split; reflexivity.
    - rewrite sfx_loop_e, He. cbn [sx_longs sx_uns]. now rewrite Hfl.
  Qed.

  Lemma prim_toString_int : forall k v, k <> KBool ->
    prim_toString (PInt k v) = dec_of_Z v ++ (if is_long k then [76%N] else []).
  Proof. intros k v Hk. destruct k; try reflexivity; congruence. Qed.

  (* the type the printed text of an integer gets back: the suffix decides (int64 with L, int32 without),
     and with by-value typing a literal too large for int32 becomes int64 *)
  Lemma reparsed_prim_int : forall k v, k <> KBool ->
    reparsed_prim F32 F64 lv (PInt k v) =
      let k' := if is_long k || (lv && negb (Z.abs v <=? 2147483647)) then KI64 else KI32 in
      PInt k' (cast k' v).
  Proof.
    intros k v Hk. destruct k; try congruence; cbn [reparsed_prim is_long orb]; try reflexivity;
      now destruct (lv && negb (Z.abs v <=? 2147483647)).
  Qed.

  (* by-value typing of a decimal literal without U: int32 if it has no L and fits, else int64.  The unsigned
     types need a U or a leading 0 (octal), and of the printed integers only 0 begins with 0. *)
  Lemma value_kind_signed : forall negative octal longs dec flt v,
    Z.abs v < 2 ^ 64 -> negative = (v <? 0) -> (v <> 0 -> octal = false) ->
    value_kind negative octal (Sfx longs false dec flt) (wrap64 v) =
      if match longs with O => true | _ => false end && (Z.abs v <=? 2147483647) then KI32 else KI64.
  Proof.
    intros negative octal longs dec flt v Hlt -> Hoct.
    unfold value_kind. cbn [sx_longs sx_uns negb orb]. rewrite (magnitude_abs v Hlt), !andb_true_r.
    destruct (Z.eq_dec v 0) as [->|Hv]; [now destruct longs|].
    rewrite (Hoct Hv), andb_false_r. cbn [andb].
    destruct (_ && (Z.abs v <=? 2147483647)); [reflexivity|].
    now destruct (Z.abs v <=? 9223372036854775807).
  Qed.

  Lemma prim_load_int : forall f k v r,
    k <> KBool -> in_kind k v = true -> stopr r ->
    prim_load (S f) true (prim_toString (PInt k v) ++ r) =
      Ok (reparsed_prim F32 F64 lv (PInt k v), prim_toString (PInt k v)) r.
  Proof.
    intros f k v r Hk Hin Hr.
    set (suf := if is_long k then [76%N] else @nil N).
    pose proof (prim_toString_int k v Hk) as Htxt. fold suf in Htxt.
    assert (Hsuf : suf = [] \/ suf = [76%N]) by (subst suf; destruct (is_long k); auto).
    pose proof (in_kind_abs k v Hin) as Hlt.
    pose proof (parse_int_dec lv v suf Hlt Hsuf) as Hpi.
    rewrite Htxt in *.
    destruct (dec_of_Z_spec v) as (d & t & E & Hd & _ & Hnz). rewrite E in *.
    set (st := Sfx (if is_long k then 1 else 0) false false false).
    rewrite <- !app_assoc. change ((d :: t) ++ suf ++ r) with (d :: t ++ suf ++ r).
    rewrite (prim_load_digits f _ d t (suf ++ r) st r); [| destruct (v <? 0); auto | exact Hd | |].
    - unfold Model.pl_value. subst st. cbn [sx_dec sx_flt orb].
      change (d :: t ++ suf ++ r) with ((d :: t) ++ suf ++ r).
      rewrite !app_assoc, consumed_app, Hpi. f_equal. f_equal.
      rewrite (reparsed_prim_int k v Hk). cbv zeta.
      destruct lv; cbn [andb].
      + rewrite (value_kind_signed _ (d =? 48)%N _ false false v Hlt).
        * destruct (is_long k), (Z.abs v <=? 2147483647); cbn [andb orb negb];
            now rewrite cast_wrap64 by discriminate.
        * now destruct (v <? 0).
        * intros Hv0. apply N.eqb_neq. now apply Hnz.
      + rewrite orb_false_r. subst suf. unfold suffix_kind. cbn [sx_longs sx_uns].
        destruct (is_long k); rewrite !cast_wrap64 by discriminate; unfold cast; now rewrite wrap_s_idem.
    - destruct Hsuf as [->| ->]; [now apply plain_end_stop | repeat split; reflexivity].
    - subst suf st. destruct (is_long k); cbn [app].
      + rewrite sfx_loop_L. now apply sfx_loop_stop.
      + now apply sfx_loop_stop.
  Qed.

End Load.
