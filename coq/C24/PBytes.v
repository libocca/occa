(* C24 — lemmas on bytes: white space, the string escape codec, the key order; and the induction
   principle for nested values (used by Proofs.wf_ind and by C25). *)
From Coq Require Import List NArith Bool Lia.
From OV.C24 Require Import Model Spec.
Import ListNotations.
Local Open Scope N_scope.

Definition all_ws (w : bytes) : Prop := forallb is_ws w = true.

Lemma all_ws_nil : all_ws [].
Proof. reflexivity. Qed.

Lemma all_ws_app : forall a b, all_ws a -> all_ws b -> all_ws (a ++ b).
Proof. unfold all_ws; intros; rewrite forallb_app; now rewrite H, H0. Qed.

Lemma all_ws_cons : forall c w, is_ws c = true -> all_ws w -> all_ws (c :: w).
Proof. unfold all_ws; intros; simpl; now rewrite H, H0. Qed.

Lemma all_ws_repeat : forall n, all_ws (repeat 32 n).
Proof. induction n; simpl; [reflexivity | now apply all_ws_cons]. Qed.

Lemma skip_ws_app : forall w s, all_ws w -> skip_ws (w ++ s) = skip_ws s.
Proof.
  induction w as [|c w IH]; intros s H; [reflexivity|].
  unfold all_ws in H; simpl in H; apply andb_true_iff in H as [Hc Hw].
  simpl; rewrite Hc; now apply IH.
Qed.

Lemma skip_ws_stop : forall c s, is_ws c = false -> skip_ws (c :: s) = c :: s.
Proof. intros; simpl; now rewrite H. Qed.

Lemma is_ws_nonzero : forall c, is_ws c = true -> c <> 0.
Proof. intros c H ->; discriminate. Qed.

Lemma ws_head_nonzero : forall w c s, all_ws w -> c <> 0 ->
  exists c' t, w ++ c :: s = c' :: t /\ c' <> 0.
Proof.
  intros [|x w] c s Hw Hc; simpl.
  - now exists c, s.
  - exists x, (w ++ c :: s); split; [reflexivity|].
    unfold all_ws in Hw; simpl in Hw; apply andb_true_iff in Hw as [Hx _].
    now apply is_ws_nonzero.
Qed.

Lemma byte_ok_nonzero : forall a, byte_ok a = true -> a <> 0.
Proof. unfold byte_ok; intros a H ->; discriminate. Qed.

Lemma load_string_esc1 : forall a rest acc, a <> 0 ->
  load_string 34 (esc_byte a ++ rest) acc = load_string 34 rest (acc ++ [a]).
Proof.
  intros a rest acc Ha; unfold esc_byte.
  destruct (N.eqb_spec a 34) as [->|H34]; [reflexivity|].
  destruct (N.eqb_spec a 92) as [->|H92]; [reflexivity|].
  destruct (N.eqb_spec a 8) as [->|_]; [reflexivity|].
  destruct (N.eqb_spec a 12) as [->|_]; [reflexivity|].
  destruct (N.eqb_spec a 10) as [->|_]; [reflexivity|].
  destruct (N.eqb_spec a 13) as [->|_]; [reflexivity|].
  destruct (N.eqb_spec a 9) as [->|_]; [reflexivity|].
  simpl. apply N.eqb_neq in Ha, H34, H92. now rewrite Ha, H92, H34.
Qed.

Lemma load_string_esc : forall s acc r, bytes_ok s = true ->
  load_string 34 (esc_bytes s ++ 34 :: r) acc = Ok (acc ++ s) r.
Proof.
  induction s as [|a s IH]; intros acc r H.
  - simpl; now rewrite app_nil_r.
  - unfold bytes_ok in H; simpl in H; apply andb_true_iff in H as [Ha Hs].
    unfold esc_bytes; simpl; rewrite <- app_assoc.
    rewrite load_string_esc1 by now apply byte_ok_nonzero.
    fold (esc_bytes s); rewrite IH by exact Hs.
    now rewrite <- app_assoc.
Qed.

Lemma bytes_eqb_refl : forall a, bytes_eqb a a = true.
Proof. induction a; simpl; [reflexivity | now rewrite N.eqb_refl]. Qed.

Lemma bytes_eqb_eq : forall a b, bytes_eqb a b = true <-> a = b.
Proof.
  induction a as [|x a IH]; intros [|y b]; simpl; split; intro H; try discriminate; try reflexivity.
  - apply andb_true_iff in H as [H1 H2]; apply N.eqb_eq in H1; apply IH in H2; now subst.
  - injection H as -> ->; now rewrite N.eqb_refl, bytes_eqb_refl.
Qed.

Lemma bytes_eqb_sym : forall a b, bytes_eqb a b = bytes_eqb b a.
Proof.
  intros a b. destruct (bytes_eqb a b) eqn:E1, (bytes_eqb b a) eqn:E2; try reflexivity.
  - apply bytes_eqb_eq in E1; subst. now rewrite bytes_eqb_refl in E2.
  - apply bytes_eqb_eq in E2; subst. now rewrite bytes_eqb_refl in E1.
Qed.

Lemma bytes_ltb_cons : forall x a y b,
  bytes_ltb (x :: a) (y :: b) = true <-> x < y \/ (x = y /\ bytes_ltb a b = true).
Proof.
  intros; cbn [bytes_ltb]. destruct (N.ltb_spec x y) as [L|L]; [split; auto|].
  destruct (N.ltb_spec y x) as [G|G].
  - split; [discriminate | intros [?|[? _]]; lia].
  - split; [intros E; right; split; [lia | exact E] | intros [?|[_ E]]; [lia | exact E]].
Qed.

Lemma bytes_ltb_irrefl : forall a, bytes_ltb a a = false.
Proof. induction a; simpl; [reflexivity | now rewrite N.ltb_irrefl]. Qed.

Lemma bytes_ltb_trans : forall a b c, bytes_ltb a b = true -> bytes_ltb b c = true -> bytes_ltb a c = true.
Proof.
  induction a as [|x a IH]; intros [|y b] [|z c] H1 H2; try discriminate; try reflexivity.
  apply bytes_ltb_cons in H1, H2. apply bytes_ltb_cons.
  destruct H1 as [H1|[-> H1]], H2 as [H2|[-> H2]]; try (left; lia). right; eauto.
Qed.

Lemma bytes_ltb_asym : forall a b, bytes_ltb a b = true -> bytes_ltb b a = false.
Proof.
  intros a b H. destruct (bytes_ltb b a) eqn:E; [|reflexivity].
  pose proof (bytes_ltb_trans _ _ _ H E) as T. now rewrite bytes_ltb_irrefl in T.
Qed.

Lemma bytes_ltb_neq : forall a b, bytes_ltb a b = true -> bytes_eqb b a = false.
Proof.
  intros a b H; destruct (bytes_eqb b a) eqn:E; [|reflexivity].
  apply bytes_eqb_eq in E; subst; now rewrite bytes_ltb_irrefl in H.
Qed.

Lemma bytes_ltb_total : forall a b, bytes_ltb a b = false -> bytes_eqb a b = false -> bytes_ltb b a = true.
Proof.
  induction a as [|x a IH]; intros [|y b] H1 H2; simpl in *; try discriminate; try reflexivity.
  destruct (N.ltb_spec x y); [discriminate|]. destruct (N.ltb_spec y x); [reflexivity|].
  assert (x = y) by lia; subst; rewrite N.eqb_refl in H2. now apply IH.
Qed.

Section JsonInd.
  Variables F32 F64 : Type.
  Notation json := (json F32 F64).
  Variable P : json -> Prop.
  Hypothesis HNone : P JNone.
  Hypothesis HNull : P JNull.
  Hypothesis HNum : forall p src, P (JNum p src).
  Hypothesis HStr : forall s, P (JStr s).
  Hypothesis HArr : forall l, Forall P l -> P (JArr l).
  Hypothesis HObj : forall m, Forall (fun kv => P (snd kv)) m -> P (JObj m).

  Fixpoint json_ind' (v : json) : P v :=
    match v with
    | JNone => HNone
    | JNull => HNull
    | JNum p src => HNum p src
    | JStr s => HStr s
    | JArr l => HArr l ((fix go (l : list json) : Forall P l :=
                           match l with
                           | [] => Forall_nil _
                           | x :: t => Forall_cons _ (json_ind' x) (go t)
                           end) l)
    | JObj m => HObj m ((fix go (m : list (bytes * json)) : Forall (fun kv => P (snd kv)) m :=
                           match m with
                           | [] => Forall_nil _
                           | kv :: t => Forall_cons _ (json_ind' (snd kv)) (go t)
                           end) m)
    end.
End JsonInd.
