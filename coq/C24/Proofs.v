(* C24 — the round-trip proof: json::load (model) applied to json::dump (model) of a well-formed
   value returns `reparsed v`, by induction on the fuel; `reparsed v` equals v
   under json::operator== (model) and, for integers that fit, mathematically. *)
From Coq Require Import List NArith ZArith Bool Lia.
From OV.C24 Require Import Model Spec PBytes PNum PDet.
Import ListNotations.
Local Open Scope Z_scope.

Fixpoint jsize {F32 F64 : Type} (v : json F32 F64) : nat :=
  match v with
  | JArr l => S (list_sum (map jsize l))
  | JObj m => S (list_sum (map (fun kv => jsize (snd kv)) m))
  | _ => 1
  end.

Lemma stopr_ws : forall w c r, all_ws w -> stop c = true -> stopr (w ++ c :: r).
Proof.
  intros [|x w] c r Hw Hc; cbn [app].
  - now exists c, r.
  - exists x, (w ++ c :: r); split; [reflexivity|].
    unfold all_ws in Hw; cbn [forallb] in Hw; apply andb_true_iff in Hw as [Hx _].
    unfold stop; rewrite Hx; now rewrite orb_true_r.
Qed.

Lemma list_sum_in_le : forall (l : list nat) x, In x l -> (x <= list_sum l)%nat.
Proof.
  induction l as [|y l IH]; intros x H; [destruct H|].
  simpl; destruct H as [->|H]; [lia|]. specialize (IH x H); lia.
Qed.

Lemma list_sum_ge_length : forall (A : Type) (f : A -> nat) l, (forall x, 1 <= f x)%nat ->
  (length l <= list_sum (map f l))%nat.
Proof. induction l as [|y l IH]; intros H; simpl; [lia|]. specialize (IH H). specialize (H y). lia. Qed.

Lemma jsize_pos : forall (F32 F64 : Type) (v : json F32 F64), (1 <= jsize v)%nat.
Proof. destruct v; cbn [jsize]; lia. Qed.

(* booleans are numbers to occa::json, but json::load reads them itself and records no text *)
Definition prim_is_bool {F32 F64 : Type} (p : prim F32 F64) : bool :=
  match p with PInt KBool _ => true | _ => false end.

Section Main.
  Variables F32 F64 : Type.
  Variable print32 : F32 -> bytes.
  Variable print64 : F64 -> bytes.
  Variable parse32 : bytes -> F32.
  Variable parse64 : bytes -> F64.
  Variable eq32 : F32 -> F32 -> bool.
  Variable eq64 : F64 -> F64 -> bool.
  Variable fin32 : F32 -> bool.
  Variable fin64 : F64 -> bool.
  (* the variant of primitive::load (Model.lit_by_value, Model.fmt_by_value): any *)
  Variables lv fv : bool.

  (* the float interface: what the theorems assume of printing and reading *)
  Hypothesis print32_shape : forall x, fin32 x = true -> sci_shape (print32 x) = true.
  Hypothesis print64_shape : forall x, fin64 x = true -> sci_shape (print64 x) = true.
  Hypothesis parse32_print32 : forall x, fin32 x = true -> parse32 (print32 x ++ [102%N]) = x.
  Hypothesis parse64_print64 : forall x, fin64 x = true -> parse64 (print64 x) = x.
  Hypothesis eq32_refl : forall x, eq32 x x = true.
  Hypothesis eq64_refl : forall x, eq64 x x = true.

  Notation prim := (prim F32 F64).
  Notation json := (json F32 F64).
  Notation prim_load := (prim_load F32 F64 parse32 parse64 lv fv).
  Notation load := (load F32 F64 parse32 parse64 lv fv).
  Notation prim_toString := (prim_toString F32 F64 print32 print64).
  Notation D := (dump F32 F64 print32 print64 true).
  Notation R := (reparsed F32 F64 print32 print64 lv).
  Notation WF := (wf F32 F64 fin32 fin64).

  Lemma wf_ind : forall P : json -> Prop,
    P JNull ->
    (forall p, prim_defined F32 F64 fin32 fin64 p = true -> P (JNum p [])) ->
    (forall s, P (JStr s)) ->
    (forall l, Forall P l -> P (JArr l)) ->
    (forall m, Forall (fun kv => P (snd kv)) m -> P (JObj m)) ->
    forall v, WF v = true -> P v.
  Proof.
    intros P HNull HNum HStr HArr HObj.
    induction v as [| |p src|s|l IHl|m IHm] using json_ind'; intros Hwf; cbn [wf] in Hwf; try discriminate; auto.
    - apply andb_true_iff in Hwf as [Hp Hs]. destruct src; [auto | discriminate].
    - apply HArr. rewrite Forall_forall in *. rewrite forallb_forall in Hwf. auto.
    - apply andb_true_iff in Hwf as [_ Hwf]. apply HObj. rewrite Forall_forall in *. rewrite forallb_forall in Hwf.
      intros [k x] Hx. apply (IHm _ Hx). specialize (Hwf _ Hx). cbn beta iota in Hwf.
      now apply andb_true_iff in Hwf as [_ ?].
  Qed.

  Lemma num_text_head : forall p, prim_defined F32 F64 fin32 fin64 p = true -> prim_is_bool p = false ->
    exists c rest, prim_toString p = c :: rest /\ (is_digit c || (c =? 45)%N) = true.
  Proof.
    assert (Hsci : forall t tail, sci_text t ->
              exists c rest, t ++ tail = c :: rest /\ (is_digit c || (c =? 45)%N) = true).
    { intros t tail (sg & d & frac & es & ex & -> & Hsg & Hd & _).
      destruct Hsg as [->| ->]; cbn [app]; eexists _, _; (split; [reflexivity|]); [now rewrite Hd | reflexivity]. }
    intros [|k v|x|x] H Hb; cbn [prim_defined] in H; try discriminate.
    - rewrite (prim_toString_int F32 F64 print32 print64 k v) by (intros ->; discriminate).
      destruct (dec_of_Z_spec v) as (d & t & E & Hd & _). apply digits_cons in Hd as [Hd _].
      rewrite E. destruct (v <? 0); cbn [app]; eexists _, _; (split; [reflexivity|]);
        [reflexivity | now rewrite Hd].
    - apply Hsci, sci_shape_text, print32_shape, H.
    - cbn [prim_toString]. rewrite <- (app_nil_r (print64 x)). apply Hsci, sci_shape_text, print64_shape, H.
  Qed.

  Lemma prim_load_printed : forall n p r,
    prim_defined F32 F64 fin32 fin64 p = true -> prim_is_bool p = false -> stopr r ->
    prim_load (S (S n)) true (prim_toString p ++ r) = Ok (reparsed_prim F32 F64 lv p, prim_toString p) r.
  Proof.
    intros n [|k v|x|x] r H Hb Hr; cbn [prim_defined] in H; try discriminate.
    - apply prim_load_int; trivial. intros ->; discriminate.
    - cbn [prim_toString reparsed_prim]. rewrite <- app_assoc.
      rewrite (prim_load_sci F32 F64 parse32 parse64 lv fv n (print32 x) [102%N] r); auto.
      + now rewrite parse32_print32.
      + apply sci_shape_text, print32_shape, H.
    - cbn [prim_toString reparsed_prim]. change (print64 x ++ r) with (print64 x ++ [] ++ r).
      rewrite (prim_load_sci F32 F64 parse32 parse64 lv fv n (print64 x) [] r); auto.
      + now rewrite parse64_print64.
      + apply sci_shape_text, print64_shape, H.
  Qed.

  Lemma load_number : forall f Wp p r, all_ws Wp ->
    prim_defined F32 F64 fin32 fin64 p = true -> prim_is_bool p = false -> stopr r ->
    load (S f) (Wp ++ prim_toString p ++ r) = Ok (JNum (reparsed_prim F32 F64 lv p) (prim_toString p)) r.
  Proof.
    intros f Wp p r HW Hp Hb Hr.
    destruct (num_text_head p Hp Hb) as (c & rest & E & Hc).
    cbn [Model.load]; rewrite skip_ws_app by exact HW.
    assert (Hws : is_ws c = false).
    { apply orb_true_iff in Hc as [Hc|Hc]; [now apply is_digit_not_ws|].
      apply N.eqb_eq in Hc; now subst. }
    pose proof (fun n => prim_load_printed n p r Hp Hb Hr) as Hpl.
    rewrite E in *. cbn [app] in *. rewrite (skip_ws_stop c _ Hws), Hc.
    (* primitive::load gets the length of the rest as fuel: at least 2 (the exponent takes one), as the rest
       holds the number's first byte and the stop byte *)
    destruct Hr as (x & y & -> & _).
    replace (length (c :: rest ++ x :: y)) with (S (S (length rest + length y)))
      by (cbn [length]; rewrite app_length; cbn [length]; lia).
    now rewrite Hpl.
  Qed.

  (* what json::loadArray tests before it calls json::load: not NUL, not white space, not ']' *)
  Definition vhead (X : bytes) : Prop :=
    exists h t, X = h :: t /\ h <> 0%N /\ is_ws h = false /\ (h =? 93)%N = false.

  Lemma digit_or_minus_vhead : forall c t, (is_digit c || (c =? 45)%N) = true -> vhead (c :: t).
  Proof.
    intros c t H. exists c, t; split; [reflexivity|].
    apply orb_true_iff in H as [H|H].
    - split; [apply N.eqb_neq, digit_neq; trivial; lia|]. split; [now apply is_digit_not_ws|].
      apply digit_neq; trivial; lia.
    - apply N.eqb_eq in H; subst; repeat split; discriminate.
  Qed.

  Lemma dump_vhead : forall ind cur v, WF v = true -> vhead (D ind cur v).
  Proof.
    intros ind cur v H. destruct v as [| |p src|s|l|m]; cbn [wf] in H; try discriminate.
    - exists 110%N, [117; 108; 108]%N; repeat split; discriminate.
    - apply andb_true_iff in H as [Hp Hs]. destruct src; [|discriminate].
      cbn [dump]. destruct (prim_is_bool p) eqn:Hb.
      + destruct p as [|[] v|x|x]; try discriminate.
        cbn [prim_toString]. destruct (v =? 0); eexists _, _; repeat split; discriminate.
      + destruct (num_text_head p Hp Hb) as (c & t & -> & Hc). now apply digit_or_minus_vhead.
    - cbn [dump]. eexists _, _; repeat split; discriminate.
    - cbn [dump]. destruct l; eexists _, _; repeat split; discriminate.
    - cbn [dump]. destruct m; eexists _, _; repeat split; discriminate.
  Qed.

  Lemma sep_shape : forall ind, exists w, sep ind = 44%N :: w /\ all_ws w.
  Proof. intros [|x ind]; eexists; split; reflexivity. Qed.

  Lemma nl_ws : forall ind, all_ws (nl ind).
  Proof. intros [|x ind]; reflexivity. Qed.

  (* one turn of json::loadArray: white space, then an element that `ld` reads *)
  Lemma arr_loop_step : forall (ld : bytes -> res json) f W X r' v acc,
    all_ws W -> vhead X -> ld (X ++ r') = Ok v r' ->
    arr_loop F32 F64 ld (S f) (W ++ X ++ r') acc =
      match skip_ws r' with
      | [] => Oob
      | c3 :: t3 => if (c3 =? 44)%N then arr_loop F32 F64 ld f t3 (acc ++ [v])
                    else if (c3 =? 93)%N then Ok (JArr (acc ++ [v])) t3
                    else Err
      end.
  Proof.
    intros ld f W X r' v acc HW (h & X' & -> & Hh0 & Hhws & Hh93) Hld. cbn [app] in *.
    destruct (ws_head_nonzero W h (X' ++ r') HW Hh0) as (c' & t' & Ec & Hc').
    rewrite Ec. cbn [arr_loop]. apply N.eqb_neq in Hc'. rewrite Hc', <- Ec.
    rewrite skip_ws_app by exact HW. now rewrite (skip_ws_stop h _ Hhws), Hh93, Hld.
  Qed.

  Lemma after_item : forall ni ind (rest : list bytes) cur close r, all_ws cur -> stop close = true ->
    stopr ((match rest with [] => nl ind | _ => sep ind end ++ join_items ni ind rest) ++ cur ++ close :: r).
  Proof.
    intros ni ind rest cur close r Hcur Hclose. destruct rest.
    - cbn [join_items]. rewrite app_nil_r, app_assoc.
      apply stopr_ws; [apply all_ws_app; [apply nl_ws | exact Hcur] | exact Hclose].
    - destruct (sep_shape ind) as (w & -> & _). eexists _, _; split; reflexivity.
  Qed.

  (* with fuel f, json::load reads the dump of v back as `reparsed v` in any context *)
  Definition good (ind : bytes) (f : nat) (v : json) : Prop :=
    forall Wp cur r, all_ws Wp -> all_ws cur -> stopr r ->
      load f (Wp ++ D ind cur v ++ r) = Ok (R v) r.

  Lemma arr_loop_items : forall ind ni cur r f l acc fuel Wp,
    (length l <= fuel)%nat -> l <> [] -> all_ws Wp -> all_ws ni -> all_ws cur ->
    forallb WF l = true -> (forall x, In x l -> good ind f x) ->
    arr_loop F32 F64 (load f) fuel (Wp ++ join_items ni ind (map (D ind ni) l) ++ cur ++ 93%N :: r) acc
      = Ok (JArr (acc ++ map R l)) r.
  Proof.
    intros ind ni cur r f l. induction l as [|x t IH]; intros acc fuel Wp Hf Hne HW Hni Hcur Hwf Hg; [congruence|].
    destruct fuel as [|fuel]; [cbn [length] in Hf; lia|].
    cbn [forallb] in Hwf. apply andb_true_iff in Hwf as [Hx Ht].
    cbn [map join_items]. rewrite <- (app_assoc ni), <- (app_assoc (D ind ni x)), (app_assoc Wp).
    rewrite (arr_loop_step (load f) fuel (Wp ++ ni) _ _ (R x) acc (all_ws_app _ _ HW Hni) (dump_vhead ind ni x Hx)
               (Hg x (or_introl eq_refl) [] ni _ all_ws_nil Hni
                  (after_item ni ind (map (D ind ni) t) cur 93%N r Hcur eq_refl))).
    destruct t as [|y t]; cbn [map].
    - cbn [join_items]. rewrite app_nil_r, app_assoc, skip_ws_app by (apply all_ws_app; [apply nl_ws | exact Hcur]).
      reflexivity.
    - destruct (sep_shape ind) as (w & E & Hw). rewrite E. cbn [app skip_ws is_ws N.eqb Pos.eqb orb].
      rewrite <- (app_assoc w).
      etransitivity; [apply (IH (acc ++ [R x]) fuel w) | now rewrite <- app_assoc]; trivial;
        [cbn [length] in *; lia | discriminate | auto with datatypes].
  Qed.

  Definition item (ind ni : bytes) (kv : bytes * json) : bytes :=
    let '(k, x) := kv in
    34%N :: dump_key true k ++ [34; 58; 32]%N
      ++ match x with JNone => [123; 125]%N | _ => D ind ni x end.

  (* one turn of json::loadObject: white space, then  "key": value  with a key above those read so far *)
  Lemma obj_loop_step : forall (ld : bytes -> res json) f W k X v r' acc,
    all_ws W -> k <> [] -> bytes_ok k = true -> lt_all (map fst acc) k ->
    ld (32%N :: X ++ r') = Ok v r' ->
    obj_loop F32 F64 ld (S f) true (W ++ (34%N :: esc_bytes k ++ [34; 58; 32]%N ++ X) ++ r') acc =
      match skip_ws r' with
      | [] => Oob
      | c3 :: t3 => if (c3 =? 44)%N then obj_loop F32 F64 ld f true t3 (acc ++ [(k, v)])
                    else if (c3 =? 125)%N then Ok (JObj (acc ++ [(k, v)])) t3
                    else Err
      end.
  Proof.
    intros ld f W k X v r' acc HW Hk Hok Hlt Hld.
    set (text := esc_bytes k ++ [34; 58; 32]%N ++ X). cbn [app].
    destruct (ws_head_nonzero W 34%N (text ++ r') HW ltac:(discriminate)) as (c' & t' & Ec & Hc').
    rewrite Ec. cbn [obj_loop]. apply N.eqb_neq in Hc'. rewrite Hc', <- Ec.
    rewrite skip_ws_app by exact HW. cbn [skip_ws is_ws N.eqb Pos.eqb orb].
    unfold load_field. cbn [N.eqb Pos.eqb]. subst text. rewrite <- !app_assoc. cbn [app].
    rewrite load_string_esc by exact Hok. cbn [app].
    destruct k as [|a k]; [congruence|]. cbn [skip_ws is_ws N.eqb Pos.eqb orb].
    rewrite Hld, obj_set_append by exact Hlt.
    destruct (skip_ws r') as [|c3 t3]; [reflexivity|].
    destruct (c3 =? 44)%N, (c3 =? 125)%N, (c3 =? 0)%N; reflexivity.
  Qed.

  Lemma obj_loop_items : forall ind ni cur' r f m acc fuel Wp,
    (length m <= fuel)%nat -> m <> [] -> all_ws Wp -> all_ws ni -> all_ws cur' ->
    keys_sorted F32 F64 m = true ->
    forallb (fun kv => let '(k, x) := kv in match k with [] => false | _ => true end && bytes_ok k && WF x) m = true ->
    (forall k, In k (map fst m) -> lt_all (map fst acc) k) ->
    (forall k x, In (k, x) m -> good ind f x) ->
    obj_loop F32 F64 (load f) fuel true (Wp ++ join_items ni ind (map (item ind ni) m) ++ cur' ++ 125%N :: r) acc
      = Ok (JObj (acc ++ map (fun kv => let '(k, x) := kv in (k, R x)) m)) r.
  Proof.
    intros ind ni cur' r f m. induction m as [|[k x] t IH]; intros acc fuel Wp Hf Hne HW Hni Hcur Hsort Hwf Hacc Hg; [congruence|].
    destruct fuel as [|fuel]; [cbn [length] in Hf; lia|].
    cbn [forallb] in Hwf. apply andb_true_iff in Hwf as [Hkx Ht].
    apply andb_true_iff in Hkx as [Hk Hx]. apply andb_true_iff in Hk as [Hk Hok].
    cbn [map join_items].
    (* a well-formed entry is not `none`, so its value is printed by dump *)
    replace (item ind ni (k, x)) with (34%N :: esc_bytes k ++ [34; 58; 32]%N ++ D ind ni x)
      by (destruct x; reflexivity || discriminate).
    rewrite <- (app_assoc ni), <- (app_assoc (34%N :: _)), (app_assoc Wp).
    assert (Hkne : k <> []) by now destruct k.
    rewrite (obj_loop_step (load f) fuel (Wp ++ ni) k _ (R x) _ acc (all_ws_app _ _ HW Hni) Hkne Hok
               (Hacc k (or_introl eq_refl))
               (Hg k x (or_introl eq_refl) [32%N] ni _ eq_refl Hni
                  (after_item ni ind (map (item ind ni) t) cur' 125%N r Hcur eq_refl))).
    destruct t as [|[k2 x2] t]; cbn [map].
    - cbn [join_items]. rewrite app_nil_r, app_assoc, skip_ws_app by (apply all_ws_app; [apply nl_ws | exact Hcur]).
      reflexivity.
    - destruct (sep_shape ind) as (w & E & Hw). rewrite E. cbn [app skip_ws is_ws N.eqb Pos.eqb orb].
      rewrite <- (app_assoc w).
      etransitivity; [apply (IH (acc ++ [(k, R x)]) fuel w) | now rewrite <- app_assoc]; trivial.
      + cbn [length] in *; lia.
      + discriminate.
      + exact (sorted_tail F32 F64 _ _ Hsort).
      + intros k' Hk' k'' Hin. rewrite map_app in Hin. apply in_app_or in Hin as [Hin|[<-|[]]].
        * apply (Hacc k'); [now right | exact Hin].
        * exact (sorted_head_lt F32 F64 _ _ _ Hsort _ Hk').
      + intros k' x' Hin. apply (Hg k' x'). now right.
  Qed.

  Lemma dump_arr : forall ind cur x t,
    D ind cur (JArr (x :: t)) =
      91%N :: nl ind ++ join_items (cur ++ ind) ind (map (D ind (cur ++ ind)) (x :: t)) ++ cur ++ [93%N].
  Proof. reflexivity. Qed.

  Lemma dump_obj : forall ind cur kv t,
    D ind cur (JObj (kv :: t)) =
      123%N :: nl ind ++ join_items (cur ++ ind) ind (map (item ind (cur ++ ind)) (kv :: t))
        ++ match ind with [] => [] | _ => cur end ++ [125%N].
  Proof. reflexivity. Qed.

  Lemma load_ws : forall f W c t, all_ws W -> is_ws c = false -> load (S f) (W ++ c :: t) = load (S f) (c :: t).
  Proof. intros f W c t HW Hc. cbn [Model.load]. now rewrite skip_ws_app, (skip_ws_stop c t Hc). Qed.

  Lemma load_arr : forall f t, load (S f) (91%N :: t) = arr_loop F32 F64 (load f) f t [].
  Proof. reflexivity. Qed.

  Lemma load_obj : forall f t, load (S f) (123%N :: t) = obj_loop F32 F64 (load f) f true t [].
  Proof. reflexivity. Qed.

  Lemma load_str : forall f t, load (S f) (34%N :: t) =
    match load_string 34%N t [] with
    | Ok str r => Ok (JStr str) r
    | Err => Err | Oob => Oob | NoFuel => NoFuel
    end.
  Proof. reflexivity. Qed.

  Lemma reparsed_num : forall p src,
    R (JNum p src) = JNum (reparsed_prim F32 F64 lv p) (if prim_is_bool p then [] else prim_toString p).
  Proof. intros [|[] v|x|x] src; reflexivity. Qed.

  Lemma in_kind_bool : forall v, in_kind KBool v = true -> v = 0 \/ v = 1.
  Proof.
    unfold in_kind; cbn; intros v H; apply andb_true_iff in H as [H1 H2];
      apply Z.leb_le in H1, H2; lia.
  Qed.

  (* By induction on the fuel: `load (S f)` gives the children `load f` and the loop `f` turns, one per entry
     and one for an empty container. *)
  Theorem load_dump : forall ind, all_ws ind ->
    forall v, WF v = true -> forall f, (jsize v < f)%nat -> good ind f v.
  Proof.
    intros ind Hind v Hwf f. revert v Hwf.
    induction f as [|f IH]; intros v Hwf Hf Wp cur r HW Hcur Hr; [destruct v; cbn [jsize] in Hf; lia|].
    pose proof (all_ws_app _ _ Hcur Hind) as Hni.
    destruct v as [| |p src|s|l|m]; cbn [wf] in Hwf; try discriminate.
    - cbn [dump reparsed]. cbn [Model.load]; rewrite skip_ws_app by exact HW. reflexivity.
    - apply andb_true_iff in Hwf as [Hp Hs]. destruct src; [|discriminate].
      rewrite reparsed_num. cbn [dump]. destruct (prim_is_bool p) eqn:Hb.
      + destruct p as [|[] v|x|x]; try discriminate. cbn [prim_defined] in Hp. cbn [prim_toString reparsed_prim].
        destruct (in_kind_bool v Hp) as [->| ->]; cbn [Z.eqb];
          cbn [Model.load]; rewrite skip_ws_app by exact HW; reflexivity.
      + now apply load_number.
    - cbn [dump app reparsed]. rewrite load_ws, load_str, <- app_assoc by trivial. cbn [app].
      now rewrite load_string_esc.
    - cbn [reparsed]. destruct l as [|x t].
      { cbn [dump map app]. rewrite load_ws, load_arr by trivial. destruct f; [cbn in Hf; lia | reflexivity]. }
      rewrite dump_arr. cbn [app]. rewrite load_ws, load_arr by trivial. rewrite <- !app_assoc. cbn [app].
      apply (arr_loop_items ind (cur ++ ind) cur r f (x :: t) [] f (nl ind)); trivial; [| discriminate | apply nl_ws |].
      + pose proof (list_sum_ge_length _ jsize (x :: t) (jsize_pos F32 F64)).
        cbn [jsize] in Hf. lia.
      + intros y Hy. apply IH; [rewrite forallb_forall in Hwf; now apply Hwf|].
        pose proof (list_sum_in_le _ _ (in_map jsize _ _ Hy)). cbn [jsize] in Hf. lia.
    - cbn [reparsed]. apply andb_true_iff in Hwf as [Hsort Hwf]. destruct m as [|kv t].
      { cbn [dump map app]. rewrite load_ws, load_obj by trivial. destruct f; [cbn in Hf; lia | reflexivity]. }
      (* in compact mode (empty indent) the closing brace is not indented; the closing bracket always is *)
      rewrite dump_obj. set (cur' := match ind with [] => [] | _ => cur end).
      cbn [app]. rewrite load_ws, load_obj by trivial. rewrite <- !app_assoc. cbn [app].
      apply (obj_loop_items ind (cur ++ ind) cur' r f (kv :: t) [] f (nl ind)); trivial;
        [| discriminate | apply nl_ws | subst cur'; now destruct ind | intros k _ k' [] |].
      + pose proof (list_sum_ge_length _ (fun kv => jsize (snd kv)) (kv :: t) (fun kv => jsize_pos F32 F64 (snd kv))).
        cbn [jsize] in Hf. lia.
      + intros k y Hy. rewrite forallb_forall in Hwf. specialize (Hwf _ Hy). cbn beta iota in Hwf.
        apply andb_true_iff in Hwf as [_ Hwy]. apply IH; [exact Hwy|].
        pose proof (list_sum_in_le _ _ (in_map (fun kv => jsize (snd kv)) _ _ Hy)). cbn [jsize snd] in *. lia.
  Qed.

  Lemma join_items_sum : forall (A : Type) (f : A -> nat) (g : A -> bytes) ni ind l,
    Forall (fun x => f x <= length (g x))%nat l ->
    (list_sum (map f l) <= length (join_items ni ind (map g l)))%nat.
  Proof.
    induction 1 as [|y l Hy _ IH]; [reflexivity|].
    cbn [map join_items]. simpl list_sum. rewrite !app_length. lia.
  Qed.

  Lemma item_length : forall ind ni kv, (length (D ind ni (snd kv)) <= length (item ind ni kv))%nat.
  Proof. intros ind ni [k x]. unfold item. cbn [length snd]. rewrite !app_length. destruct x; cbn [dump length]; lia. Qed.

  Lemma dump_length : forall ind cur v, WF v = true -> (jsize v <= length (D ind cur v))%nat.
  Proof.
    intros ind cur v Hwf. revert cur.
    apply (wf_ind (fun v => forall cur, (jsize v <= length (D ind cur v))%nat)); [..| exact Hwf]; clear v Hwf.
    - intros cur. cbn; lia.
    - intros p Hp cur. destruct (dump_vhead ind cur (JNum p [])) as (h & t & -> & _); [cbn [wf]; now rewrite Hp|].
      cbn [jsize length]; lia.
    - intros s cur. cbn [dump jsize length]; lia.
    - intros [|x t] IHl cur; [cbn; lia|]. cbn [jsize]. rewrite dump_arr. cbn [length]. rewrite !app_length.
      pose proof (join_items_sum _ jsize (D ind (cur ++ ind)) (cur ++ ind) ind (x :: t)) as H.
      rewrite Forall_forall in *. specialize (H (fun y Hy => IHl y Hy (cur ++ ind))). lia.
    - intros [|kv t] IHm cur; [cbn; lia|]. cbn [jsize]. rewrite dump_obj. cbn [length]. rewrite !app_length.
      pose proof (join_items_sum _ (fun kv => jsize (snd kv)) (item ind (cur ++ ind)) (cur ++ ind) ind (kv :: t)) as H.
      rewrite Forall_forall in *.
      specialize (H (fun y Hy => Nat.le_trans _ _ _ (IHm y Hy (cur ++ ind)) (item_length ind _ y))). lia.
  Qed.

  Theorem parse_dump_exact : forall indent v, WF v = true ->
    parse_at F32 F64 parse32 parse64 lv fv (dump_top F32 F64 print32 print64 true indent v) = Ok (R v) [0%N].
  Proof.
    intros indent v Hwf. unfold parse_at, dump_top.
    set (ind := repeat 32%N (Z.to_nat (if 0 <=? indent then indent else 2))).
    pose proof (load_dump ind (all_ws_repeat _) v Hwf) as H.
    pose proof (dump_length ind [] v Hwf) as Hlen.
    specialize (H (2 * length (D ind [] v) + 2)%nat ltac:(lia) [] [] [0%N] all_ws_nil all_ws_nil).
    cbn [app] in H. apply H. eexists _, _; split; reflexivity.
  Qed.

  (* operator== converts both sides to the type of higher rank, which has the width of the type the text
     was read back as: the conversion through that type loses nothing, whatever the value *)
  Lemma prim_equal_reparsed : forall p, prim_defined F32 F64 fin32 fin64 p = true ->
    prim_equal F32 F64 eq32 eq64 (reparsed_prim F32 F64 lv p) p = Some true.
  Proof.
    intros [|k v|x|x] H; cbn [prim_defined] in H; try discriminate.
    - destruct k; cbn [reparsed_prim is_long]; try destruct (lv && negb (Z.abs v <=? 2147483647));
        cbn [prim_equal rank N.ltb N.compare Pos.compare Pos.compare_cont];
        f_equal; apply Z.eqb_eq; unfold cast; (reflexivity || apply wrap_s_idem || apply wrap_u_wrap_s).
    - cbn. now rewrite eq32_refl.
    - cbn. now rewrite eq64_refl.
  Qed.

  Theorem reparsed_eq : forall v, WF v = true -> json_eq F32 F64 eq32 eq64 (R v) v = Some true.
  Proof.
    apply wf_ind.
    - reflexivity.
    - intros p Hp. rewrite reparsed_num. exact (prim_equal_reparsed p Hp).
    - intros s. cbn [reparsed json_eq]. now rewrite bytes_eqb_refl.
    - intros l IHl. cbn [reparsed json_eq]. rewrite map_length, Nat.eqb_refl.
      induction IHl as [|x t Hx _ IHt]; [reflexivity|]. cbn [map]. now rewrite Hx.
    - intros m IHm. cbn [reparsed json_eq]. rewrite map_length, Nat.eqb_refl.
      induction IHm as [|[k x] t Hx _ IHt]; [reflexivity|]. cbn [map snd] in *. now rewrite bytes_eqb_refl, Hx.
  Qed.

  Lemma prim_same_reparsed : forall p, prim_defined F32 F64 fin32 fin64 p = true ->
    prim_fits F32 F64 lv p = true ->
    prim_same F32 F64 eq32 eq64 (reparsed_prim F32 F64 lv p) p = true.
  Proof.
    intros [|k v|x|x] H Hfit; cbn [prim_defined] in H; try discriminate.
    - assert (Hk : k = KBool \/ k <> KBool) by (destruct k; (now left) || (right; discriminate)).
      destruct Hk as [->|Hk]; [cbn; now rewrite Z.eqb_refl|].
      rewrite (reparsed_prim_int F32 F64 lv k v Hk). cbv zeta.
      set (k' := if is_long k || (lv && negb (Z.abs v <=? 2147483647)) then KI64 else KI32).
      assert (Hin : in_kind k' v = true).
      { pose proof H as H2. apply andb_true_iff in H2 as [_ H2]. apply Z.leb_le in H2.
        apply (in_kind_fits k k' v H); subst k';
          destruct (is_long k || (lv && negb (Z.abs v <=? 2147483647))) eqn:Ek'.
        - apply kind_range.
        - apply orb_false_iff in Ek' as [Hl _]. destruct k; try discriminate Hl; discriminate.
        - (* read back as int64: only uint64 reaches above it, and there the guard bounds the value *)
          destruct k; try (eapply Z.le_trans; [exact H2 | discriminate]).
          cbn [prim_fits] in Hfit. now apply Z.leb_le.
        - (* read back as int32: the type is not long; only uint32 reaches above it, and there either the
             guard bounds the value or (by-value typing) the value was within int32 *)
          apply orb_false_iff in Ek' as [Hl Ec].
          destruct k; try discriminate Hl; try (eapply Z.le_trans; [exact H2 | discriminate]).
          cbn [prim_fits] in Hfit. destruct lv; cbn [andb orb] in *; [|now apply Z.leb_le].
          apply negb_false_iff, Z.leb_le in Ec. unfold kind_max. lia. }
      cbn [prim_same]. rewrite (cast_id k' v Hin), Z.eqb_refl.
      subst k'. destruct k, (_ || _); congruence || reflexivity.
    - cbn. now rewrite eq32_refl.
    - cbn. now rewrite eq64_refl.
  Qed.

  Theorem reparsed_same : forall v, WF v = true -> ints_fit F32 F64 lv v = true ->
    json_same F32 F64 eq32 eq64 (R v) v = true.
  Proof.
    apply (wf_ind (fun v => ints_fit F32 F64 lv v = true -> json_same F32 F64 eq32 eq64 (R v) v = true)).
    - reflexivity.
    - intros p Hp Hfit. rewrite reparsed_num. exact (prim_same_reparsed p Hp Hfit).
    - intros s _. cbn [reparsed json_same]. now rewrite bytes_eqb_refl.
    - intros l IHl Hfit. cbn [reparsed json_same ints_fit] in *.
      induction IHl as [|x t Hx _ IHt]; [reflexivity|]. cbn [map forallb] in *.
      apply andb_true_iff in Hfit as [Fx Ft]. now rewrite (Hx Fx), IHt.
    - intros m IHm Hfit. cbn [reparsed json_same ints_fit] in *.
      induction IHm as [|[k x] t Hx _ IHt]; [reflexivity|]. cbn [map forallb snd] in *.
      apply andb_true_iff in Hfit as [Fx Ft]. now rewrite bytes_eqb_refl, (Hx Fx), IHt.
  Qed.

End Main.
