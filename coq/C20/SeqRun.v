(* C20/SeqRun.v — the launch model has a complete schedule whose final global memory is run_seq's:
   blocks in order; per block the sections in order, each thread run to the end of its section in
   inner-loop order, then the barrier step.  (statement machine vs. big-step exec, then bookkeeping.) *)
From Coq Require Import List ZArith Lia Bool Arith.
From OV.C20 Require Import Util Confluence Lang Spec Model Diamond.
Import ListNotations.
Open Scope nat_scope.

Section Thread.
  Variables (E : senv) (lo li : nat).

  Fixpoint titer (n : nat) (c : priv * mem * mem) : option (priv * mem * mem) :=
    match n with
    | O => Some c
    | S n' => let '(p, G, Sh) := c in
              match tstep false E lo li G Sh p with
              | Some (p', act) => titer n' (p', apply_G act G, apply_S act Sh)
              | None => None
              end
    end.

  Lemma titer_app n m c : titer (n + m) c = match titer n c with Some c' => titer m c' | None => None end.
  Proof.
    revert c; induction n; simpl; intros; auto. destruct c as [[p G] Sh].
    destruct (tstep false E lo li G Sh p) as [[p' act]|]; auto.
  Qed.

  Definition cfg_of (st : bst) (k : list item) : priv * mem * mem :=
    ({| p_ex := b_ex st; p_lo := b_lo st; p_k := k |}, b_G st, b_S st).

  Lemma step_loop st j c n s k :
    titer 1 (cfg_of st (ILoop j c n s :: k)) =
    Some (cfg_of (set_lo st j c) (if (c <? n)%Z then IS s :: ILoop j (c + 1) n s :: k else k)).
  Proof. unfold cfg_of, titer, tstep. cbn [p_k p_ex p_lo]. now destruct (c <? n)%Z. Qed.

  Lemma step_if st c a b k :
    titer 1 (cfg_of st (IS (SIf c a b) :: k)) =
    Some (cfg_of st (IS (if (bev E lo li st c =? 0)%Z then b else a) :: k)).
  Proof. reflexivity. Qed.

  Lemma step_first st s k :
    titer 1 (cfg_of st (IS (SFirst s) :: k)) = Some (cfg_of st (if Nat.eqb li 0 then IS s :: k else k)).
  Proof. reflexivity. Qed.

  Lemma step_seq st a b k : titer 1 (cfg_of st (IS (SSeq a b) :: k)) = Some (cfg_of st (IS a :: IS b :: k)).
  Proof. reflexivity. Qed.

  Lemma step_for st j b s k :
    titer 1 (cfg_of st (IS (SFor j b s) :: k)) = Some (cfg_of st (ILoop j 0 (bound_eval E b) s :: k)).
  Proof. reflexivity. Qed.

  Lemma loop_steps (s : stmt) (j : nat) (n : Z) (k : list item)
    (IHs : forall st k, exists m, titer m (cfg_of st (IS s :: k)) = Some (cfg_of (exec E lo li s st) k)) :
    forall kf c st, Z.to_nat (n - c) = kf ->
      exists m, titer m (cfg_of st (ILoop j c n s :: k)) = Some (cfg_of (loop (exec E lo li s) j n kf c st) k).
  Proof.
    induction kf; intros c st Hk.
    - exists 1. assert (Hc : (c <? n)%Z = false) by (apply Z.ltb_ge; lia).
      now rewrite step_loop, Hc.
    - assert (Hc : (c <? n)%Z = true) by (apply Z.ltb_lt; lia).
      destruct (IHs (set_lo st j c) (ILoop j (c + 1) n s :: k)) as [m1 H1].
      destruct (IHkf (c + 1)%Z (exec E lo li s (set_lo st j c))) as [m2 H2]; [lia|].
      exists (1 + (m1 + m2)). rewrite titer_app, step_loop, Hc.
      rewrite titer_app, H1. cbn [loop]. rewrite Hc. exact H2.
  Qed.

  Lemma exec_steps (s : stmt) : forall st k,
    exists m, titer m (cfg_of st (IS s :: k)) = Some (cfg_of (exec E lo li s st) k).
  Proof.
    induction s; intros st k; try (exists 1; reflexivity).   (* assignments, stores, skip: one step *)
    - (* SSeq *) destruct (IHs1 st (IS s2 :: k)) as [m1 H1]. destruct (IHs2 (exec E lo li s1 st) k) as [m2 H2].
      exists (1 + (m1 + m2)). rewrite titer_app, step_seq, titer_app, H1. exact H2.
    - (* SIf *) cbn [exec]. destruct (bev E lo li st c =? 0)%Z eqn:Hc.
      + destruct (IHs2 (chk st (binb E lo li st c)) k) as [m H]. exists (1 + m). rewrite titer_app, step_if, Hc. exact H.
      + destruct (IHs1 (chk st (binb E lo li st c)) k) as [m H]. exists (1 + m). rewrite titer_app, step_if, Hc. exact H.
    - (* SFirst *) cbn [exec]. destruct (Nat.eqb li 0) eqn:Hl.
      + destruct (IHs st k) as [m H]. exists (1 + m). rewrite titer_app, step_first, Hl. exact H.
      + exists 1. rewrite step_first, Hl. reflexivity.
    - (* SFor *) destruct (loop_steps s j (bound_eval E b) k IHs (Z.to_nat (bound_eval E b)) 0%Z st) as [m H].
      { f_equal. lia. }
      exists (1 + m). rewrite titer_app, step_for. exact H.
  Qed.
End Thread.

Section Runs.
  Variables (E : senv) (secs : list section).
  Notation gruns' := (gruns false E secs).
  Notation step := (gstep false E secs).

  Lemma gruns_app a b s : gruns' (a ++ b) s = match gruns' a s with Some s' => gruns' b s' | None => None end.
  Proof. rewrite !gruns_runs, runs_app. destruct (runs _ _ _ a s); [now rewrite gruns_runs|reflexivity]. Qed.

  (* "block b can go from (G, B) to (G', B')", whatever the other blocks are *)
  Definition breach (b : nat) (G : mem) (B : blk) (G' : mem) (B' : blk) : Prop :=
    forall blks, nth_error blks b = Some B ->
      exists sched, gruns' sched {| s_G := G; s_blks := blks |} = Some {| s_G := G'; s_blks := upd b B' blks |}.

  Lemma breach_refl b G B : breach b G B G B.
  Proof. intros blks HB. exists []. simpl. rewrite upd_same_nth_error; auto. Qed.

  Lemma breach_trans b G B G1 B1 G2 B2 : breach b G B G1 B1 -> breach b G1 B1 G2 B2 -> breach b G B G2 B2.
  Proof.
    intros H1 H2 blks HB. destruct (H1 blks HB) as [s1 R1].
    destruct (H2 (upd b B1 blks)) as [s2 R2].
    { apply nth_error_upd_eq. eapply nth_error_lt; eauto. }
    exists (s1 ++ s2). rewrite gruns_app, R1, R2. rewrite upd_upd. auto.
  Qed.

  Lemma breach_thread b i n : forall G B p p' G' S',
    nth_error (k_thr B) i = Some p ->
    titer E b i n (p, G, k_sh B) = Some (p', G', S') ->
    breach b G B G' {| k_phase := k_phase B; k_sh := S'; k_thr := upd i p' (k_thr B) |}.
  Proof.
    induction n; intros G B p p' G' S' Hp Ht.
    - simpl in Ht. inversion Ht; subst. rewrite upd_same_nth_error by auto.
      destruct B; simpl. apply breach_refl.
    - simpl in Ht. destruct (tstep false E b i G (k_sh B) p) as [[p1 act]|] eqn:Hs; try discriminate.
      eapply breach_trans with (G1 := apply_G act G) (B1 := thr_blk B i p1 act).
      + intros blks HB. exists [LThr b i]. cbn [gruns].
        now rewrite (thr_intro E secs b i {| s_G := G; s_blks := blks |} B p p1 act HB Hp Hs).
      + specialize (IHn (apply_G act G) (thr_blk B i p1 act) p1 p' G' S'). simpl in IHn. rewrite upd_upd in IHn.
        apply IHn; auto. apply nth_error_upd_eq. eapply nth_error_lt; eauto.
  Qed.

  Lemma breach_bar b G B : k_phase B < length secs -> forallb (fun p => is_nil (p_k p)) (k_thr B) = true ->
    breach b G B G (bar_blk secs B).
  Proof.
    intros Hlt Hnil blks HB. exists [LBar b]. cbn [gruns].
    now rewrite (bar_intro E secs b {| s_G := G; s_blks := blks |} B HB Hlt Hnil).
  Qed.

  Definition at_entry (k0 : list item) (ex : store) : priv := {| p_ex := ex; p_lo := zero_store; p_k := k0 |}.

  Section Sec.
    Variables (b q : nat) (body : stmt).

    (* the threads of `done` have finished the section, those of `rest` are at its start *)
    Lemma section_run : forall rest done G Sh, forallb (fun p => is_nil (p_k p)) done = true ->
      exists thr',
        let '(G', Sh', exs') := fold_left (seq_thread E b body) (seq (length done) (length rest))
                                          (G, Sh, map p_ex (done ++ map (at_entry [IS body]) rest)) in
        breach b G {| k_phase := q; k_sh := Sh; k_thr := done ++ map (at_entry [IS body]) rest |}
               G' {| k_phase := q; k_sh := Sh'; k_thr := thr' |} /\
        forallb (fun p => is_nil (p_k p)) thr' = true /\ map p_ex thr' = exs' /\
        length thr' = length done + length rest.
    Proof.
      induction rest as [|ex rest IH]; intros done G Sh Hdone.
      - simpl. rewrite app_nil_r, Nat.add_0_r. exists done. split; [apply breach_refl|auto].
      - set (i := length done). set (thr := done ++ map (at_entry [IS body]) (ex :: rest)).
        assert (Hp : nth_error thr i = Some (at_entry [IS body] ex)) by apply nth_error_app_mid.
        cbn [length seq fold_left seq_thread].
        rewrite (nth_error_nth (map p_ex thr) i (x := ex)) by (rewrite nth_error_map, Hp; reflexivity).
        set (st0 := {| b_G := G; b_S := Sh; b_ex := ex; b_lo := zero_store; b_ok := true |}).
        destruct (exec_steps E b i body st0 []) as [m Hm]. set (st1 := exec E b i body st0) in *.
        set (p1 := {| p_ex := b_ex st1; p_lo := b_lo st1; p_k := [] |}).
        assert (Hupd : upd i p1 thr = (done ++ [p1]) ++ map (at_entry [IS body]) rest)
          by (unfold thr, i; simpl; now rewrite upd_app_mid, <- app_assoc).
        destruct (IH (done ++ [p1]) (b_G st1) (b_S st1)) as [thr' H].
        { rewrite forallb_app, Hdone. reflexivity. }
        rewrite <- Hupd, map_upd, app_length, Nat.add_1_r in H. exists thr'.
        destruct (fold_left _ _ _) as [[G' Sh'] exs']. destruct H as (Hbr & Hnil & Hex & Hlen).
        split; [|split; [auto|split; [auto|simpl; lia]]].
        eapply breach_trans; [|exact Hbr].
        exact (breach_thread b i m G {| k_phase := q; k_sh := Sh; k_thr := thr |} _ p1 (b_G st1) (b_S st1) Hp Hm).
    Qed.
  End Sec.
End Runs.

Section Blocks.
  Variables (E : senv) (u : Z) (ob : oblock).
  Let secs := ob_secs ob.

  Lemma sections_run b : forall rest pre G Sh exs, secs = pre ++ rest -> length exs = e_mi E ->
    exists Sh' thr',
      breach E secs b G
             {| k_phase := length pre; k_sh := Sh; k_thr := map (at_entry (sec_entry secs (length pre))) exs |}
             (fst (fst (fold_left (seq_section E b) rest (G, Sh, exs))))
             {| k_phase := length secs; k_sh := Sh'; k_thr := thr' |}.
  Proof.
    induction rest as [|sec rest IH]; intros pre G Sh exs Hsecs Hlen.
    - rewrite app_nil_r in Hsecs. rewrite <- Hsecs. eexists _, _. apply breach_refl.
    - assert (Hsec : nth_error secs (length pre) = Some sec) by (rewrite Hsecs; apply nth_error_app_mid).
      assert (Hqlt : length pre < length secs) by (eapply nth_error_lt; eauto).
      unfold sec_entry at 1. rewrite Hsec.
      destruct (section_run E secs b (length pre) (sec_body sec) exs [] G Sh eq_refl) as [thr1 H1].
      cbn [app length] in H1. rewrite map_map, map_id, Hlen in H1.
      cbn [fold_left]. unfold seq_section at 2.
      destruct (fold_left (seq_thread E b (sec_body sec)) (seq 0 (e_mi E)) (G, Sh, exs)) as [[G1 Sh1] exs1].
      destruct H1 as (Hbr & Hnil & <- & Hlen1).
      destruct (IH (pre ++ [sec]) G1 Sh1 (map p_ex thr1)) as [Sh' [thr' Hbr2]].
      { now rewrite <- app_assoc. }
      { now rewrite map_length. }
      rewrite app_length, Nat.add_1_r, map_map in Hbr2. exists Sh', thr'.
      eapply breach_trans; [exact Hbr|]. eapply breach_trans; [|exact Hbr2].
      exact (breach_bar E secs b G1 {| k_phase := length pre; k_sh := Sh1; k_thr := thr1 |} Hqlt Hnil).
  Qed.

  Lemma block_run b G : 
    exists Bfin, k_phase Bfin = length secs /\
      breach E secs b G (init_blk E u ob) (seq_block E u ob G b) Bfin.
  Proof.
    destruct (sections_run b secs [] G (init_shared u ob) (repeat (const_store u) (e_mi E)) eq_refl (repeat_length _ _))
      as [Sh' [thr' H]].
    rewrite map_repeat in H.
    exists {| k_phase := length secs; k_sh := Sh'; k_thr := thr' |}. split; auto.
    unfold seq_block. fold secs.
    destruct (fold_left (seq_section E b) secs (G, init_shared u ob, repeat (const_store u) (e_mi E)))
      as [[G' S'] e']. exact H.
  Qed.

  Lemma blocks_run : forall cnt done G, forallb (fun B => Nat.eqb (k_phase B) (length secs)) done = true ->
    exists sched s',
      gruns false E secs sched {| s_G := G; s_blks := done ++ repeat (init_blk E u ob) cnt |} = Some s' /\
      s_G s' = fold_left (seq_block E u ob) (seq (length done) cnt) G /\ finished secs s' = true.
  Proof.
    induction cnt; intros done G Hdone; cbn [repeat seq fold_left].
    - exists [], {| s_G := G; s_blks := done ++ [] |}. rewrite app_nil_r. auto.
    - destruct (block_run (length done) G) as [Bfin [Hph Hbr]].
      destruct (Hbr _ (nth_error_app_mid done _ (repeat (init_blk E u ob) cnt))) as [s1 R1]. rewrite upd_app_mid in R1.
      destruct (IHcnt (done ++ [Bfin]) (seq_block E u ob G (length done))) as [s2 [s' [R2 H]]].
      { rewrite forallb_app, Hdone. simpl. now rewrite Hph, Nat.eqb_refl. }
      rewrite <- app_assoc, app_length, Nat.add_1_r in *.
      exists (s1 ++ s2), s'. rewrite gruns_app, R1. auto.
  Qed.
End Blocks.
