(* C20/Util.v — lists as memories: positional update, reads with a default, commutation of
   updates at different positions.  Shared by C20 and C21. *)
From Coq Require Import List ZArith Lia Bool Arith.
Import ListNotations.
Open Scope Z_scope.

Fixpoint upd {A} (n : nat) (v : A) (l : list A) : list A :=
  match l, n with
  | [], _ => []
  | _ :: r, O => v :: r
  | x :: r, S k => x :: upd k v r
  end.

Lemma upd_length {A} n (v : A) l : length (upd n v l) = length l.
Proof. revert n; induction l; destruct n; simpl; auto. Qed.

Lemma nth_upd_eq {A} n (v d : A) l : (n < length l)%nat -> nth n (upd n v l) d = v.
Proof. revert n; induction l; destruct n; simpl; intros; try lia; auto. apply IHl; lia. Qed.

Lemma nth_upd_neq {A} n m (v d : A) l : n <> m -> nth m (upd n v l) d = nth m l d.
Proof.
  revert n m; induction l; destruct n, m; simpl; intros; try congruence; auto.
Qed.

Lemma upd_comm {A} n m (v w : A) l : n <> m -> upd n v (upd m w l) = upd m w (upd n v l).
Proof.
  revert n m; induction l; destruct n, m; simpl; intros; try congruence; auto.
  f_equal. apply IHl. congruence.
Qed.

Lemma upd_oob {A} n (v : A) l : (length l <= n)%nat -> upd n v l = l.
Proof. revert n; induction l; destruct n; simpl; intros; try lia; auto. f_equal. apply IHl. lia. Qed.

Lemma upd_upd {A} n (v w : A) l : upd n v (upd n w l) = upd n v l.
Proof. revert n; induction l; destruct n; simpl; intros; auto. f_equal. apply IHl. Qed.

Lemma upd_nth_same {A} n (d : A) l : upd n (nth n l d) l = l.
Proof. revert n; induction l; destruct n; simpl; intros; auto. f_equal. apply IHl. Qed.

Lemma nth_error_upd_eq {A} n (v : A) l : (n < length l)%nat -> nth_error (upd n v l) n = Some v.
Proof. revert n; induction l; destruct n; simpl; intros; try lia; auto. apply IHl. lia. Qed.

Lemma nth_error_upd_neq {A} n m (v : A) l : n <> m -> nth_error (upd n v l) m = nth_error l m.
Proof. revert n m; induction l; destruct n, m; simpl; intros; try congruence; auto. Qed.

Lemma nth_error_lt {A} (l : list A) n x : nth_error l n = Some x -> (n < length l)%nat.
Proof. intros H. apply nth_error_Some. congruence. Qed.

Lemma upd_same_nth_error {A} n (x : A) l : nth_error l n = Some x -> upd n x l = l.
Proof. revert n; induction l; destruct n; simpl; intros H; try discriminate; auto.
       - inversion H; auto. - f_equal; auto. Qed.

Lemma nth_error_app_mid {A} (a : list A) x r : nth_error (a ++ x :: r) (length a) = Some x.
Proof. induction a; auto. Qed.

Lemma upd_app_mid {A} (a : list A) v x r : upd (length a) v (a ++ x :: r) = a ++ v :: r.
Proof. induction a; simpl; [|rewrite IHa]; auto. Qed.

Lemma map_upd {A B} (f : A -> B) n x l : map f (upd n x l) = upd n (f x) (map f l).
Proof. revert n; induction l; destruct n; simpl; auto. f_equal; auto. Qed.

Lemma map_repeat {A B} (f : A -> B) x n : map f (repeat x n) = repeat (f x) n.
Proof. induction n; simpl; auto. f_equal; auto. Qed.

Lemma forallb_false {A} (f : A -> bool) l : forallb f l = false -> exists x, In x l /\ f x = false.
Proof.
  induction l as [|a r IH]; simpl; intros H; try discriminate.
  destruct (f a) eqn:Ha; [|exists a; auto]. destruct (IH H) as [x [H1 H2]]. exists x. auto.
Qed.

(* one array: cells addressed by Z; negative and too large indices read 0 and are not written *)
Definition rd (l : list Z) (i : Z) : Z := if i <? 0 then 0 else nth (Z.to_nat i) l 0.
Definition wr (l : list Z) (i : Z) (v : Z) : list Z := if i <? 0 then l else upd (Z.to_nat i) v l.

Lemma wr_length l i v : length (wr l i v) = length l.
Proof. unfold wr. destruct (i <? 0); auto using upd_length. Qed.

Lemma rd_wr_neq l i j v : i <> j -> rd (wr l i v) j = rd l j.
Proof.
  unfold rd, wr; intros. destruct (j <? 0) eqn:Hj; auto. destruct (i <? 0) eqn:Hi; auto.
  apply nth_upd_neq. apply Z.ltb_ge in Hi, Hj. lia.
Qed.

Lemma wr_comm l i j v w : i <> j -> wr (wr l j w) i v = wr (wr l i v) j w.
Proof.
  unfold wr; intros. destruct (i <? 0) eqn:Hi, (j <? 0) eqn:Hj; auto.
  apply upd_comm. apply Z.ltb_ge in Hi, Hj. lia.
Qed.

Definition mem := list (list Z).
Definition rd2 (M : mem) (a : nat) (i : Z) : Z := rd (nth a M []) i.
Definition wr2 (M : mem) (a : nat) (i : Z) (v : Z) : mem := upd a (wr (nth a M []) i v) M.

Lemma wr2_length M a i v : length (wr2 M a i v) = length M.
Proof. apply upd_length. Qed.

Lemma nth_wr2_neq M a b i v : a <> b -> nth b (wr2 M a i v) [] = nth b M [].
Proof. intros; unfold wr2. apply nth_upd_neq; auto. Qed.

Lemma nth_wr2_eq M a i v : nth a (wr2 M a i v) [] = wr (nth a M []) i v.
Proof.
  unfold wr2. destruct (Nat.lt_ge_cases a (length M)).
  - apply nth_upd_eq; auto.
  - rewrite upd_oob by lia. rewrite (nth_overflow M) by lia. unfold wr. destruct (i <? 0); auto.
    destruct (Z.to_nat i); reflexivity.
Qed.

Lemma rd2_wr2_other M a b i j v : (a <> b \/ i <> j) -> rd2 (wr2 M a i v) b j = rd2 M b j.
Proof.
  intros H. unfold rd2. destruct (Nat.eq_dec a b) as [->|Hab].
  - rewrite nth_wr2_eq. apply rd_wr_neq. destruct H; congruence.
  - rewrite nth_wr2_neq; auto.
Qed.

Lemma wr2_comm M a b i j v w : (a <> b \/ i <> j) ->
  wr2 (wr2 M b j w) a i v = wr2 (wr2 M a i v) b j w.
Proof.
  intros H. unfold wr2 at 1 3. destruct (Nat.eq_dec a b) as [->|Hab].
  - rewrite !nth_wr2_eq. unfold wr2. rewrite !upd_upd. f_equal. apply wr_comm. destruct H; congruence.
  - rewrite !nth_wr2_neq by congruence. unfold wr2. apply upd_comm; auto.
Qed.

Definition add2 (f : Z -> Z -> Z) (M : mem) (a : nat) (i v : Z) : mem := wr2 M a i (f (rd2 M a i) v).

Definition inb (M : mem) (a : nat) (i : Z) : bool :=
  (a <? length M)%nat && (0 <=? i) && (Z.to_nat i <? length (nth a M []))%nat.

Lemma wr2_oob M a i v : inb M a i = false -> wr2 M a i v = M.
Proof.
  unfold inb, wr2, wr. intros H.
  destruct (Nat.ltb_spec a (length M)); [|now apply upd_oob].
  destruct (Z.ltb_spec i 0); [apply upd_nth_same|].
  destruct (Z.leb_spec 0 i); [|lia]. apply Nat.ltb_ge in H.
  rewrite (upd_oob (Z.to_nat i)) by auto. apply upd_nth_same.
Qed.

Lemma rd2_wr2_same M a i v : inb M a i = true -> rd2 (wr2 M a i v) a i = v.
Proof.
  unfold inb, rd2. intros H. apply andb_true_iff in H as [H H3]. apply andb_true_iff in H as [_ H2].
  rewrite nth_wr2_eq. unfold rd, wr. apply Z.leb_le in H2.
  destruct (Z.ltb_spec i 0); [lia|]. apply nth_upd_eq. now apply Nat.ltb_lt.
Qed.

Lemma wr2_wr2_same M a i v w : wr2 (wr2 M a i v) a i w = wr2 M a i w.
Proof.
  unfold wr2 at 1. rewrite nth_wr2_eq. unfold wr2. rewrite upd_upd. f_equal.
  unfold wr. destruct (i <? 0); auto. apply upd_upd.
Qed.

Lemma add2_wr2_comm f M a b i j v w : (a <> b \/ i <> j) ->
  add2 f (wr2 M a i v) b j w = wr2 (add2 f M b j w) a i v.
Proof.
  intros H. unfold add2. rewrite rd2_wr2_other by auto. apply wr2_comm. destruct H; auto.
Qed.

Lemma add2_comm f M a b i j v w : (forall x, f (f x v) w = f (f x w) v) ->
  add2 f (add2 f M a i v) b j w = add2 f (add2 f M b j w) a i v.
Proof.
  intros Hf. unfold add2.
  destruct (Nat.eq_dec a b) as [->|Hab]; [destruct (Z.eq_dec i j) as [->|Hij]|];
    [|rewrite !rd2_wr2_other by auto; apply wr2_comm; auto ..].
  (* the same cell *)
  destruct (inb M b j) eqn:Hin.
  - rewrite !rd2_wr2_same by auto. rewrite !wr2_wr2_same. rewrite Hf. auto.
  - now rewrite !(wr2_oob M b j) by auto.
Qed.
