(* C20/Diamond.v — `diamond`: on the states of the launch model that satisfy Inv (every thread's remaining code passes
   the syntactic check), enabled steps of different labels commute.  Inv holds initially and is kept by every step when
   the outer block passes the check (Inv_step); with Confluence.v: all schedules that finish end in the same state,
   and none is longer than one that finishes (finished_run_bounds). *)
From Coq Require Import List ZArith Lia Bool Arith.
From OV.C20 Require Import Util Confluence Lang Spec Model Frame.
Import ListNotations.
Open Scope nat_scope.

Section Block.
  Variables (E : senv) (secs : list section).

  Definition Wof (q : nat) : list nat := match nth_error secs q with Some s => sec_wr s | None => [] end.

  (* clause 2 carries the syntactic check: what is left of every thread's code passes it for the write set of the
     current section (first = the thread is inner tuple 0); clause 3 makes finished states terminal; clause 4 is
     for progress (C21) *)
  Definition blk_ok (B : blk) : Prop :=
    length (k_thr B) = e_mi E /\
    (forall i p, nth_error (k_thr B) i = Some p -> ok_priv E (Wof (k_phase B)) i p) /\
    (k_phase B = length secs -> forall i p, nth_error (k_thr B) i = Some p -> p_k p = []) /\
    k_phase B <= length secs.

  Definition Inv (s : gst) : Prop := forall b B, nth_error (s_blks s) b = Some B -> blk_ok B.

  Notation step := (gstep false E secs).

  Definition thr_blk (B : blk) (i : nat) (p' : priv) (act : action) : blk :=
    {| k_phase := k_phase B; k_sh := apply_S act (k_sh B); k_thr := upd i p' (k_thr B) |}.

  Lemma thr_inv {split} b i s s' : gstep split E secs (LThr b i) s = Some s' ->
    exists B p p' act, nth_error (s_blks s) b = Some B /\ nth_error (k_thr B) i = Some p /\
      tstep split E b i (s_G s) (k_sh B) p = Some (p', act) /\
      s' = {| s_G := apply_G act (s_G s);
              s_blks := upd b (thr_blk B i p' act) (s_blks s) |}.
  Proof.
    simpl. destruct (nth_error (s_blks s) b) as [B|] eqn:HB; try discriminate.
    destruct (nth_error (k_thr B) i) as [p|] eqn:Hp; try discriminate.
    destruct (tstep split E b i (s_G s) (k_sh B) p) as [[p' act]|] eqn:Ht; try discriminate.
    intros H; injection H as <-. exists B, p, p', act. auto.
  Qed.

  Lemma thr_intro {split} b i s B p p' act : nth_error (s_blks s) b = Some B -> nth_error (k_thr B) i = Some p ->
      tstep split E b i (s_G s) (k_sh B) p = Some (p', act) ->
      gstep split E secs (LThr b i) s =
      Some {| s_G := apply_G act (s_G s);
              s_blks := upd b (thr_blk B i p' act) (s_blks s) |}.
  Proof. simpl. intros -> -> ->. auto. Qed.

  Definition bar_blk (B : blk) : blk :=
    {| k_phase := S (k_phase B); k_sh := k_sh B; k_thr := map (enter secs (S (k_phase B))) (k_thr B) |}.

  Lemma bar_inv {split} b s s' : gstep split E secs (LBar b) s = Some s' ->
    exists B, nth_error (s_blks s) b = Some B /\ k_phase B < length secs /\
      forallb (fun p => is_nil (p_k p)) (k_thr B) = true /\
      s' = {| s_G := s_G s; s_blks := upd b (bar_blk B) (s_blks s) |}.
  Proof.
    simpl. destruct (nth_error (s_blks s) b) as [B|] eqn:HB; try discriminate.
    destruct ((k_phase B <? length secs) && forallb (fun p => is_nil (p_k p)) (k_thr B)) eqn:Hc; try discriminate.
    apply andb_true_iff in Hc as [H1 H2]. apply Nat.ltb_lt in H1.
    intros H; injection H as <-. exists B. auto.
  Qed.

  Lemma bar_intro {split} b s B : nth_error (s_blks s) b = Some B -> k_phase B < length secs ->
      forallb (fun p => is_nil (p_k p)) (k_thr B) = true ->
      gstep split E secs (LBar b) s = Some {| s_G := s_G s; s_blks := upd b (bar_blk B) (s_blks s) |}.
  Proof.
    simpl. intros -> H1 H2. apply Nat.ltb_lt in H1. rewrite H1, H2. auto.
  Qed.

  Lemma thr_facts s b B i p p' act : Inv s -> nth_error (s_blks s) b = Some B -> nth_error (k_thr B) i = Some p ->
    tstep false E b i (s_G s) (k_sh B) p = Some (p', act) ->
    i < e_mi E /\ ok_priv E (Wof (k_phase B)) i p /\ allowed E (Wof (k_phase B)) b i act.
  Proof.
    intros HI HB Hp Ht. destruct (HI b B HB) as [HL [Hok _]].
    split; [rewrite <- HL; eapply nth_error_lt; eauto|]. split; [auto|]. eapply tstep_ok; eauto.
  Qed.

  (* after the step of (b, i), another thread (c, j) takes the step it could take before, on the record that step left
     of its block *)
  Lemma thr_after s b i c j B C q p' q' a1 a2 : (b, i) <> (c, j) -> i < e_mi E -> j < e_mi E ->
    nth_error (s_blks s) b = Some B -> nth_error (s_blks s) c = Some C -> nth_error (k_thr C) j = Some q ->
    allowed E (Wof (k_phase B)) b i a1 -> ok_priv E (Wof (k_phase C)) j q ->
    tstep false E c j (s_G s) (k_sh C) q = Some (q', a2) ->
    step (LThr c j) {| s_G := apply_G a1 (s_G s); s_blks := upd b (thr_blk B i p' a1) (s_blks s) |}
    = Some {| s_G := apply_G a2 (apply_G a1 (s_G s));
              s_blks := upd c (thr_blk (if Nat.eq_dec b c then thr_blk C i p' a1 else C) j q' a2)
                            (upd b (thr_blk B i p' a1) (s_blks s)) |}.
  Proof.
    intros Hne Hi Hj HB HC Hq Hal1 Hokq Ht2.
    assert (Hcb : (c, j) <> (b, i)) by congruence.
    destruct (Nat.eq_dec b c) as [<-|Hbc].
    - (* same block *)
      rewrite HB in HC. injection HC as <-. erewrite (thr_intro b j _ _ q); [reflexivity|..]; simpl.
      + apply nth_error_upd_eq. eapply nth_error_lt; eauto.
      + rewrite nth_error_upd_neq by congruence. exact Hq.
      + rewrite <- Ht2. apply (tstep_other E (Wof (k_phase B)) (Wof (k_phase B)) b j b i a1); auto.
        apply (allowed_agreeS E (Wof (k_phase B)) b j i a1); auto.
    - (* different blocks *)
      erewrite (thr_intro c j _ _ q); [reflexivity|..]; simpl.
      + now rewrite nth_error_upd_neq.
      + exact Hq.
      + rewrite <- Ht2. apply (tstep_other E (Wof (k_phase C)) (Wof (k_phase B)) c j b i a1); auto using agreeS_refl.
  Qed.

  Lemma diamond_thr_thr s b i c j sa sb : Inv s -> (b, i) <> (c, j) ->
    step (LThr b i) s = Some sa -> step (LThr c j) s = Some sb ->
    exists sc, step (LThr c j) sa = Some sc /\ step (LThr b i) sb = Some sc.
  Proof.
    intros HI Hne Ha Hb.
    apply thr_inv in Ha as [B [p [p' [a1 [HB [Hp [Ht1 ->]]]]]]].
    apply thr_inv in Hb as [C [q [q' [a2 [HC [Hq [Ht2 ->]]]]]]].
    destruct (thr_facts s b B i p p' a1 HI HB Hp Ht1) as (Hi & Hokp & Hal1).
    destruct (thr_facts s c C j q q' a2 HI HC Hq Ht2) as (Hj & Hokq & Hal2).
    eexists. split; [apply (thr_after s b i c j B C q p' q' a1 a2); auto|].
    rewrite (thr_after s c j b i C B p q' p' a2 a1) by auto. f_equal.
    rewrite (apply_G_comm E _ _ b i c j a1 a2 (s_G s) Hne Hi Hj Hal1 Hal2). f_equal.
    destruct (Nat.eq_dec b c) as [<-|Hbc]; destruct (Nat.eq_dec _ _) as [Heq|Hcb]; try congruence.
    - (* one block: both records are B with both threads and both actions put in *)
      rewrite HB in HC. injection HC as <-. rewrite !upd_upd. f_equal. unfold thr_blk; simpl.
      assert (Hij : i <> j) by congruence.
      now rewrite (apply_S_comm E _ _ b i b j a1 a2 (k_sh B) Hij Hal1 Hal2), (upd_comm i j).
    - now rewrite (upd_comm b c).
  Qed.

  Lemma diamond_thr_bar s b i c sa sb :
    step (LThr b i) s = Some sa -> step (LBar c) s = Some sb ->
    exists sc, step (LBar c) sa = Some sc /\ step (LThr b i) sb = Some sc.
  Proof.
    intros Ha Hb.
    apply thr_inv in Ha as [B [p [p' [a1 [HB [Hp [Ht1 ->]]]]]]].
    apply bar_inv in Hb as [C [HC [Hlt [Hnil ->]]]].
    destruct (Nat.eq_dec b c) as [Hbc|Hbc].
    - subst c. rewrite HB in HC. inversion HC; subst C.
      rewrite forallb_forall in Hnil. apply nth_error_In in Hp. apply Hnil in Hp.
      unfold tstep in Ht1. destruct (p_k p); simpl in Hp; discriminate.
    - eexists. split.
      + eapply bar_intro; simpl; [rewrite nth_error_upd_neq by auto; eauto|auto|auto].
      + rewrite (thr_intro b i _ B p p' a1); simpl; auto.
        * now rewrite (upd_comm b c).
        * now rewrite nth_error_upd_neq by congruence.
  Qed.

  Lemma diamond_bar_bar s b c sa sb : b <> c ->
    step (LBar b) s = Some sa -> step (LBar c) s = Some sb ->
    exists sc, step (LBar c) sa = Some sc /\ step (LBar b) sb = Some sc.
  Proof.
    intros Hbc Ha Hb.
    apply bar_inv in Ha as [B [HB [HltB [HnilB ->]]]].
    apply bar_inv in Hb as [C [HC [Hlt [Hnil ->]]]].
    eexists. split.
    - eapply bar_intro; simpl; [rewrite nth_error_upd_neq by auto; eauto|auto|auto].
    - rewrite (bar_intro b _ B); simpl; auto.
      + now rewrite (upd_comm b c).
      + now rewrite nth_error_upd_neq by congruence.
  Qed.

  Theorem diamond t u s a b : Inv s -> t <> u -> step t s = Some a -> step u s = Some b ->
    exists c, step u a = Some c /\ step t b = Some c.
  Proof.
    intros HI Hne Ha Hb. destruct t as [b1 i1|b1], u as [b2 i2|b2].
    - eapply diamond_thr_thr; eauto; congruence.
    - eapply diamond_thr_bar; eauto.
    - destruct (diamond_thr_bar s b2 i2 b1 b a Hb Ha) as [c [H1 H2]]. exists c. auto.
    - eapply diamond_bar_bar; eauto; congruence.
  Qed.

  Lemma finished_terminal s : Inv s -> finished secs s = true -> forall l, step l s = None.
  Proof.
    intros HI Hf l. unfold finished in Hf. rewrite forallb_forall in Hf.
    assert (Hph : forall b B, nth_error (s_blks s) b = Some B -> k_phase B = length secs)
      by (intros b B HB; apply Nat.eqb_eq, Hf; eapply nth_error_In; eauto).
    destruct (step l s) eqn:Hs; auto. exfalso. destruct l as [b i|b].
    - apply thr_inv in Hs as [B [p [p' [act [HB [Hp [Ht _]]]]]]].
      destruct (HI b B HB) as [_ [_ [H3 _]]].
      unfold tstep in Ht. rewrite (H3 (Hph b B HB) i p Hp) in Ht. discriminate.
    - apply bar_inv in Hs as [B [HB [Hlt _]]]. apply Hph in HB. lia.
  Qed.

  Lemma gruns_runs sched s : gruns false E secs sched s = runs gst label step sched s.
  Proof. revert s; induction sched; simpl; intros; auto. destruct (step a s); auto. Qed.

  (* the check on the sections themselves is needed only to re-establish clause 2 when a block enters a section *)
  Section Checked.
  Hypothesis Hind : forall s, In s secs -> okS E (sec_wr s) false (sec_body s) = true.

  Lemma entry_ok q i ex lc : ok_priv E (Wof q) i {| p_ex := ex; p_lo := lc; p_k := sec_entry secs q |}.
  Proof.
    unfold ok_priv, sec_entry, Wof; simpl. destruct (nth_error secs q) eqn:Hq; simpl; auto.
    rewrite okS_mono; auto. apply Hind. eapply nth_error_In; eauto.
  Qed.

  Lemma entry_last : sec_entry secs (length secs) = [].
  Proof. unfold sec_entry. replace (nth_error secs (length secs)) with (@None section); auto.
         symmetry. apply nth_error_None. lia. Qed.

  Lemma Inv_upd s b B B' G' : Inv s -> nth_error (s_blks s) b = Some B -> blk_ok B' ->
    Inv {| s_G := G'; s_blks := upd b B' (s_blks s) |}.
  Proof.
    intros HI HB HB' c C HC. simpl in HC. destruct (Nat.eq_dec b c) as [->|Hne].
    - rewrite nth_error_upd_eq in HC by (eapply nth_error_lt; eauto). now injection HC as <-.
    - rewrite nth_error_upd_neq in HC by auto. eauto.
  Qed.

  Lemma Inv_step l s s' : Inv s -> step l s = Some s' -> Inv s'.
  Proof.
    intros HI H. destruct l as [b i|b].
    - apply thr_inv in H as [B [p [p' [act [HB [Hp [Ht ->]]]]]]]. apply (Inv_upd s b B); auto.
      destruct (HI b B HB) as [H1 [H2 [H3 H4]]]. split; [|split; [|split]]; simpl; auto.
      + rewrite upd_length; auto.
      + intros j q Hq. destruct (Nat.eq_dec i j) as [->|Hij].
        * rewrite nth_error_upd_eq in Hq by (eapply nth_error_lt; eauto). injection Hq as <-.
          eapply tstep_ok; eauto.
        * rewrite nth_error_upd_neq in Hq by auto. eauto.
      + intros Hph. specialize (H3 Hph i p Hp). unfold tstep in Ht. rewrite H3 in Ht. discriminate.
    - apply bar_inv in H as [B [HB [Hlt [Hnil ->]]]]. apply (Inv_upd s b B); auto.
      destruct (HI b B HB) as [H1 [H2 [H3 H4]]]. split; [|split; [|split]]; simpl; auto.
      + rewrite map_length; auto.
      + intros j q Hq. rewrite nth_error_map in Hq. destruct (nth_error (k_thr B) j); try discriminate.
        injection Hq as <-. apply entry_ok.
      + intros Hph j q Hq. rewrite nth_error_map in Hq. destruct (nth_error (k_thr B) j); try discriminate.
        injection Hq as <-. simpl. rewrite Hph. apply entry_last.
  Qed.

  Lemma finished_run_bounds s s1 s2 e1 e2 :
    Inv s -> gruns false E secs s1 s = Some e1 -> finished secs e1 = true -> gruns false E secs s2 s = Some e2 ->
    length s2 <= length s1 /\ (finished secs e2 = true -> e1 = e2).
  Proof.
    rewrite !gruns_runs. intros HI R1 F1 R2.
    assert (HInv : forall sched e, runs gst label step sched s = Some e -> Inv e)
      by (intros sched e; apply (runs_Inv gst label step Inv Inv_step); exact HI).
    destruct (complete_run_bounds gst label step Inv label_dec Inv_step diamond s2 s1 s e1 e2 HI R1) as [Hle Heq]; auto.
    - intros l. apply finished_terminal; eauto.
    - split; auto. intros F2. apply Heq. intros l. apply finished_terminal; eauto.
  Qed.
  End Checked.
End Block.
