(* C20/Model.v — (1) the launch model of the GPU back ends (CUDA, HIP, OpenCL, Metal, DPC++ translations of
   withLauncher.cpp: one kernel per outer-most @outer loop, @outer tuples = blocks, @inner tuples = threads,
   inner loops replaced by their bodies, a barrier between consecutive inner loops, @shared = one array per
   block, @exclusive and locals = per thread) as a labelled transition system: any thread of any block may take
   its next statement-level step; a block passes a barrier when all its threads have arrived;
   (2) the syntactic independence condition of the generator; (3) serial.cpp's @exclusive scheme
   (setupExclusiveIndices / defineExclusiveVariableAsArray). *)
From Coq Require Import List ZArith Bool Arith.
From OV.C20 Require Import Util Lang Spec.
Import ListNotations.
Open Scope Z_scope.

(* ------------------------------------------------------------------ (1) launch model *)

Record blk := { k_phase : nat; k_sh : mem; k_thr : list priv }.
Record gst := { s_G : mem; s_blks : list blk }.

Inductive label := LThr (b i : nat) | LBar (b : nat).

Definition label_dec (a b : label) : {a = b} + {a <> b}.
Proof. decide equality; apply Nat.eq_dec. Defined.

Definition is_nil {A} (l : list A) : bool := match l with [] => true | _ => false end.

Definition sec_entry (secs : list section) (q : nat) : list item :=
  match nth_error secs q with Some s => [IS (sec_body s)] | None => [] end.

Definition enter (secs : list section) (q : nat) (p : priv) : priv :=
  {| p_ex := p_ex p; p_lo := zero_store; p_k := sec_entry secs q |}.

Definition gstep (split : bool) (E : senv) (secs : list section) (l : label) (s : gst) : option gst :=
  match l with
  | LThr b i =>
    match nth_error (s_blks s) b with
    | Some B =>
      match nth_error (k_thr B) i with
      | Some p =>
        match tstep split E b i (s_G s) (k_sh B) p with
        | Some (p', act) =>
          Some {| s_G := apply_G act (s_G s);
                  s_blks := upd b {| k_phase := k_phase B; k_sh := apply_S act (k_sh B);
                                     k_thr := upd i p' (k_thr B) |} (s_blks s) |}
        | None => None
        end
      | None => None
      end
    | None => None
    end
  | LBar b =>
    match nth_error (s_blks s) b with
    | Some B =>
      if (k_phase B <? length secs)%nat && forallb (fun p => is_nil (p_k p)) (k_thr B)
      then Some {| s_G := s_G s;
                   s_blks := upd b {| k_phase := S (k_phase B); k_sh := k_sh B;
                                      k_thr := map (enter secs (S (k_phase B))) (k_thr B) |} (s_blks s) |}
      else None
    | None => None
    end
  end.

Definition init_thread (u : Z) (secs : list section) : priv :=
  {| p_ex := const_store u; p_lo := zero_store; p_k := sec_entry secs 0 |}.

Definition init_blk (E : senv) (u : Z) (ob : oblock) : blk :=
  {| k_phase := 0; k_sh := init_shared u ob; k_thr := repeat (init_thread u (ob_secs ob)) (e_mi E) |}.

Definition init_gst (E : senv) (u : Z) (ob : oblock) (no : nat) (G : mem) : gst :=
  {| s_G := G; s_blks := repeat (init_blk E u ob) no |}.

Fixpoint gruns (split : bool) (E : senv) (secs : list section) (sched : list label) (s : gst) : option gst :=
  match sched with
  | [] => Some s
  | l :: r => match gstep split E secs l s with Some s' => gruns split E secs r s' | None => None end
  end.

Definition finished (secs : list section) (s : gst) : bool :=
  forallb (fun B => Nat.eqb (k_phase B) (length secs)) (s_blks s).

(* launch of one outer block under a schedule: None when the schedule names a step that is not
   enabled or stops before every block has finished *)
Definition launch_oblock (split : bool) (v : env) (ob : oblock) (sched : list label) (G : mem) : option mem :=
  let E := mk_senv (v_args v) ob in
  match gruns split E (ob_secs ob) sched (init_gst E (v_uninit v) ob (extents (v_args v) (ob_odims ob)) G) with
  | Some s => if finished (ob_secs ob) s then Some (s_G s) else None
  | None => None
  end.

(* the launcher runs the kernels of the outer blocks one after the other *)
Fixpoint run_launch_gen (split : bool) (scheds : list (list label)) (k : kernel) (v : env) (G : mem) : option mem :=
  match k, scheds with
  | [], [] => Some G
  | ob :: k', sc :: scheds' =>
    match launch_oblock split v ob sc G with
    | Some G' => run_launch_gen split scheds' k' v G'
    | None => None
    end
  | _, _ => None
  end.

Definition run_launch := run_launch_gen false.

(* ------------------------------------------------------------------ (2) independence, syntactically *)

Section Ok.
  Variables (kinds : list gkind) (sst : list nat) (W : list nat).

  Definition memb (x : nat) (l : list nat) : bool := existsb (Nat.eqb x) l.

  Fixpoint ok_expr (e : expr) : bool :=
    match e with
    | EConst _ | ELoc _ | EExc _ | EOut _ | EInn _ | EArg _ => true
    | EBin _ a b => ok_expr a && ok_expr b
    | EModP a _ => ok_expr a
    | ERdG a i => (match nth a kinds KNone with KIn => true | _ => false end) && ok_expr i
    | ERdOwn a d => match nth a kinds KNone with KThr st => (d <? st)%nat | _ => false end
    | ERdSh s i => negb (memb s W) && ok_expr i
    | ERdShOwn s d => (d <? nth s sst 0)%nat
    end.

  Fixpoint ok_stmt (first : bool) (s : stmt) : bool :=
    match s with
    | SSkip => true
    | SSeq a b => ok_stmt first a && ok_stmt first b
    | SLoc _ e | SExc _ e => ok_expr e
    | SWrOwn a d e => (match nth a kinds KNone with KThr st => (d <? st)%nat | _ => false end) && ok_expr e
    | SWrBlk a d e => first && (match nth a kinds KNone with KBlk st => (d <? st)%nat | _ => false end) && ok_expr e
    | SWrSh s d e => memb s W && (d <? nth s sst 0)%nat && ok_expr e
    | SAtom a i e => (match nth a kinds KNone with KAtom => true | _ => false end) && ok_expr i && ok_expr e
    | SIf c a b => ok_expr c && ok_stmt first a && ok_stmt first b
    | SFirst s => ok_stmt true s
    | SFor _ _ s => ok_stmt first s
    end.
End Ok.

Definition independent_ob (ob : oblock) : bool :=
  forallb (fun sec => ok_stmt (ob_kinds ob) (map fst (ob_shared ob)) (sec_wr sec) false (sec_body sec)) (ob_secs ob).

Definition independent (k : kernel) : bool := forallb independent_ob k.

(* ------------------------------------------------------------------ (3) serial.cpp's @exclusive scheme *)

(* defineExclusiveVariableAsArray: the array gets the product of the inner extents when all are
   compile-time constants, else the product of @max_inner_dims when given, else `dflt` (1024 in the code) *)
Fixpoint known_dims (l : list bound) : option Z :=
  match l with
  | [] => Some 1
  | BConst z :: r => match known_dims r with Some p => Some (z * p) | None => None end
  | BArg _ :: _ => None
  end.

Definition excl_array_size (dflt : Z) (idims : list bound) (max_inner : option (list Z)) : Z :=
  match known_dims idims with
  | Some p => p
  | None => match max_inner with Some l => fold_left Z.mul l 1 | None => dflt end
  end.

(* setupExclusiveIndices: `_occa_exclusive_index = 0;` before the outer-most inner loop, `++_occa_exclusive_index;`
   as the last statement of the inner-most inner loop.  excl_trace lists the value of the index that each
   inner iteration (in loop order) uses for its accesses; the counter is the state threaded through. *)
Fixpoint excl_nest (dims : list nat) (cnt : nat) : list nat * nat :=
  match dims with
  | [] => ([cnt], S cnt)                       (* inner-most body: uses cnt, then ++cnt *)
  | d :: r =>
    (fix iter (k : nat) (cnt : nat) : list nat * nat :=
       match k with
       | O => ([], cnt)
       | S k' => let '(u1, c1) := excl_nest r cnt in
                 let '(u2, c2) := iter k' c1 in (u1 ++ u2, c2)
       end) d cnt
  end.

Definition excl_trace (dims : list nat) : list nat := fst (excl_nest dims 0).

(* a wrong variant: increment at the end of the OUTER-most inner loop *)
Fixpoint excl_nest_bad (dims : list nat) (cnt : nat) (top : bool) : list nat * nat :=
  match dims with
  | [] => ([cnt], cnt)
  | d :: r =>
    (fix iter (k : nat) (cnt : nat) : list nat * nat :=
       match k with
       | O => ([], cnt)
       | S k' => let '(u1, c1) := excl_nest_bad r cnt false in
                 let c1' := if top then S c1 else c1 in
                 let '(u2, c2) := iter k' c1' in (u1 ++ u2, c2)
       end) d cnt
  end.

(* the scheme with an explicit "increment at the end of this loop's body" flag per nesting level (the code sets it
   for the inner-most inner loop only); used to show what a second increment in a middle loop does *)
Fixpoint excl_nest_inc (dims : list (nat * bool)) (cnt : nat) : list nat * nat :=
  match dims with
  | [] => ([cnt], cnt)
  | (d, inc) :: r =>
    (fix iter (k : nat) (cnt : nat) : list nat * nat :=
       match k with
       | O => ([], cnt)
       | S k' => let '(u1, c1) := excl_nest_inc r cnt in
                 let c1' := if inc then S c1 else c1 in
                 let '(u2, c2) := iter k' c1' in (u1 ++ u2, c2)
       end) d cnt
  end.
