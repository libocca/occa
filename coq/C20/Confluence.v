(* C20/Confluence.v — deterministic labelled systems whose steps satisfy the diamond property on an
   invariant have a unique terminal state: every complete schedule ends in the same state, with the same length, and no
   schedule is longer (complete_run_bounds).
   (The permutation argument behind launch_eq_seq and omp_eq_serial.) *)
From Coq Require Import List.
Import ListNotations.

Section Confluence.
  Variables (S L : Type).
  Variable step : L -> S -> option S.
  Variable Inv : S -> Prop.
  Variable L_dec : forall a b : L, {a = b} + {a <> b}.

  Hypothesis Inv_step : forall l s s', Inv s -> step l s = Some s' -> Inv s'.
  Hypothesis diamond : forall t u s a b, Inv s -> t <> u ->
    step t s = Some a -> step u s = Some b ->
    exists c, step u a = Some c /\ step t b = Some c.

  (* strict runs: every scheduled label must be enabled *)
  Fixpoint runs (sched : list L) (s : S) : option S :=
    match sched with
    | [] => Some s
    | l :: r => match step l s with Some s' => runs r s' | None => None end
    end.

  Definition terminal (s : S) : Prop := forall l, step l s = None.

  Lemma runs_app a b s : runs (a ++ b) s = match runs a s with Some s' => runs b s' | None => None end.
  Proof. revert s; induction a; simpl; intros; auto. destruct (step a s); auto. Qed.

  Lemma runs_Inv sched s e : Inv s -> runs sched s = Some e -> Inv e.
  Proof.
    revert s; induction sched; simpl; intros s Hs H.
    - inversion H; subst; auto.
    - destruct (step a s) eqn:E; try discriminate. eauto.
  Qed.

  (* an enabled step can be pulled to the front of any complete run *)
  Lemma pull_front : forall sched s t a e,
    Inv s -> step t s = Some a -> runs sched s = Some e -> terminal e ->
    exists sched', runs sched' a = Some e /\ length sched = Datatypes.S (length sched').
  Proof.
    induction sched as [|u r IH]; simpl; intros s t a e Hs Ht Hr Hterm.
    - inversion Hr; subst. rewrite Hterm in Ht. discriminate.
    - destruct (step u s) as [b|] eqn:Hu; try discriminate.
      destruct (L_dec t u) as [->|Hne].
      + rewrite Ht in Hu. inversion Hu; subst. exists r. auto.
      + destruct (diamond t u s a b Hs Hne Ht Hu) as [c [Hc1 Hc2]].
        destruct (IH b t c e) as [r' [Hr' Hl]]; eauto.
        exists (u :: r'). simpl. rewrite Hc1. split; auto.
  Qed.

  Lemma complete_run_bounds : forall s2 s1 s e1 e2,
    Inv s -> runs s1 s = Some e1 -> terminal e1 -> runs s2 s = Some e2 ->
    length s2 <= length s1 /\ (terminal e2 -> e1 = e2 /\ length s1 = length s2).
  Proof.
    induction s2 as [|t r2 IH]; simpl; intros s1 s e1 e2 Hs H1 T1 H2.
    - split; [apply le_0_n|]. intros T2. inversion H2; subst e2.
      destruct s1 as [|u r1]; simpl in H1; [inversion H1; auto|]. rewrite T2 in H1. discriminate.
    - destruct (step t s) as [a|] eqn:Ht; try discriminate.
      destruct (pull_front s1 s t a e1 Hs Ht H1 T1) as [s1' [H1' Hl]].
      destruct (IH s1' a e1 e2 (Inv_step _ _ _ Hs Ht) H1' T1 H2) as [Hle Heq]. rewrite Hl. split.
      + apply le_n_S, Hle.
      + intros T2. destruct (Heq T2) as [-> ->]. auto.
  Qed.

  Theorem same_length : forall s1 s s2 e1 e2,
    Inv s -> runs s1 s = Some e1 -> terminal e1 -> runs s2 s = Some e2 -> terminal e2 -> length s1 = length s2.
  Proof.
    intros s1 s s2 e1 e2 Hs H1 T1 H2 T2. now apply (complete_run_bounds s2 s1 s e1 e2 Hs H1 T1 H2).
  Qed.
End Confluence.
