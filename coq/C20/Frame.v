(* C20/Frame.v — what one thread step may read and write when its code passes the syntactic check:
   frame lemmas for eval/tstep, the shape of the actions, and commutation of the actions of different threads. *)
From Coq Require Import List ZArith Lia Bool Arith.
From OV.C20 Require Import Util Lang Spec Model.
Import ListNotations.
Open Scope Z_scope.

Lemma lin_inj (x x' st d d' : Z) : 0 <= d < st -> 0 <= d' < st -> x * st + d = x' * st + d' -> x = x'.
Proof. intros. nia. Qed.

Lemma own_idx_inj E lo li lo' li' a d d' :
  (li < e_mi E)%nat -> (li' < e_mi E)%nat -> (d < gstride E a)%nat -> (d' < gstride E a)%nat ->
  own_idx E lo li a d = own_idx E lo' li' a d' -> lo = lo' /\ li = li'.
Proof.
  unfold own_idx; intros Hl Hl' Hd Hd' H.
  apply lin_inj in H; try lia.
  assert (Z.of_nat lo = Z.of_nat lo') by (apply lin_inj in H; lia). lia.
Qed.

Lemma blk_idx_inj E lo lo' a d d' :
  (d < gstride E a)%nat -> (d' < gstride E a)%nat -> blk_idx E lo a d = blk_idx E lo' a d' -> lo = lo'.
Proof. unfold blk_idx; intros Hd Hd' H. apply lin_inj in H; lia. Qed.

Lemma sh_idx_inj E li li' s d d' :
  (d < sstride E s)%nat -> (d' < sstride E s)%nat -> sh_idx E li s d = sh_idx E li' s d' -> li = li'.
Proof. unfold sh_idx; intros Hd Hd' H. apply lin_inj in H; lia. Qed.

Lemma wrap32_add_l a b : wrap32 (wrap32 a + b) = wrap32 (a + b).
Proof.
  assert (H : forall h m, ((a + h) mod m - h + b + h) mod m = (a + b + h) mod m).
  { intros h m. replace ((a + h) mod m - h + b + h) with ((a + h) mod m + b) by ring.
    rewrite Zplus_mod_idemp_l. f_equal. ring. }
  unfold wrap32. now rewrite H.
Qed.

Lemma add32_comm v w x : add32 (add32 x v) w = add32 (add32 x w) v.
Proof. unfold add32. rewrite !wrap32_add_l. f_equal. lia. Qed.

Definition agreeG (E : senv) (lo li : nat) (G G' : mem) : Prop :=
  (forall a, kind_of E a = KIn -> nth a G [] = nth a G' []) /\
  (forall a st d, kind_of E a = KThr st -> (d < st)%nat ->
     rd2 G a (own_idx E lo li a d) = rd2 G' a (own_idx E lo li a d)).

Definition agreeS (E : senv) (W : list nat) (li : nat) (S S' : mem) : Prop :=
  (forall s, memb s W = false -> nth s S [] = nth s S' []) /\
  (forall s d, (d < sstride E s)%nat -> rd2 S s (sh_idx E li s d) = rd2 S' s (sh_idx E li s d)).

Lemma agreeS_refl E W li S : agreeS E W li S S.
Proof. split; auto. Qed.

Definition okE (E : senv) (W : list nat) := ok_expr (e_kinds E) (e_sst E) W.
Definition okS (E : senv) (W : list nat) := ok_stmt (e_kinds E) (e_sst E) W.

Lemma kind_test_in E a :
  match nth a (e_kinds E) KNone with KIn => true | _ => false end = true -> kind_of E a = KIn.
Proof. unfold kind_of. destruct (nth a (e_kinds E) KNone); auto; discriminate. Qed.

Lemma kind_test_thr E a d :
  match nth a (e_kinds E) KNone with KThr st => (d <? st)%nat | _ => false end = true ->
  exists st, kind_of E a = KThr st /\ (d < st)%nat.
Proof.
  unfold kind_of. destruct (nth a (e_kinds E) KNone) as [|st| | |]; try discriminate.
  intros H. exists st. split; [reflexivity|now apply Nat.ltb_lt].
Qed.

Lemma eval_frame E W lo li G G' S S' ex lc e :
  okE E W e = true -> agreeG E lo li G G' -> agreeS E W li S S' ->
  eval E lo li G S ex lc e = eval E lo li G' S' ex lc e.
Proof.
  intros Hok [HG1 HG2] [HS1 HS2]. induction e; simpl in *; auto.
  - (* EBin *) apply andb_true_iff in Hok as [H1 H2]. rewrite IHe1, IHe2; auto.
  - (* EModP *) rewrite IHe; auto.
  - (* ERdG *) apply andb_true_iff in Hok as [H1 H2]. rewrite IHe; auto. unfold rd2.
    now rewrite (HG1 a (kind_test_in E a H1)).
  - (* ERdOwn *) destruct (kind_test_thr E a d Hok) as (st & K & Hd). now apply (HG2 a st d).
  - (* ERdSh *) apply andb_true_iff in Hok as [H1 H2]. rewrite IHe; auto. unfold rd2. rewrite (HS1 s); auto.
    apply negb_true_iff; auto.
  - (* ERdShOwn *) apply HS2. unfold sstride. apply Nat.ltb_lt; auto.
Qed.

Definition ok_item (E : senv) (W : list nat) (first : bool) (it : item) : bool :=
  match it with
  | IS s => okS E W first s
  | ILoop _ _ _ s => okS E W first s
  | IPend _ _ _ => false
  end.

Definition ok_priv (E : senv) (W : list nat) (li : nat) (p : priv) : Prop :=
  forallb (ok_item E W (Nat.eqb li 0)) (p_k p) = true.

Lemma okS_mono E W s : okS E W false s = true -> forall f, okS E W f s = true.
Proof.
  unfold okS. induction s; simpl; intros H f; auto.
  - (* SSeq *) apply andb_true_iff in H as [H1 H2]. rewrite IHs1, IHs2; auto.
  - (* SWrBlk: the one statement the flag forbids *) discriminate.
  - (* SIf *) apply andb_true_iff in H as [H1 H2]. apply andb_true_iff in H1 as [H0 H1]. rewrite H0, IHs1, IHs2; auto.
Qed.

Lemma tstep_frame E W lo li G G' S S' p :
  ok_priv E W li p -> agreeG E lo li G G' -> agreeS E W li S S' ->
  tstep false E lo li G S p = tstep false E lo li G' S' p.
Proof.
  unfold ok_priv, tstep. intros Hok HG HS.
  pose proof (fun e H => eval_frame E W lo li G G' S S' (p_ex p) (p_lo p) e H HG HS) as Hev.
  destruct (p_k p) as [|it k]; auto. simpl in Hok. apply andb_true_iff in Hok as [Hit Hk].
  destruct it as [s|j c n s|a i v]; auto.
  destruct s; simpl in Hit; unfold okS in Hit; simpl in Hit; auto;
    repeat match goal with H : _ && _ = true |- _ => apply andb_true_iff in H as [? ?] end;
    rewrite ?Hev by assumption; reflexivity.
Qed.

(* the global cells thread (lo, li) may store to *)
Definition owned (E : senv) (lo li a : nat) (i : Z) : Prop :=
  (exists st d, kind_of E a = KThr st /\ (d < st)%nat /\ i = own_idx E lo li a d) \/
  (exists st d, kind_of E a = KBlk st /\ (d < st)%nat /\ li = 0%nat /\ i = blk_idx E lo a d).

Definition allowed (E : senv) (W : list nat) (lo li : nat) (act : action) : Prop :=
  match act with
  | ANone => True
  | AWrG a i _ => owned E lo li a i
  | AAddG a _ _ => kind_of E a = KAtom
  | AWrS s i _ => memb s W = true /\ exists d, (d < sstride E s)%nat /\ i = sh_idx E li s d
  end.

Lemma tstep_ok E W lo li G S p p' act :
  ok_priv E W li p -> tstep false E lo li G S p = Some (p', act) ->
  ok_priv E W li p' /\ allowed E W lo li act.
Proof.
  unfold ok_priv, tstep. intros Hok H.
  destruct (p_k p) as [|it k]; try discriminate. simpl in Hok. apply andb_true_iff in Hok as [Hit Hk].
  destruct it as [s|j c n s|a i v].
  - destruct s; injection H as <- <-; simpl in *; unfold okS in *; simpl in Hit.
    + (* SSkip *) split; auto.
    + (* SSeq *) apply andb_true_iff in Hit as [Ha Hb]. split; auto. now rewrite Ha, Hb.
    + (* SLoc *) split; auto.
    + (* SExc *) split; auto.
    + (* SWrOwn *) apply andb_true_iff in Hit as [Hkind _]. split; auto. left.
      destruct (kind_test_thr E a d Hkind) as (st & K & Hd). exists st, d. auto.
    + (* SWrBlk *) apply andb_true_iff in Hit as [Hit _]. apply andb_true_iff in Hit as [Hfirst Hkind].
      split; auto. right.
      unfold kind_of. destruct (nth a (e_kinds E) KNone) as [| |st| |] eqn:K; try discriminate.
      exists st, d. repeat split; auto; [now apply Nat.ltb_lt|now apply Nat.eqb_eq].
    + (* SWrSh *) apply andb_true_iff in Hit as [Hit _]. apply andb_true_iff in Hit as [Hmem Hd].
      split; auto. split; auto. exists d. split; auto. unfold sstride. now apply Nat.ltb_lt.
    + (* SAtom *) apply andb_true_iff in Hit as [Hit _]. apply andb_true_iff in Hit as [Hkind _].
      split; auto. unfold kind_of. destruct (nth a (e_kinds E) KNone); try discriminate; auto.
    + (* SIf *) apply andb_true_iff in Hit as [Hit Hb]. apply andb_true_iff in Hit as [_ Ha].
      split; auto. destruct (eval _ _ _ _ _ _ _ c =? 0); [now rewrite Hb|now rewrite Ha].
    + (* SFirst *) split; auto. destruct (Nat.eqb li 0) eqn:E0; simpl; auto. unfold okS. rewrite Hit, Hk; auto.
    + (* SFor *) split; auto. now rewrite Hit.
  - simpl in Hit. destruct (c <? n); injection H as <- <-; simpl; split; auto.
    unfold okS in *. now rewrite Hit.
  - discriminate.
Qed.

Lemma owned_kind E lo li a i : owned E lo li a i -> kind_of E a <> KIn /\ kind_of E a <> KAtom.
Proof. intros [[st [d [K _]]]|[st [d [K _]]]]; rewrite K; split; discriminate. Qed.

Lemma owned_disjoint E lo li lo' li' a i i' :
  (lo, li) <> (lo', li') -> (li < e_mi E)%nat -> (li' < e_mi E)%nat ->
  owned E lo li a i -> owned E lo' li' a i' -> i <> i'.
Proof.
  intros Hne Hl Hl' [[st [d [K [Hd ->]]]]|[st [d [K [Hd [Hz ->]]]]]]
         [[st' [d' [K' [Hd' ->]]]]|[st' [d' [K' [Hd' [Hz' ->]]]]]] Heq; try congruence;
    assert (st' = st) by congruence; subst st'.
  - apply own_idx_inj in Heq; unfold gstride; rewrite ?K; auto. destruct Heq; subst; congruence.
  - apply blk_idx_inj in Heq; unfold gstride; rewrite ?K; auto. subst; congruence.
Qed.

Lemma allowed_agreeG E W lo li lo' li' act G :
  (lo, li) <> (lo', li') -> (li < e_mi E)%nat -> (li' < e_mi E)%nat ->
  allowed E W lo' li' act -> agreeG E lo li G (apply_G act G).
Proof.
  intros Hne Hl Hl' Hal. destruct act as [|a i v|a i v|s i v]; simpl; try now split.
  - simpl in Hal. split.
    + intros a0 K0. symmetry. apply nth_wr2_neq. intros ->. now apply owned_kind in Hal.
    + intros a0 st0 d0 K0 Hd0. symmetry. apply rd2_wr2_other.
      destruct (Nat.eq_dec a a0) as [->|]; auto. right.
      apply (owned_disjoint E lo' li' lo li a0); auto. left. exists st0, d0. auto.
  - simpl in Hal. unfold add2. split.
    + intros a0 K0. symmetry. apply nth_wr2_neq. congruence.
    + intros a0 st0 d0 K0 Hd0. symmetry. apply rd2_wr2_other. left. congruence.
Qed.

Lemma allowed_agreeS E W lo' li li' act S :
  li <> li' -> allowed E W lo' li' act -> agreeS E W li S (apply_S act S).
Proof.
  intros Hne Hal. destruct act as [|a i v|a i v|s i v]; simpl; try apply agreeS_refl.
  simpl in Hal. destruct Hal as [HW [d [Hd ->]]]. split.
  - intros s0 H0. symmetry. apply nth_wr2_neq. congruence.
  - intros s0 d0 Hd0. symmetry. apply rd2_wr2_other.
    destruct (Nat.eq_dec s s0) as [->|]; auto. right. intros Heq. apply sh_idx_inj in Heq; auto.
Qed.

(* S' is S for a thread of another block, apply_S act S for a thread of the same block *)
Lemma tstep_other E W W' lo li lo' li' act G S S' p :
  ok_priv E W li p -> (lo, li) <> (lo', li') -> (li < e_mi E)%nat -> (li' < e_mi E)%nat ->
  allowed E W' lo' li' act -> agreeS E W li S S' ->
  tstep false E lo li (apply_G act G) S' p = tstep false E lo li G S p.
Proof.
  intros Hok Hne Hl Hl' Hal HS. symmetry. apply (tstep_frame E W); auto.
  apply (allowed_agreeG E W' lo li lo' li'); auto.
Qed.

Lemma apply_G_comm E W W' lo li lo' li' a1 a2 G :
  (lo, li) <> (lo', li') -> (li < e_mi E)%nat -> (li' < e_mi E)%nat ->
  allowed E W lo li a1 -> allowed E W' lo' li' a2 ->
  apply_G a1 (apply_G a2 G) = apply_G a2 (apply_G a1 G).
Proof.
  intros Hne Hl Hl' H1 H2.
  destruct a1 as [|a i v|a i v|s i v]; destruct a2 as [|b j w|b j w|s' j w]; simpl; auto; simpl in H1, H2.
  - (* store / store *)
    apply wr2_comm. destruct (Nat.eq_dec a b) as [->|]; auto. right. eapply owned_disjoint; eauto.
  - (* store / atomic *)
    symmetry. apply add2_wr2_comm. left. intros ->. now apply owned_kind in H1.
  - (* atomic / store *)
    apply add2_wr2_comm. left. intros ->. now apply owned_kind in H2.
  - (* atomic / atomic *)
    apply add2_comm. intros. apply add32_comm.
Qed.

Lemma apply_S_comm E W W' lo li lo' li' a1 a2 S :
  li <> li' -> allowed E W lo li a1 -> allowed E W' lo' li' a2 ->
  apply_S a1 (apply_S a2 S) = apply_S a2 (apply_S a1 S).
Proof.
  intros Hne H1 H2.
  destruct a1 as [|a i v|a i v|s i v]; destruct a2 as [|b j w|b j w|s' j w]; simpl; auto; simpl in H1, H2.
  destruct H1 as [_ [d [Hd ->]]]. destruct H2 as [_ [d' [Hd' ->]]].
  apply wr2_comm. destruct (Nat.eq_dec s s') as [->|]; auto. right. intros Heq. apply sh_idx_inj in Heq; auto.
Qed.
