(* C20 — translated kernels compute what the OKL kernel means: the launch model of the GPU back ends and
   serial.cpp's @exclusive scheme against the sequential reading of the mini-OKL (Lang.v / Spec.v / Model.v). *)
From Coq Require Import List ZArith Bool Arith.
From OV.C20 Require Import Util Confluence Lang Spec Model Frame Diamond SeqRun Proofs Examples.
Import ListNotations.

(* launch_eq_seq.  For every kernel that passes the syntactic independence check, every argument list, every
   initial memory and EVERY complete schedule of the launch model (one schedule per outer block = per launched
   kernel; a schedule is any sequence of enabled steps "thread i of block b executes its next statement" /
   "block b passes its barrier" that ends with all blocks finished), the final global memory is the one of the
   sequential reading.  (DESIGN.md states it with an extra hypothesis in_bounds k env; it is not needed: memories
   are total here, out-of-range accesses read 0 / write nothing in both readings.  Spec.in_bounds is the executable
   check the tie uses to keep generated kernels inside their arrays.) *)
Theorem launch_eq_seq : forall (k : kernel) (v : env) (scheds : list (list label)) (G G' : mem),
  independent k = true -> run_launch scheds k v G = Some G' -> G' = run_seq k v G.
Proof. exact Proofs.launch_eq_seq. Qed.
Print Assumptions launch_eq_seq.

(* complete schedules exist (the statement above is not vacuous): the block-by-block, section-by-section,
   thread-by-thread schedule is complete and computes run_seq — for every kernel, independent or not *)
Theorem launch_complete_exists : forall (k : kernel) (v : env) (G : mem),
  exists scheds, run_launch scheds k v G = Some (run_seq k v G).
Proof. exact Proofs.launch_complete_exists. Qed.
Print Assumptions launch_complete_exists.

(* independent_commutes (proved, not assumed).  On every state reachable in the launch of an outer block that
   passes the check (Inv is preserved by every step and holds initially), two different enabled steps commute:
   taking them in either order is possible and leads to the same state. *)
Theorem independent_commutes : forall (v : env) (ob : oblock) (s a b : gst) (t u : label),
  independent_ob ob = true ->
  Inv (mk_senv (v_args v) ob) (ob_secs ob) s -> t <> u ->
  gstep false (mk_senv (v_args v) ob) (ob_secs ob) t s = Some a ->
  gstep false (mk_senv (v_args v) ob) (ob_secs ob) u s = Some b ->
  exists c, gstep false (mk_senv (v_args v) ob) (ob_secs ob) u a = Some c /\
            gstep false (mk_senv (v_args v) ob) (ob_secs ob) t b = Some c.
Proof.
  intros v ob s a b t u Hind HI Hne Ha Hb.
  eapply diamond; eauto.
Qed.
Print Assumptions independent_commutes.

Theorem independent_invariant : forall (v : env) (ob : oblock) (no : nat) (G : mem) (l : label) (s s' : gst),
  independent_ob ob = true ->
  Inv (mk_senv (v_args v) ob) (ob_secs ob) (init_gst (mk_senv (v_args v) ob) (v_uninit v) ob no G) /\
  (Inv (mk_senv (v_args v) ob) (ob_secs ob) s ->
   gstep false (mk_senv (v_args v) ob) (ob_secs ob) l s = Some s' -> Inv (mk_senv (v_args v) ob) (ob_secs ob) s').
Proof.
  intros v ob no G l s s' Hind. split.
  - apply init_Inv. apply independent_ob_okS; auto.
  - intros. eapply Inv_step; eauto using independent_ob_okS.
Qed.
Print Assumptions independent_invariant.

(* the statement machine of one thread agrees with the big-step reading of its inner-loop body *)
Theorem thread_machine_is_exec : forall (E : senv) (lo li : nat) (s : stmt) (st : bst) (k : list item),
  exists m, titer E lo li m (cfg_of st (IS s :: k)) = Some (cfg_of (exec E lo li s st) k).
Proof. intros. apply exec_steps. Qed.
Print Assumptions thread_machine_is_exec.

(* serial_exclusive_array_ok.  serial.cpp's scheme (index reset before the outer-most inner loop, incremented at the
   end of the inner-most inner loop) makes the inner iterations, in loop order, use the indices 0, 1, ..., P-1
   (P = product of the inner extents): pairwise distinct cells; all inside an array of `size` cells iff P <= size. *)
Theorem serial_exclusive_array_ok : forall (dims : list nat) (size : nat),
  excl_trace dims = seq 0 (prodn dims) /\
  NoDup (excl_trace dims) /\
  (Forall (fun i => i < size) (excl_trace dims) <-> prodn dims <= size).
Proof.
  intros. split; [apply excl_trace_spec|]. split; [rewrite excl_trace_spec; apply seq_NoDup|apply excl_in_bounds_iff].
Qed.
Print Assumptions serial_exclusive_array_ok.

(* when every inner extent is a literal, the array defineExclusiveVariableAsArray declares is exactly that long *)
Theorem serial_exclusive_const_dims_ok : forall (dflt : Z) (args : list Z) (idims : list bound) (maxd : option (list Z)),
  (forall z, In (BConst z) idims -> (0 <= z)%Z) -> known_dims idims <> None ->
  excl_trace (map (extent args) idims) = seq 0 (Z.to_nat (excl_array_size dflt idims maxd)).
Proof. exact Proofs.excl_const_dims_ok. Qed.
Print Assumptions serial_exclusive_const_dims_ok.

(* KNOWN FINDING excl_runtime_inner_gt_1024: with a run-time inner extent and no @max_inner_dims the array has
   1024 cells, and 1025 inner iterations use index 1024 *)
Theorem serial_exclusive_runtime_dims_refuted :
  exists (args : list Z), excl_array_size 1024 [BArg 0] None = 1024%Z /\
    In 1024 (excl_trace (map (extent args) [BArg 0])).
Proof.
  exists [1025%Z]. split; [reflexivity|]. rewrite excl_trace_spec. apply in_seq.
  split; [apply Nat.le_0_l|]. apply Nat.ltb_lt. vm_compute. reflexivity.
Qed.

(* incrementing in the outer-most inner loop instead reuses cells in a 2-D inner nest *)
Example excl_increment_in_outer_inner_loop_collides :
  fst (excl_nest_bad [2; 2] 0 true) = [0; 0; 1; 1] /\ excl_trace [2; 2] = [0; 1; 2; 3].
Proof. vm_compute. auto. Qed.

(* three nested inner loops 2 x 3 x 4: the code's scheme (increment in the inner-most loop only) uses 0..23; a second
   increment at the end of the middle loop reaches index 28 in arrays of 24 cells *)
Example excl_three_deep :
  excl_trace [2; 3; 4] = seq 0 24 /\
  fst (excl_nest_inc [(2, false); (3, false); (4, true)] 0) = excl_trace [2; 3; 4] /\
  list_max (fst (excl_nest_inc [(2, false); (3, true); (4, true)] 0)) = 28.
Proof. vm_compute. auto. Qed.

(* components of a linear index over three nested loops with extents 2, 3, 4: 17 = (1*3 + 1)*4 + 1 *)
Example comp_three_deep : map (fun k => comp [2; 3; 4]%Z k 17%Z) [0; 1; 2] = [1; 1; 1]%Z /\
                          map (fun k => comp [2; 3; 4]%Z k 23%Z) [0; 1; 2] = [1; 2; 3]%Z.
Proof. vm_compute. auto. Qed.

Example ex_independent : independent [ex_ob] = true.
Proof. vm_compute. reflexivity. Qed.

Example ex_seq_value : run_seq [ex_ob] ex_env ex_G = [[1; 2; 3; 4; 5; 6]; [8; 11; 8; 17; 20; 17]; [27]]%Z.
Proof. vm_compute. reflexivity. Qed.

Example ex_launch_reversed_schedule :
  hd_error ex_sched = Some (LThr 1 2) /\ run_launch [ex_sched] [ex_ob] ex_env ex_G = Some (run_seq [ex_ob] ex_env ex_G).
Proof. vm_compute. auto. Qed.

(* without independence the readings differ: every thread reads its neighbour's @shared cell in the inner loop
   that writes it *)
Definition dep_ob : oblock :=
  {| ob_odims := [BConst 1]; ob_idims := [BConst 3];
     ob_kinds := [KIn; KThr 1]; ob_shared := [(1, 3)];
     ob_secs := [ {| sec_wr := [0];
                     sec_body := SSeq (SWrSh 0 0 (EBin OAdd (EInn 0) (EConst 10)))
                                      (SWrOwn 1 0 (ERdSh 0 (EModP (EBin OAdd (EInn 0) (EConst 1)) 3))) |} ] |}.
Definition dep_env : env := {| v_args := []; v_uninit := 0%Z |}.
Definition dep_G : mem := [[0]; [0; 0; 0]]%Z.
Definition dep_E := mk_senv [] dep_ob.
Definition dep_sched := auto_sched 100 dep_E (ob_secs dep_ob) [LThr 0 2; LThr 0 1; LThr 0 0; LBar 0] (init_gst dep_E 0 dep_ob 1 dep_G).

Example independence_is_needed :
  independent [dep_ob] = false /\
  exists G', run_launch [dep_sched] [dep_ob] dep_env dep_G = Some G' /\ G' <> run_seq [dep_ob] dep_env dep_G.
Proof. split; [vm_compute; reflexivity|]. eexists. split; [vm_compute; reflexivity|]. vm_compute. discriminate. Qed.

(* the OpenCL/Metal finding at model level: when `@atomic x += v` is emitted as a plain `x += v` (a load step and a
   store step, split = true), a schedule loses an update *)
Definition at_ob : oblock :=
  {| ob_odims := [BConst 1]; ob_idims := [BConst 2]; ob_kinds := [KAtom]; ob_shared := [];
     ob_secs := [ {| sec_wr := []; sec_body := SAtom 0 (EConst 0) (EConst 5) |} ] |}.
Definition at_E := mk_senv [] at_ob.

Example plain_update_is_lost :
  run_seq [at_ob] dep_env [[0]]%Z = [[10]]%Z /\
  run_launch_gen true [[LThr 0 0; LThr 0 1; LThr 0 0; LThr 0 1; LBar 0]] [at_ob] dep_env [[0]]%Z = Some [[5]]%Z.
Proof. vm_compute. auto. Qed.
