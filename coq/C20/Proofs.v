(* C20/Proofs.v — launch_eq_seq: a complete schedule computing run_seq exists (SeqRun) and all complete schedules of a
   checked block agree (Diamond).  Then serial.cpp's @exclusive index scheme: it enumerates 0 .. P-1. *)
From Coq Require Import List ZArith Lia Bool Arith.
From OV.C20 Require Import Util Confluence Lang Spec Model Frame Diamond SeqRun.
Import ListNotations.
Open Scope nat_scope.

Lemma independent_ob_okS v ob : independent_ob ob = true ->
  forall s, In s (ob_secs ob) -> okS (mk_senv (v_args v) ob) (sec_wr s) false (sec_body s) = true.
Proof. unfold independent_ob. rewrite forallb_forall. intros H s Hs. apply (H s Hs). Qed.

Lemma init_Inv E u ob no G :
  (forall s, In s (ob_secs ob) -> okS E (sec_wr s) false (sec_body s) = true) ->
  Inv E (ob_secs ob) (init_gst E u ob no G).
Proof.
  intros Hind b B HB. simpl in HB. apply nth_error_In in HB. apply repeat_spec in HB. subst B.
  unfold blk_ok, init_blk; simpl. split; [apply repeat_length|]. split; [|split].
  - intros i p Hp. apply nth_error_In in Hp. apply repeat_spec in Hp. subst p. apply entry_ok; auto.
  - intros H0 i p Hp. apply nth_error_In in Hp. apply repeat_spec in Hp. subst p. simpl.
    destruct (ob_secs ob); simpl in *; auto; discriminate.
  - lia.
Qed.

Lemma seq_schedule_exists v ob G :
  exists sched, launch_oblock false v ob sched G = Some (seq_oblock v G ob).
Proof.
  unfold launch_oblock, seq_oblock. set (E := mk_senv (v_args v) ob).
  destruct (blocks_run E (v_uninit v) ob (extents (v_args v) (ob_odims ob)) [] G eq_refl) as [sched [s' [R [HG Hf]]]].
  exists sched. unfold init_gst. simpl in R. rewrite R, Hf, HG. reflexivity.
Qed.

Theorem launch_oblock_eq_seq v ob sched G G' :
  independent_ob ob = true -> launch_oblock false v ob sched G = Some G' -> G' = seq_oblock v G ob.
Proof.
  intros Hind HL. pose proof (independent_ob_okS v ob Hind) as Hok.
  unfold launch_oblock, seq_oblock in *. set (E := mk_senv (v_args v) ob) in *.
  set (no := extents (v_args v) (ob_odims ob)) in *.
  destruct (blocks_run E (v_uninit v) ob no [] G eq_refl) as (sched0 & e2 & R2 & HG & F2).
  destruct (gruns false E (ob_secs ob) sched _) as [e1|] eqn:R1; try discriminate.
  destruct (finished (ob_secs ob) e1) eqn:F1; try discriminate. injection HL as <-.
  destruct (finished_run_bounds E (ob_secs ob) Hok _ sched sched0 e1 e2 (init_Inv E _ ob no G Hok) R1 F1 R2) as [_ He].
  rewrite (He F2). exact HG.
Qed.

Theorem launch_eq_seq : forall k v scheds G G',
  independent k = true -> run_launch scheds k v G = Some G' -> G' = run_seq k v G.
Proof.
  unfold run_launch, run_seq, independent.
  induction k as [|ob k IH]; intros v scheds G G' Hind HL; destruct scheds as [|sc scheds]; simpl in *; try discriminate.
  - inversion HL; auto.
  - apply andb_true_iff in Hind as [H1 H2].
    destruct (launch_oblock false v ob sc G) as [G1|] eqn:HL1; try discriminate.
    apply launch_oblock_eq_seq in HL1; auto. subst G1. eapply IH; eauto.
Qed.

Theorem launch_complete_exists : forall k v G, exists scheds, run_launch scheds k v G = Some (run_seq k v G).
Proof.
  unfold run_launch, run_seq. induction k as [|ob k IH]; intros v G.
  - exists []. reflexivity.
  - destruct (seq_schedule_exists v ob G) as [sc Hsc]. destruct (IH v (seq_oblock v G ob)) as [scs Hscs].
    exists (sc :: scs). simpl. rewrite Hsc. exact Hscs.
Qed.

Definition prodn (l : list nat) : nat := fold_right Nat.mul 1 l.

Lemma prodn_S d r : prodn (S d :: r) = prodn r + prodn (d :: r).
Proof. reflexivity. Qed.

Lemma excl_nest_S d r cnt :
  excl_nest (S d :: r) cnt
  = let '(u1, c1) := excl_nest r cnt in let '(u2, c2) := excl_nest (d :: r) c1 in (u1 ++ u2, c2).
Proof. reflexivity. Qed.

Lemma excl_nest_spec : forall dims cnt, excl_nest dims cnt = (seq cnt (prodn dims), cnt + prodn dims).
Proof.
  induction dims as [|d r IH]; intros cnt.
  - simpl. f_equal. lia.
  - induction d in cnt |- *.
    + simpl. f_equal. lia.
    + rewrite excl_nest_S, IH, IHd, prodn_S, seq_app. f_equal. lia.
Qed.

Theorem excl_trace_spec dims : excl_trace dims = seq 0 (prodn dims).
Proof. unfold excl_trace. rewrite excl_nest_spec. reflexivity. Qed.

Lemma fold_left_mul l a : fold_left Nat.mul l a = a * prodn l.
Proof. revert a; induction l; simpl; intros. - lia. - rewrite IHl. lia. Qed.

Lemma extents_prodn args l : extents args l = prodn (map (extent args) l).
Proof. unfold extents. rewrite fold_left_mul. lia. Qed.

Lemma known_dims_extents args l : forall p, known_dims l = Some p ->
  (forall z, In (BConst z) l -> (0 <= z)%Z) -> Z.of_nat (prodn (map (extent args) l)) = p /\ (0 <= p)%Z.
Proof.
  induction l as [|b l IH]; simpl; intros p H Hnn.
  - inversion H. split; reflexivity || lia.
  - destruct b as [z|n]; try discriminate.
    destruct (known_dims l) as [q|] eqn:Hq; try discriminate. inversion H; subst.
    destruct (IH q eq_refl) as [H1 H2]; [intros; apply Hnn; auto|].
    assert (0 <= z)%Z by (apply Hnn; auto).
    unfold extent at 1. rewrite Nat2Z.inj_mul, H1, Z2Nat.id by auto. split; [auto|nia].
Qed.

(* the index scheme visits 0, 1, ..., (product of the inner extents) - 1: distinct cells, and in bounds
   exactly when the array is at least that long *)
Theorem excl_in_bounds_iff dims size :
  Forall (fun i => i < size) (excl_trace dims) <-> prodn dims <= size.
Proof.
  rewrite excl_trace_spec, Forall_forall. split.
  - intros H. destruct (prodn dims) as [|n] eqn:Hp; [lia|].
    specialize (H n). rewrite in_seq in H. lia.
  - intros H i Hi. rewrite in_seq in Hi. lia.
Qed.

Theorem excl_const_dims_ok dflt args idims maxd :
  (forall z, In (BConst z) idims -> (0 <= z)%Z) -> known_dims idims <> None ->
  excl_trace (map (extent args) idims) = seq 0 (Z.to_nat (excl_array_size dflt idims maxd)).
Proof.
  intros Hnn Hk. unfold excl_array_size. destruct (known_dims idims) as [p|] eqn:Hp; try congruence.
  destruct (known_dims_extents args idims p Hp Hnn) as [H1 H2].
  rewrite excl_trace_spec. f_equal. lia.
Qed.
