(* C25 — refinement: the cursor-walking path functions of the model compute what the nested-dictionary
   specification computes on the list of keys of the path. *)
From Coq Require Import List NArith ZArith Bool Lia.
From OV.C24 Require Import Model PBytes.
From OV.C25 Require Import Model Spec.
Import ListNotations.
Local Open Scope N_scope.

Definition keys (c : bytes) : list bytes := split_path true c.

Lemma at_end_keys : forall c, at_end c = true -> keys c = [].
Proof.
  intros [|x t] H; [reflexivity|]. cbn [at_end] in H. unfold keys, split_path. cbn [until_nul]. now rewrite H.
Qed.

Lemma until_nul_cstr : forall p, until_nul (p ++ [0]) = until_nul p.
Proof.
  induction p as [|x t IH]; [reflexivity|]. cbn [app until_nul]. destruct (x =? 0); [reflexivity | now rewrite IH].
Qed.

Lemma keys_cstr : forall p, keys (cstr p) = split_path true p.
Proof. intros; unfold keys, cstr, split_path. now rewrite until_nul_cstr. Qed.

Lemma cstr_fuel : forall p, (length (cstr p) < pfuel p)%nat.
Proof. intros; unfold cstr, pfuel. rewrite app_length. cbn. lia. Qed.

Lemma span_to_esc_spec : forall c k r, span_to_esc 47 92 c = (k, r) ->
  (length k + length r = length c)%nat /\
  match r with x :: _ => x = 47 \/ x = 0 | [] => True end /\
  (k = [] -> r = c).
Proof.
  intros c. induction c as [c IH] using (induction_ltof1 _ (@length N)); unfold ltof in IH. intros k r H.
  destruct c as [|x t]; cbn [span_to_esc] in H; [injection H as <- <-; auto|].
  destruct (N.eqb_spec x 0) as [->|_]; [injection H as <- <-; auto|].
  destruct (x =? 92).
  - destruct t as [|c1 t1]; [injection H as <- <-; repeat split; discriminate|].
    destruct (N.eqb_spec c1 0) as [->|_]; [injection H as <- <-; repeat split; auto; discriminate|].
    destruct (span_to_esc 47 92 t1) as [k1 r1] eqn:E. injection H as <- <-.
    destruct (IH t1 ltac:(cbn [length]; lia) k1 r1 E) as (Hl & Hr & _).
    cbn [length] in *. repeat split; [lia | exact Hr | discriminate].
  - destruct (N.eqb_spec x 47) as [->|_]; [injection H as <- <-; auto|].
    destruct (span_to_esc 47 92 t) as [k1 r1] eqn:E. injection H as <- <-.
    destruct (IH t ltac:(cbn [length]; lia) k1 r1 E) as (Hl & Hr & _).
    cbn [length] in *. repeat split; [lia | exact Hr | discriminate].
Qed.

(* `if ( *c == '/') ++c;` *)
Definition skip_slash (r : bytes) : bytes :=
  match r with x :: r' => if x =? 47 then r' else r | [] => r end.

Lemma split_esc_span : forall c acc,
  split_go true (until_nul c) (Some acc) =
    let '(k, r) := span_to_esc 47 92 c in (acc ++ k) :: keys (skip_slash r).
Proof.
  intros c. induction c as [c IH] using (induction_ltof1 _ (@length N)); unfold ltof in IH. intros acc.
  destruct c as [|x t]; cbn [span_to_esc until_nul]; [cbn; now rewrite app_nil_r|].
  destruct (N.eqb_spec x 0) as [->|Hx0]; [cbn; now rewrite app_nil_r|].
  destruct (N.eqb_spec x 92) as [->|Hx92].
  - destruct t as [|c1 t1]; [reflexivity|].
    cbn [until_nul]. destruct (N.eqb_spec c1 0) as [->|Hc1]; [reflexivity|].
    cbn [split_go N.eqb Pos.eqb andb].
    rewrite (IH t1 ltac:(cbn [length]; lia)).
    destruct (span_to_esc 47 92 t1) as [k1 r1]. now rewrite <- app_assoc.
  - destruct (N.eqb_spec x 47) as [->|Hx47].
    + cbn [split_go skip_slash N.eqb Pos.eqb]. now rewrite app_nil_r.
    + cbn [split_go]. apply N.eqb_neq in Hx47, Hx92. rewrite Hx47, Hx92. cbn [andb].
      rewrite (IH t ltac:(cbn [length]; lia)).
      destruct (span_to_esc 47 92 t) as [k1 r1]. now rewrite <- app_assoc.
Qed.

Lemma cursor_step : forall c,
  if at_end c then keys c = []
  else exists k c', next_key true c = (k, c') /\ keys c = k :: keys c' /\ (length c' < length c)%nat.
Proof.
  intros c. destruct (at_end c) eqn:H; [now apply at_end_keys|].
  destruct c as [|y t]; [discriminate|]. cbn [at_end] in H.
  pose proof (split_esc_span (y :: t) []) as Hs. cbn [until_nul] in Hs. rewrite H in Hs.
  unfold next_key. destruct (span_to_esc 47 92 (y :: t)) as [k r] eqn:E. fold (skip_slash r).
  exists k, (skip_slash r). split; [reflexivity|].
  split; [unfold keys, split_path; cbn [until_nul]; rewrite H; exact Hs|].
  destruct (span_to_esc_spec _ k r E) as (Hl & Hr & Hk). cbn [length] in *.
  destruct r as [|x r']; cbn [skip_slash length] in *; [lia|].
  destruct (N.eqb_spec x 47) as [->|Hx]; cbn [length]; [lia|].
  (* the scan stopped on the terminator, which is not where it started *)
  destruct Hr as [->| ->]; [congruence|].
  destruct k; [specialize (Hk eq_refl); injection Hk as <-; discriminate | cbn [length] in *; lia].
Qed.

(* C24's obj_find / obj_set / obj_erase are Spec.v's afind / aset / aerase at json (convertible: the `_abs`
   lemmas below are instances by `exact`) *)
Section MapValues.
  Variables (A B : Type) (g : A -> B).
  Notation fg := (fun kv : bytes * A => let '(k, x) := kv in (k, g x)).

  Lemma afind_map : forall k m, afind k (map fg m) = option_map g (afind k m).
  Proof.
    induction m as [|[k' v] m IH]; [reflexivity|].
    cbn [map afind]. destruct (bytes_eqb k k'); [reflexivity | exact IH].
  Qed.

  Lemma aset_map : forall k v m, map fg (aset k v m) = aset k (g v) (map fg m).
  Proof.
    induction m as [|[k' v'] m IH]; [reflexivity|].
    cbn [map aset]. destruct (bytes_ltb k k'); [reflexivity|].
    destruct (bytes_eqb k k'); [reflexivity|]. cbn [map]. now rewrite IH.
  Qed.

  Lemma aerase_map : forall k m, map fg (aerase k m) = aerase k (map fg m).
  Proof.
    induction m as [|[k' v'] m IH]; [reflexivity|].
    cbn [map aerase]. destruct (bytes_eqb k k'); [reflexivity|]. cbn [map]. now rewrite IH.
  Qed.
End MapValues.

Section MapAll.
  Variables (A : Type) (Q : A -> bool).
  Notation all := (forallb (fun kv : bytes * A => Q (snd kv))).

  Lemma forallb_afind : forall k x m, all m = true -> afind k m = Some x -> Q x = true.
  Proof.
    induction m as [|[k' x'] m IH]; intros H E; [discriminate|].
    cbn [forallb snd afind] in *. apply andb_true_iff in H as [H1 H2].
    destruct (bytes_eqb k k'); [now injection E as <- | now apply IH].
  Qed.

  Lemma forallb_aset : forall k x m, Q x = true -> all m = true -> all (aset k x m) = true.
  Proof.
    induction m as [|[k' x'] m IH]; intros Hx Hm; cbn [aset forallb snd] in *; [now rewrite Hx|].
    apply andb_true_iff in Hm as [H1 H2].
    destruct (bytes_ltb k k'); [cbn [forallb snd]; now rewrite Hx, H1, H2|].
    destruct (bytes_eqb k k'); cbn [forallb snd]; [now rewrite Hx, H2|]. now rewrite H1, IH.
  Qed.

  Lemma forallb_aerase : forall k m, all m = true -> all (aerase k m) = true.
  Proof.
    induction m as [|[k' x'] m IH]; intros Hm; [reflexivity|]. cbn [aerase forallb snd] in *.
    apply andb_true_iff in Hm as [H1 H2].
    destruct (bytes_eqb k k'); [exact H2|]. cbn [forallb snd]. now rewrite H1, IH.
  Qed.
End MapAll.

Section Refine.
  Variables F32 F64 : Type.
  Notation json := (json F32 F64).
  Notation dict := (dict F32 F64).
  Notation abs := (abs F32 F64).
  Notation f := (fun kv : bytes * json => let '(k, x) := kv in (k, abs x)).

  Lemma afind_abs : forall k m, afind k (map f m) = option_map abs (obj_find F32 F64 k m).
  Proof. exact (afind_map _ _ abs). Qed.

  Lemma aset_abs : forall k v m, map f (obj_set F32 F64 k v m) = aset k (abs v) (map f m).
  Proof. exact (aset_map _ _ abs). Qed.

  Lemma aerase_abs : forall k m, map f (obj_erase F32 F64 k m) = aerase k (map f m).
  Proof. exact (aerase_map _ _ abs). Qed.

  Lemma match_not_none : forall (A : Type) (v : json) (x y : A),
    is_none F32 F64 v = false -> match v with JNone => x | _ => y end = y.
  Proof. intros A v x y H. destruct v; try reflexivity. discriminate H. Qed.

  Lemma abs_undef : forall j, abs j = DUndef F32 F64 <-> j = JNone.
  Proof. intros j; split; [destruct j; discriminate || reflexivity | intros ->; reflexivity]. Qed.

  Notation m_has := (m_has F32 F64).
  Notation m_cget := (m_cget F32 F64).
  Notation m_getpath := (m_getpath F32 F64 false).
  Notation m_nc := (m_nc F32 F64).
  Notation m_index := (m_index F32 F64).
  Notation m_remove := (m_remove F32 F64).
  Notation m_merge := (m_merge F32 F64 false).
  Notation m_pluseq := (m_pluseq F32 F64 false).

  Lemma has_refines : forall fuel c j, (length c < fuel)%nat ->
    m_has fuel c j = MOk (d_has F32 F64 (keys c) (abs j)).
  Proof.
    induction fuel as [|fuel IH]; intros c j Hf; [lia|].
    cbn [Model.m_has]. pose proof (cursor_step c) as Hc.
    destruct (at_end c); [now rewrite Hc | destruct Hc as (k & c' & -> & -> & Hl)].
    destruct j; cbn [Spec.abs d_has]; try reflexivity.
    rewrite afind_abs. destruct (obj_find F32 F64 k m) as [j'|]; cbn [option_map];
      [apply IH; lia | reflexivity].
  Qed.

  Lemma cget_refines : forall fuel c j, (length c < fuel)%nat ->
    exists v, m_cget fuel c j = MOk v /\ abs v = d_get F32 F64 (keys c) (abs j).
  Proof.
    induction fuel as [|fuel IH]; intros c j Hf; [lia|].
    cbn [Model.m_cget]. pose proof (cursor_step c) as Hc.
    destruct (at_end c); [rewrite Hc; now exists j | destruct Hc as (k & c' & -> & -> & Hl)].
    destruct j; cbn [Spec.abs d_get]; try (exists JNone; split; reflexivity).
    rewrite afind_abs. destruct (obj_find F32 F64 k m) as [j'|]; cbn [option_map];
      [apply IH; lia | exists JNone; split; reflexivity].
  Qed.

  (* the two loops differ in `negb false` for `true` *)
  Lemma getpath_cget : forall fuel c j, m_getpath fuel c j = m_cget fuel c j.
  Proof. reflexivity. Qed.

  (* both refuse, or the value abstracts to the dictionary; MFuel agrees with nothing *)
  Definition res_abs (r : mres json) (o : option dict) : Prop :=
    match r, o with
    | MOk j', Some d' => abs j' = d'
    | MErr, None => True
    | _, _ => False
    end.

  (* the node the non-const operator[] stands on: a real one, or an object it has just created *)
  Definition nc_inv (ex : bool) (j : json) : Prop := if ex then j <> JNone else j = JObj [].
  Definition node_abs (ex : bool) (j : json) : dict := if ex then abs j else DUndef F32 F64.

  Lemma res_abs_set : forall r o key m, res_abs r o ->
    res_abs (match r with MOk ch => MOk (JObj (obj_set F32 F64 key ch m)) | MErr => MErr | MFuel => MFuel end)
         (match o with Some c => Some (DObj F32 F64 (aset key c (map f m))) | None => None end).
  Proof. intros [ch| |] [c|] key m H; cbn [res_abs] in *; trivial. cbn [Spec.abs]. now rewrite aset_abs, H. Qed.

  Lemma nc_refines : forall fuel c j ex k leaf, (length c < fuel)%nat -> nc_inv ex j ->
    (forall node, res_abs (k node) (leaf (abs node))) ->
    res_abs (m_nc fuel c j ex k) (d_write F32 F64 leaf (keys c) (node_abs ex j)).
  Proof.
    induction fuel as [|fuel IH]; intros c j ex k leaf Hf Hinv Hk; [lia|].
    cbn [Model.m_nc]. pose proof (cursor_step c) as Hc. destruct (at_end c).
    - rewrite Hc. cbn [d_write]. destruct ex; cbn [node_abs]; [apply Hk | apply (Hk JNone)].
    - destruct Hc as (key & c' & -> & -> & Hl).
      pose proof (fun x ex Hi => IH c' x ex k leaf ltac:(lia) Hi Hk) as IH'.
      destruct ex; cbn [nc_inv node_abs] in *.
      + destruct j as [| |p s|s|l|m]; cbn [Spec.abs d_write res_abs]; try exact I; [congruence|].
        rewrite afind_abs.
        (* the entry found, or the none value std::map::operator[] inserts; a none child becomes an object *)
        destruct (obj_find F32 F64 key m) as [child|]; cbn [option_map];
          [destruct (is_none F32 F64 child) eqn:Hn|].
        * destruct child; try discriminate Hn. exact (res_abs_set _ _ key m (IH' _ false eq_refl)).
        * rewrite (match_not_none _ _ _ _ Hn). apply res_abs_set, (IH' _ true). intros ->. discriminate Hn.
        * exact (res_abs_set _ _ key m (IH' _ false eq_refl)).
      + subst j. cbn [obj_find d_write]. exact (res_abs_set _ _ key [] (IH' _ false eq_refl)).
  Qed.

  Lemma index_refines : forall p j k leaf,
    (forall node, res_abs (k node) (leaf (abs node))) ->
    res_abs (m_index (pfuel p) (cstr p) j k) (d_write F32 F64 leaf (split_path true p) (abs j)).
  Proof.
    intros p j k leaf Hk. rewrite <- keys_cstr. pose proof (cstr_fuel p) as Hf.
    unfold Model.m_index.
    destruct j; [exact (nc_refines _ _ (JObj []) false k leaf Hf eq_refl Hk) | ..];
      refine (nc_refines _ _ _ true k leaf Hf _ Hk); discriminate.
  Qed.

  Lemma remove_refines : forall fuel c j, (length c < fuel)%nat ->
    res_abs (m_remove fuel c j) (Some (d_remove F32 F64 (keys c) (abs j))).
  Proof.
    induction fuel as [|fuel IH]; intros c j Hf; [lia|].
    cbn [Model.m_remove]. pose proof (cursor_step c) as Hc.
    destruct (at_end c); [now rewrite Hc | destruct Hc as (key & c' & -> & -> & Hl)].
    destruct j as [| |p s|s|l|m]; cbn [Spec.abs d_remove]; try reflexivity.
    specialize (IH c'). pose proof (cursor_step c') as Hc'. destruct (at_end c').
    - rewrite Hc'. cbn [res_abs Spec.abs]. now rewrite aerase_abs.
    - destruct Hc' as (k2 & c2 & _ & E & _). rewrite E in *.
      rewrite afind_abs. destruct (obj_find F32 F64 key m) as [ch|]; cbn [option_map]; [|reflexivity].
      apply (res_abs_set _ (Some _) key m), IH. lia.
  Qed.

  (* what one entry (key, val) of the right-hand side leaves under `key`, given the entry `old` found
     there: an object is merged into an object (`oldVal += val`), anything else replaces (`oldVal = val`) *)
  Definition mentry (old : option json) (val : json) : json :=
    match val, old with
    | JObj _, Some (JObj om) => m_merge (JObj om) val
    | _, _ => val
    end.

  Definition dentry (old : option dict) (bv : dict) : dict :=
    match bv, old with
    | DObj _ _ _, Some (DObj _ _ om) => d_merge F32 F64 (DObj F32 F64 om) bv
    | _, _ => bv
    end.

  Lemma m_merge_cons : forall am key val t,
    m_merge (JObj am) (JObj ((key, val) :: t)) =
    m_merge (JObj (obj_set F32 F64 key (mentry (obj_find F32 F64 key am) val) am)) (JObj t).
  Proof.
    intros. destruct val; try reflexivity.
    cbn [Model.m_merge is_obj andb mentry]. destruct (obj_find F32 F64 key am) as [[]|]; reflexivity.
  Qed.

  Lemma d_merge_cons : forall am k bv t,
    d_merge F32 F64 (DObj F32 F64 am) (DObj F32 F64 ((k, bv) :: t)) =
    d_merge F32 F64 (DObj F32 F64 (aset k (dentry (afind k am) bv) am)) (DObj F32 F64 t).
  Proof.
    intros. destruct bv; try reflexivity.
    cbn [d_merge dentry]. destruct (afind k am) as [[]|]; reflexivity.
  Qed.

  Lemma mentry_abs : forall old val, (forall a, abs (m_merge a val) = d_merge F32 F64 (abs a) (abs val)) ->
    abs (mentry old val) = dentry (option_map abs old) (abs val).
  Proof.
    intros old val H. destruct val; try reflexivity.
    destruct old as [[| | | | |om]|]; try reflexivity. exact (H (JObj om)).
  Qed.

  (* outer induction on b for the objects nested in it (`Hall`), inner on its entries, for every `am` *)
  Lemma merge_refines : forall b a, abs (m_merge a b) = d_merge F32 F64 (abs a) (abs b).
  Proof.
    induction b as [| |p src|s|l _|bm Hall] using (json_ind' F32 F64); intros a;
      try (destruct a; reflexivity).
    destruct a as [| |p s|s|l|am]; try reflexivity.
    revert am. induction Hall as [|[key val] t Hval _ IHt]; intros am; [reflexivity|].
    rewrite m_merge_cons, IHt. cbn [Spec.abs map]. rewrite d_merge_cons, aset_abs, afind_abs.
    now rewrite (mentry_abs _ val Hval).
  Qed.

  Lemma pluseq_refines : forall a b, res_abs (m_pluseq a b) (d_pluseq F32 F64 (abs a) b).
  Proof.
    intros a b. destruct b as [| |p s|s|l|bm]; cbn [Model.m_pluseq d_pluseq res_abs]; try exact I.
    - reflexivity.
    - (* b an object *) destruct a as [| |p s|s|l|am]; cbn [Spec.abs res_abs]; try exact I.
      + exact (merge_refines (JObj bm) (JObj [])).
      + reflexivity.
      + exact (merge_refines (JObj bm) (JObj am)).
  Qed.

  Notation m_step := (m_step F32 F64 false false).
  Notation m_run := (m_run F32 F64 false false).
  Notation s_step := (s_step F32 F64).
  Notation s_run := (s_run F32 F64).

  Lemma upd_refines : forall j r o, res_abs r o ->
    let '(j', x) := upd F32 F64 j r in supd F32 F64 (abs j) o = (abs j', abs_obs F32 F64 x).
  Proof.
    intros j r o H. destruct r as [j'| |], o as [d'|]; cbn [res_abs] in H; try contradiction; cbn [upd supd].
    - now subst.
    - reflexivity.
  Qed.

  Lemma upd_refused : forall j r, snd (upd F32 F64 j r) = VErr F32 F64 -> fst (upd F32 F64 j r) = j.
  Proof. intros j [j'| |] H; [discriminate H | reflexivity | reflexivity]. Qed.

  Lemma size_refines : forall j, m_size F32 F64 j = d_size F32 F64 (abs j).
  Proof. destruct j; cbn [m_size Spec.abs d_size leaf_size]; try reflexivity. now rewrite map_length. Qed.

  Lemma cget_cstr : forall p j,
    exists v, m_cget (pfuel p) (cstr p) j = MOk v /\ abs v = d_get F32 F64 (split_path true p) (abs j).
  Proof. intros p j. rewrite <- keys_cstr. apply cget_refines, cstr_fuel. Qed.

  Theorem step_refines : forall j o,
    let '(j', x) := m_step j o in s_step (abs j) o = (abs j', abs_obs F32 F64 x).
  Proof.
    intros j o. pose proof cstr_fuel as Hf.
    destruct o as [p|p d|p| |p|p v|k v|p|v|p v|p]; cbn [Model.m_step Spec.s_step].
    - (* OGet *) destruct (cget_cstr p j) as (v & -> & A). cbn [abs_obs]. now rewrite A.
    - (* OGetD *) unfold m_get. rewrite getpath_cget. destruct (cget_cstr p j) as (v & -> & A).
      cbn [abs_obs]. rewrite <- A. destruct v; reflexivity.
    - (* OHas *) rewrite has_refines, keys_cstr by apply Hf. reflexivity.
    - (* OSize *) cbn [abs_obs]. now rewrite size_refines.
    - (* OSizeAt *) destruct (cget_cstr p j) as (v & -> & A). cbn [abs_obs]. now rewrite size_refines, A.
    - (* OSet *) apply upd_refines. apply index_refines. intros node. reflexivity.
    - (* OSetKey *) cbn [abs_obs]. unfold m_setkey. cbn [Spec.abs]. rewrite aset_abs. destruct j; reflexivity.
    - (* ORemove *) rewrite <- keys_cstr. exact (upd_refines j _ _ (remove_refines _ _ j (Hf p))).
    - (* OMerge *) apply upd_refines. apply pluseq_refines.
    - (* OMergeAt *) apply upd_refines. apply index_refines. intros node. apply pluseq_refines.
    - (* OTouch *) apply upd_refines. apply index_refines. intros node. reflexivity.
  Qed.

  Theorem run_refines : forall ops j,
    let '(j', xs) := m_run j ops in s_run (abs j) ops = (abs j', map (abs_obs F32 F64) xs).
  Proof.
    induction ops as [|o t IH]; intros j; [reflexivity|].
    cbn [Model.m_run Spec.s_run]. pose proof (step_refines j o) as Hs.
    destruct (m_step j o) as [j1 x]. rewrite Hs. specialize (IH j1).
    destruct (m_run j1 t) as [j2 xs]. rewrite IH. reflexivity.
  Qed.

End Refine.
