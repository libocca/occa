(* C25 — JSON path access and merging follow nested-dictionary semantics.  Statements and closed examples;
   the two simulations behind them are in Proofs.v and HProofs.v.  Vocabulary: Model.v (m_step / m_run over
   `op`), Spec.v (`dict`, `split_path`, d_get / d_has / d_write / d_remove / d_merge, s_step / s_run, `abs`),
   and for the second half HModel.v (hm_step / hm_run over `hop`, `vis`, `run_safe`) with HProofs.wfh.

   Flags in argument order, `false` = repaired, `true` = pinned source: merge_has_path (fixes/C25-1.patch),
   get_no_escape (fixes/C25-2.patch) and, for the hidden model, set_no_clear (fixes/C25-3.patch); each
   pinned variant is refuted below. *)
From Coq Require Import List NArith ZArith Bool.
From OV.C24 Require Import Model.
From OV.C25 Require Import Model Spec Proofs HModel HProofs.
Import ListNotations.
Local Open Scope N_scope.

Section Statements.
  Variables F32 F64 : Type.
  Notation json := (json F32 F64).
  Notation op := (op F32 F64).

  (* MAIN (refinement over all histories): starting from a default-constructed json, for every finite
     history of operations over arbitrary paths and values, the model produces exactly the observations
     of the nested-dictionary specification, its final value is the specification's final dictionary,
     and, read off the equation, the model never runs out of fuel (a `VFuel` observation would be mapped
     to `SFuel`, which `s_step` never builds). *)
  Theorem refines_nested_dict : forall (ops : list op),
    let '(j', xs) := m_run F32 F64 false false JNone ops in
    s_run F32 F64 (DUndef F32 F64) ops = (abs F32 F64 j', map (abs_obs F32 F64) xs).
  Proof. intros ops. exact (run_refines F32 F64 ops JNone). Qed.

  Theorem refines_from_any_state : forall (ops : list op) (j : json),
    let '(j', xs) := m_run F32 F64 false false j ops in
    s_run F32 F64 (abs F32 F64 j) ops = (abs F32 F64 j', map (abs_obs F32 F64) xs).
  Proof. exact (run_refines F32 F64). Qed.

  Theorem step_simulation : forall (j : json) (o : op),
    let '(j', x) := m_step F32 F64 false false j o in
    s_step F32 F64 (abs F32 F64 j) o = (abs F32 F64 j', abs_obs F32 F64 x).
  Proof. exact (step_refines F32 F64). Qed.

  Definition is_read (o : op) : bool :=
    match o with
    | OGet _ _ _ | OGetD _ _ _ _ | OHas _ _ _ | OSize _ _ | OSizeAt _ _ _ => true
    | _ => false
    end.

  (* reads (const operator[], get with default, has, size) leave the value as it is, whatever the path:
     reading a missing path creates nothing (the model returns `(j, _)` because the C++ members are const) *)
  Theorem reads_are_pure : forall (b1 b2 : bool) (j : json) (o : op),
    is_read o = true -> fst (m_step F32 F64 b1 b2 j o) = j.
  Proof. intros b1 b2 j o H. destruct o; try discriminate; reflexivity. Qed.

  (* a refused write (a defined non-object value is in the way) changes nothing: by construction of
     `Model.upd`; why `upd` may keep the old value is argued in docs/notes/C25.md *)
  Theorem refused_write_changes_nothing : forall (b1 b2 : bool) (j : json) (o : op),
    snd (m_step F32 F64 b1 b2 j o) = VErr F32 F64 -> fst (m_step F32 F64 b1 b2 j o) = j.
  Proof.
    intros b1 b2 j o H. destruct o; try reflexivity; try exact (upd_refused F32 F64 j _ H).
    discriminate H.
  Qed.

  (* values with their hidden storage (HModel.v): a json keeps value_.object / .array / .string when a
     typed assignment (j = 5, j = "s", j = jsonArray, j = jsonObject, also through set(key, scalar) and
     j[path] = scalar) changes its type.  `hop` adds these assignments to the operations. *)
  Notation hop := (hop F32 F64).

  (* MAIN, hidden storage included (repaired json::set: set_no_clear = false): for every history, starting
     from a default-constructed json, the model that carries all members of every value produces the
     observations and the final dictionary of the specification; stale members are never observable.
     The proof (HProofs.v) uses the `type == object_` guard of every walker. *)
  Theorem refines_nested_dict_hidden : forall (ops : list hop),
    let '(h', xs) := hm_run F32 F64 false false false (hnone F32 F64) ops in
    s_run F32 F64 (DUndef F32 F64) (map (op_vis F32 F64) ops)
      = (abs F32 F64 (vis F32 F64 h'), map (abs_obs F32 F64) (map (vis_obs F32 F64) xs)).
  Proof.
    intros ops. exact (run_hidden_refines F32 F64 false ops (hnone F32 F64) eq_refl (run_safe_repaired F32 F64 ops _)).
  Qed.

  (* The pinned json::set (`type = object_` without clearing; set_no_clear = true).  FULL STATEMENT (false, see
     set_resurrects_stale_entries_refuted): the same as above with `true` for the last flag.
     Proved under the guard `run_safe`: every set(key, v) of the history is applied to a value that is an
     object, or undefined, or has no old entries. *)
  Theorem refines_nested_dict_hidden_partial : forall (ops : list hop),
    run_safe F32 F64 false false true (hnone F32 F64) ops = true ->
    let '(h', xs) := hm_run F32 F64 false false true (hnone F32 F64) ops in
    s_run F32 F64 (DUndef F32 F64) (map (op_vis F32 F64) ops)
      = (abs F32 F64 (vis F32 F64 h'), map (abs_obs F32 F64) (map (vis_obs F32 F64) xs)).
  Proof. intros ops. exact (run_hidden_refines F32 F64 true ops (hnone F32 F64) eq_refl). Qed.

  Theorem hidden_storage_unobservable : forall (nc : bool) (ops : list hop) (h : hj F32 F64),
    wfh F32 F64 h = true -> run_safe F32 F64 false false nc h ops = true ->
    let '(h', xs) := hm_run F32 F64 false false nc h ops in
    m_run F32 F64 false false (vis F32 F64 h) (map (op_vis F32 F64) ops)
      = (vis F32 F64 h', map (vis_obs F32 F64) xs).
  Proof. exact (run_hidden F32 F64). Qed.

End Statements.

Print Assumptions refines_nested_dict_hidden.
Print Assumptions refines_nested_dict_hidden_partial.
Print Assumptions hidden_storage_unobservable.
Print Assumptions refines_nested_dict.
Print Assumptions refines_from_any_state.
Print Assumptions step_simulation.
Print Assumptions reads_are_pure.
Print Assumptions refused_write_changes_nothing.

Notation tjson := (json unit unit).
Notation top := (op unit unit).
Definition I_ (z : Z) : tjson := JNum (PInt KI32 z) [].
Definition run_fixed (ops : list top) := m_run unit unit false false JNone ops.
Definition run_spec (ops : list top) := s_run unit unit (DUndef unit unit) ops.

(* a history that goes through most cases of the proof (not set(key, v), not j[p] += v): creation of
   intermediates, a refused write, reads of missing paths, remove, recursive merge with conflicting
   kinds, touch *)
Definition sample : list top :=
  [ OSet _ _ [97; 47; 98; 47; 99] (I_ 1);            (* j["a/b/c"] = 1 *)
    OGet _ _ [97; 47; 98];                            (* {"c": 1} *)
    OGet _ _ [97; 47; 120; 47; 121];                  (* missing: undefined, nothing created *)
    OHas _ _ [97; 47; 120];
    OSet _ _ [97; 47; 98; 47; 99; 47; 100] (I_ 2);    (* refused: a/b/c is a number *)
    OMerge _ _ (JObj [([97], JObj [([98], JObj [([100], I_ 3)]); ([101], I_ 4)])]);
    OMerge _ _ (JObj [([97], JObj [([98], I_ 5)])]);  (* conflicting kinds: the right-hand side wins *)
    OTouch _ _ [120; 47; 121];
    OHas _ _ [120]; OSize _ _;
    ORemove _ _ [97; 47; 101];
    OGetD _ _ [97; 47; 101] (I_ 9);
    OSizeAt _ _ [97] ].

Example sample_refines :
  run_spec sample = (abs unit unit (fst (run_fixed sample)), map (abs_obs unit unit) (snd (run_fixed sample))) /\
  snd (run_spec sample) =
    [ SUnit _ _; SVal _ _ (DObj _ _ [([99], DVal _ _ (I_ 1))]); SVal _ _ (DUndef _ _); SBool _ _ false; SErr _ _;
      SUnit _ _; SUnit _ _; SUnit _ _; SBool _ _ true; SInt _ _ 2%Z; SUnit _ _; SVal _ _ (DVal _ _ (I_ 9)); SInt _ _ 1%Z ].
Proof. split; vm_compute; reflexivity. Qed.

(* DESIGN section 8 #29: the non-const operator[] creates what it names.  It is specified as a write
   (touch); this is what the decision amounts to on the confirmed example: j["a/b"]; then has("a"),
   size() and the value itself show the new entries, while the same path read through the const
   operator[] shows nothing. *)
Example touch_creates_a_placeholder :
  run_fixed [OTouch _ _ [97; 47; 98]; OHas _ _ [97]; OSize _ _]
    = (JObj [([97], JObj [([98], JNone)])], [VUnit _ _; VBool _ _ true; VInt _ _ 1%Z]) /\
  run_fixed [OGet _ _ [97; 47; 98]; OHas _ _ [97]; OSize _ _]
    = (JNone, [VVal _ _ JNone; VBool _ _ false; VInt _ _ 0%Z]).
Proof. split; vm_compute; reflexivity. Qed.

(* the pinned mergeWithObject (has(key) parses the key as a path) loses the old entries of an object
   whose key contains '/' : {"a/b": {"x": 1}} += {"a/b": {"y": 2}} *)
Definition slash_history : list top :=
  [ OSetKey _ _ [97; 47; 98] (JObj [([120], I_ 1)]);
    OMerge _ _ (JObj [([97; 47; 98], JObj [([121], I_ 2)])]) ].

Theorem merge_key_as_path_refuted :
  abs unit unit (fst (m_run unit unit true false JNone slash_history)) <> fst (run_spec slash_history) /\
  fst (m_run unit unit true false JNone slash_history) = JObj [([97; 47; 98], JObj [([121], I_ 2)])] /\
  fst (run_fixed slash_history) = JObj [([97; 47; 98], JObj [([120], I_ 1); ([121], I_ 2)])].
Proof. split; [vm_compute; discriminate|]. split; vm_compute; reflexivity. Qed.

(* the pinned getPathValue (no backslash escape): a value written through j["a\\/b"] is not found by
   j.get("a\\/b", 9) *)
Definition escape_history : list top :=
  [ OSet _ _ [97; 92; 47; 98] (I_ 1); OGet _ _ [97; 92; 47; 98]; OGetD _ _ [97; 92; 47; 98] (I_ 9) ].

Theorem get_without_escape_refuted :
  map (abs_obs unit unit) (snd (m_run unit unit false true JNone escape_history)) <> snd (run_spec escape_history) /\
  snd (m_run unit unit false true JNone escape_history) = [VUnit _ _; VVal _ _ (I_ 1); VVal _ _ (I_ 9)] /\
  snd (run_fixed escape_history) = [VUnit _ _; VVal _ _ (I_ 1); VVal _ _ (I_ 1)].
Proof. split; [vm_compute; discriminate|]. split; vm_compute; reflexivity. Qed.

(* hidden storage.  j["a/b/c"] = 1; j["a/b"] = 5 (typed): the number at a/b still carries the entry c *)
Notation thop := (hop unit unit).
Definition stale_history : list thop :=
  [ HOp _ _ (OSet _ _ [97; 47; 98; 47; 99] (I_ 1));
    HSetT _ _ [97; 47; 98] (TVNum _ _ (PInt KI32 5));
    HOp _ _ (OHas _ _ [97; 47; 98; 47; 99]);
    HOp _ _ (OGet _ _ [97; 47; 98; 47; 99]);
    HOp _ _ (OSizeAt _ _ [97; 47; 98]) ].

Example stale_entries_are_kept_and_hidden :
  let '(h, xs) := hm_run unit unit false false false (hnone unit unit) stale_history in
  (* the hidden member is there ... *)
  (exists n s a, hm_cget unit unit 10 (cstr [97; 47; 98]) h
                 = MOk (HJ unit unit TNum n s a [([99], clean_of unit unit (I_ 1))])) /\
  (* ... and nothing shows it *)
  map (vis_obs unit unit) xs = [VUnit _ _; VUnit _ _; VBool _ _ false; VVal _ _ JNone; VInt _ _ 0%Z].
Proof. vm_compute. split; [eexists _, _, _; reflexivity | reflexivity]. Qed.

(* what the guard of json::has is for: the same walker without `if (j->type != object_) return false`
   (seeded/C25-b) answers true below the number *)
Example has_needs_its_type_guard :
  let h := fst (hm_run unit unit false false false (hnone unit unit) stale_history) in
  hm_has unit unit 10 (cstr [97; 47; 98; 47; 99]) h = MOk false /\
  hm_has_noguard unit unit 10 (cstr [97; 47; 98; 47; 99]) h = MOk true.
Proof. vm_compute. split; reflexivity. Qed.

(* the pinned json::set brings stale entries back: j["a"] = 1; j = "s" (typed, the root); j.set("k", 2) *)
Definition resurrect_history : list thop :=
  [ HOp _ _ (OSet _ _ [97] (I_ 1)); HSetT _ _ [] (TVStr _ _ [115]); HOp _ _ (OSetKey _ _ [107] (I_ 2)) ].

Theorem set_resurrects_stale_entries_refuted :
  vis unit unit (fst (hm_run unit unit false false true (hnone unit unit) resurrect_history))
    = JObj [([97], I_ 1); ([107], I_ 2)] /\
  fst (run_spec (map (op_vis unit unit) resurrect_history)) = DObj _ _ [([107], DVal _ _ (I_ 2))] /\
  run_safe unit unit false false true (hnone unit unit) resurrect_history = false /\
  vis unit unit (fst (hm_run unit unit false false false (hnone unit unit) resurrect_history)) = JObj [([107], I_ 2)].
Proof. repeat split; vm_compute; reflexivity. Qed.

Example split_path_examples :
  split_path true [97; 47; 98; 47; 99] = [[97]; [98]; [99]] /\          (* a/b/c *)
  split_path true [97; 47] = [[97]] /\                                    (* a/   : a trailing slash adds nothing *)
  split_path true [97; 47; 47; 98] = [[97]; []; [98]] /\                  (* a//b : an empty component *)
  split_path true [] = [] /\                                              (* the empty path is the value itself *)
  split_path true [97; 92; 47; 98] = [[97; 92; 47; 98]] /\                (* a\/b : one key, backslash kept *)
  split_path false [97; 92; 47; 98] = [[97; 92]; [98]] /\
  split_path true [97; 0; 47; 98] = [[97]].                               (* a C string ends at the NUL *)
Proof. repeat split; vm_compute; reflexivity. Qed.

Print Assumptions merge_key_as_path_refuted.
Print Assumptions get_without_escape_refuted.
Print Assumptions set_resurrects_stale_entries_refuted.
