(* C25 — the hidden storage of a json value is unobservable: the model on values with all their members
   (HModel.v) simulates the model on visible values (Model.v) through `vis`, for every history.
   Each lemma on a path walker uses the walker's `type == object_` guard exactly where the visible model
   says "not an object"; without a guard the stale `value_.object` of a scalar would be consulted and the
   statement would be false (seeded/C25-b). *)
From Coq Require Import List NArith ZArith Bool.
From OV.C24 Require Import Model PBytes.
From OV.C25 Require Import Model Spec Proofs HModel.
Import ListNotations.
Local Open Scope N_scope.

Section Hidden.
  Variables F32 F64 : Type.
  Notation json := (json F32 F64).
  Notation hj := (hj F32 F64).
  Notation vis := (vis F32 F64).
  Notation clean_of := (clean_of F32 F64).
  Notation fv := (fun kv : bytes * hj => let '(k, x) := kv in (k, vis x)).

  (* every undefined (none) node has an empty object member: none nodes are born clean (json(), the entry
     std::map::operator[] inserts) and the only way back to none is the end of operator[] on a node that
     was none a moment before *)
  Fixpoint wfh (h : hj) : bool :=
    match h with
    | HJ _ _ t _ _ _ o =>
        match t with TNone => match o with [] => true | _ => false end | _ => true end
        && forallb (fun kv => wfh (snd kv)) o
    end.

  Definition mres_map {A B : Type} (f : A -> B) (r : mres A) : mres B :=
    match r with MOk a => MOk (f a) | MErr => MErr | MFuel => MFuel end.

  Lemma find_vis : forall k o, obj_find F32 F64 k (map fv o) = option_map vis (afind k o).
  Proof. exact (afind_map _ _ vis). Qed.

  Lemma set_vis : forall k x o, map fv (aset k x o) = obj_set F32 F64 k (vis x) (map fv o).
  Proof. exact (aset_map _ _ vis). Qed.

  Lemma erase_vis : forall k o, map fv (aerase k o) = obj_erase F32 F64 k (map fv o).
  Proof. exact (aerase_map _ _ vis). Qed.

  Lemma vis_clean : forall v, vis (clean_of v) = v.
  Proof.
    induction v as [| |p s|s|l IHl|m IHm] using (json_ind' F32 F64); try reflexivity;
      cbn [HModel.clean_of HModel.vis]; f_equal; rewrite map_map.
    - induction IHl as [|x t Hx _ IHt]; cbn [map]; congruence.
    - induction IHm as [|[k x] t Hx _ IHt]; cbn [map snd] in *; congruence.
  Qed.

  Lemma wfh_clean : forall v, wfh (clean_of v) = true.
  Proof.
    induction v as [| |p s|s|l _|m IHm] using (json_ind' F32 F64); try reflexivity.
    cbn [HModel.clean_of wfh andb].
    induction IHm as [|[k x] t Hx _ IHt]; [reflexivity|]. cbn [map forallb snd] in *. now rewrite Hx.
  Qed.

  Lemma wfh_children : forall h, wfh h = true -> forallb (fun kv => wfh (snd kv)) (h_obj F32 F64 h) = true.
  Proof. intros [t n s a o] H. cbn [wfh h_obj] in *. now apply andb_true_iff in H as [_ H]. Qed.

  Lemma wfh_find : forall h k x, wfh h = true -> afind k (h_obj F32 F64 h) = Some x -> wfh x = true.
  Proof. intros h k x H. exact (forallb_afind _ wfh k x _ (wfh_children h H)). Qed.

  Lemma wfh_none_obj : forall h, wfh h = true -> is_tnone F32 F64 h = true -> h_obj F32 F64 h = [].
  Proof. intros [[] n s a o] H E; try discriminate E. now destruct o. Qed.

  Lemma vis_obj : forall h, is_tobj F32 F64 h = true -> vis h = JObj (map fv (h_obj F32 F64 h)).
  Proof. intros [[] n s a o] E; try discriminate E. reflexivity. Qed.

  Lemma is_tnone_vis : forall h, is_tnone F32 F64 h = is_none F32 F64 (vis h).
  Proof. intros [t n s a o]. destruct t; reflexivity. Qed.

  Lemma ty_set_obj : forall h o, h_ty F32 F64 (set_obj F32 F64 o h) = h_ty F32 F64 h.
  Proof. intros [t n s a o'] o. reflexivity. Qed.

  Lemma vis_none : forall h, is_tnone F32 F64 h = true -> vis h = JNone.
  Proof. intros [[] n s a o] E; try discriminate E. reflexivity. Qed.

  Lemma is_tobj_vis : forall h, is_tobj F32 F64 h = is_obj F32 F64 (vis h).
  Proof. intros [t n s a o]. destruct t; reflexivity. Qed.

  Lemma wfh_entry : forall h key, wfh h = true ->
    wfh (match afind key (h_obj F32 F64 h) with Some x => x | None => hnone F32 F64 end) = true.
  Proof.
    intros h key H. destruct (afind key (h_obj F32 F64 h)) eqn:E; [eapply wfh_find; eassumption | reflexivity].
  Qed.

  (* a result of the hidden model shows as r' to a reader of values, and is well formed (the reads and remove
     agree with the visible model on every value; operator[], set and += need `wfh` to agree at all) *)
  Definition shows (r : mres hj) (r' : mres json) : Prop :=
    mres_map vis r = r' /\ forall x, r = MOk x -> wfh x = true.

  Lemma shows_ok : forall x, wfh x = true -> shows (MOk x) (MOk (vis x)).
  Proof. intros x H. split; [reflexivity | now intros ? [= <-]]. Qed.

  Lemma shows_clean : forall v, shows (MOk (clean_of v)) (MOk v).
  Proof. intros v. pose proof (shows_ok _ (wfh_clean v)) as H. now rewrite vis_clean in H. Qed.

  Lemma shows_obj : forall h o, is_tobj F32 F64 h = true -> forallb (fun kv => wfh (snd kv)) o = true ->
    shows (MOk (set_obj F32 F64 o h)) (MOk (JObj (map fv o))).
  Proof. intros [[] n s a o'] o E H; try discriminate E. split; [reflexivity | now intros x [= <-]]. Qed.

  Lemma shows_set : forall j key r r', is_tobj F32 F64 j = true -> wfh j = true -> shows r r' ->
    shows (match r with
           | MOk ch => MOk (set_obj F32 F64 (aset key ch (h_obj F32 F64 j)) j)
           | MErr => MErr | MFuel => MFuel
           end)
          (match r' with
           | MOk ch' => MOk (JObj (obj_set F32 F64 key ch' (map fv (h_obj F32 F64 j))))
           | MErr => MErr | MFuel => MFuel
           end).
  Proof.
    intros j key r r' Ht Hw [<- Hx]. destruct r as [ch| |]; try (split; [reflexivity | discriminate]).
    cbn [mres_map]. rewrite <- set_vis. apply shows_obj; [exact Ht|].
    apply (forallb_aset _ wfh); [now apply Hx | now apply wfh_children].
  Qed.

  Lemma has_hidden : forall fuel c j, hm_has F32 F64 fuel c j = m_has F32 F64 fuel c (vis j).
  Proof.
    induction fuel as [|fuel IH]; intros c j; [reflexivity|].
    cbn [HModel.hm_has Model.m_has]. destruct (at_end c); [reflexivity|].
    destruct (is_tobj F32 F64 j) eqn:Ht.
    - rewrite (vis_obj j Ht). destruct (next_key true c) as [key c'].
      rewrite find_vis. destruct (afind key (h_obj F32 F64 j)); cbn [option_map]; [apply IH | reflexivity].
    - rewrite is_tobj_vis in Ht. destruct (vis j); try reflexivity. discriminate Ht.
  Qed.

  Lemma getpath_hidden : forall gne fuel c j,
    mres_map vis (hm_getpath F32 F64 gne fuel c j) = m_getpath F32 F64 gne fuel c (vis j).
  Proof.
    intros gne. induction fuel as [|fuel IH]; intros c j; [reflexivity|].
    cbn [HModel.hm_getpath Model.m_getpath]. destruct (at_end c); [reflexivity|].
    destruct (is_tobj F32 F64 j) eqn:Ht.
    - rewrite (vis_obj j Ht). destruct (next_key (negb gne) c) as [key c'].
      rewrite find_vis. destruct (afind key (h_obj F32 F64 j)); cbn [option_map]; [apply IH | reflexivity].
    - rewrite is_tobj_vis in Ht. destruct (vis j); try reflexivity. discriminate Ht.
  Qed.

  (* the const operator[] is getPathValue with the escape (Proofs.getpath_cget) *)
  Lemma cget_hidden : forall fuel c j,
    mres_map vis (hm_cget F32 F64 fuel c j) = m_cget F32 F64 fuel c (vis j).
  Proof. exact (getpath_hidden false). Qed.

  Lemma size_hidden : forall j, hm_size F32 F64 j = m_size F32 F64 (vis j).
  Proof. intros [t n s a o]. destruct t; cbn [hm_size h_ty h_str h_arr h_obj HModel.vis m_size]; try reflexivity; now rewrite map_length. Qed.

  (* a none node retagged as an object (`j->type = object_`) is an object without entries *)
  Lemma new_object : forall h, wfh h = true -> is_tnone F32 F64 h = true ->
    let h' := set_ty F32 F64 TObj h in
    wfh h' = true /\ h_obj F32 F64 h' = [] /\ vis h' = JObj [].
  Proof.
    intros h Hw Hn. pose proof (wfh_none_obj h Hw Hn) as Ho.
    destruct h as [[] n s a o]; try discriminate Hn. cbn [h_obj] in Ho. subst o. repeat split.
  Qed.

  (* `exists = false`: the node is an object the walker has just made out of a none, without entries, so it
     shows as `JObj []` (Proofs.nc_inv); a none node under `exists = true` fails the guard on both sides *)
  Lemma nc_hidden : forall fuel c j ex (k : hj -> mres hj) (k' : json -> mres json),
    wfh j = true -> (ex = false -> h_obj F32 F64 j = []) ->
    (forall node, wfh node = true -> shows (k node) (k' (vis node))) ->
    shows (hm_nc F32 F64 fuel c j ex k) (m_nc F32 F64 fuel c (vis j) ex k').
  Proof.
    induction fuel as [|fuel IH]; intros c j ex k k' Hwf Hex Hk; [split; [reflexivity | discriminate]|].
    cbn [HModel.hm_nc Model.m_nc]. destruct (at_end c).
    - destruct ex; [now apply Hk|].
      (* the object the walker made has no entries: it goes back to a none that is born clean *)
      specialize (Hex eq_refl). destruct j as [t n s a o]. cbn [h_obj] in Hex. subst o.
      exact (Hk (HJ F32 F64 TNone n s a []) eq_refl).
    - destruct (is_tobj F32 F64 j) eqn:Ht.
      + rewrite (vis_obj j Ht). destruct (next_key true c) as [key c']. rewrite find_vis.
        pose proof (wfh_entry j key Hwf) as Hcw.
        set (child := match afind key (h_obj F32 F64 j) with Some x => x | None => hnone F32 F64 end) in *.
        replace (match option_map vis (afind key (h_obj F32 F64 j)) with Some x => x | None => JNone end)
          with (vis child) by (subst child; destruct (afind key (h_obj F32 F64 j)); reflexivity).
        destruct (is_tnone F32 F64 child) eqn:Hcn.
        * (* a none entry: it becomes an (empty) object, exists = false *)
          rewrite (vis_none child Hcn).
          destruct (new_object child Hcw Hcn) as (Hw' & Ho' & <-).
          now apply (shows_set j key _ _ Ht Hwf), IH.
        * (* a real child, so the node has entries: exists = true *)
          assert (ex = true) as ->
            by (destruct ex; [reflexivity|]; subst child; rewrite (Hex eq_refl) in Hcn; discriminate).
          rewrite is_tnone_vis in Hcn. rewrite (match_not_none F32 F64 _ _ _ _ Hcn).
          apply (shows_set j key _ _ Ht Hwf), IH; [exact Hcw | discriminate | exact Hk].
      + split; [|discriminate]. rewrite is_tobj_vis in Ht. destruct (vis j); try reflexivity. discriminate Ht.
  Qed.

  Lemma index_hidden : forall fuel c j (k : hj -> mres hj) (k' : json -> mres json),
    wfh j = true ->
    (forall node, wfh node = true -> shows (k node) (k' (vis node))) ->
    shows (hm_index F32 F64 fuel c j k) (m_index F32 F64 fuel c (vis j) k').
  Proof.
    intros fuel c j k k' Hwf Hk. unfold hm_index, m_index.
    destruct (is_tnone F32 F64 j) eqn:Hn.
    - rewrite (vis_none j Hn).
      destruct (new_object j Hwf Hn) as (Hw' & Ho' & <-). now apply nc_hidden.
    - rewrite is_tnone_vis in Hn. rewrite (match_not_none F32 F64 _ _ _ _ Hn).
      apply nc_hidden; [exact Hwf | discriminate | exact Hk].
  Qed.

  Lemma remove_hidden : forall fuel c j, wfh j = true ->
    shows (hm_remove F32 F64 fuel c j) (m_remove F32 F64 fuel c (vis j)).
  Proof.
    induction fuel as [|fuel IH]; intros c j Hw; [split; [reflexivity | discriminate]|].
    cbn [HModel.hm_remove Model.m_remove]. destruct (at_end c); [now apply shows_ok|].
    destruct (is_tobj F32 F64 j) eqn:Ht.
    - rewrite (vis_obj j Ht). destruct (next_key true c) as [key c'].
      destruct (at_end c').
      + rewrite <- erase_vis. apply shows_obj; [exact Ht | now apply (forallb_aerase _ wfh), wfh_children].
      + rewrite find_vis. destruct (afind key (h_obj F32 F64 j)) as [ch|] eqn:Ef; cbn [option_map].
        * apply (shows_set j key _ _ Ht Hw), IH. eapply wfh_find; eassumption.
        * rewrite <- (vis_obj j Ht). now apply shows_ok.
    - rewrite is_tobj_vis in Ht.
      destruct (vis j) eqn:E; try (rewrite <- E; now apply shows_ok). discriminate Ht.
  Qed.

  Notation hm_merge := (hm_merge F32 F64 false).
  Notation hm_pluseq := (hm_pluseq F32 F64 false).

  Definition hentry (old : option hj) (val : json) : hj :=
    match val, old with
    | JObj _, Some old => if is_tobj F32 F64 old then hm_merge old val else clean_of val
    | _, _ => clean_of val
    end.

  Lemma hm_merge_cons : forall a key val t,
    hm_merge a (JObj ((key, val) :: t)) =
    hm_merge (set_obj F32 F64 (aset key (hentry (afind key (h_obj F32 F64 a)) val) (h_obj F32 F64 a)) a)
             (JObj t).
  Proof.
    intros [ty n s ar o] key val t. destruct val; try reflexivity.
    cbn [HModel.hm_merge h_obj set_obj hentry is_obj andb].
    destruct (afind key o) as [old|]; [destruct (is_tobj F32 F64 old)|]; reflexivity.
  Qed.

  Lemma hentry_shows : forall old val,
    (forall a, is_tobj F32 F64 a = true -> wfh a = true ->
               shows (MOk (hm_merge a val)) (MOk (m_merge F32 F64 false (vis a) val))) ->
    (forall x, old = Some x -> wfh x = true) ->
    shows (MOk (hentry old val)) (MOk (mentry F32 F64 (option_map vis old) val)).
  Proof.
    intros old val H Hw. destruct val; try apply shows_clean.
    destruct old as [old|]; [|apply shows_clean]. specialize (Hw old eq_refl).
    cbn [hentry option_map mentry]. destruct (is_tobj F32 F64 old) eqn:Ho.
    - specialize (H old Ho Hw). now rewrite (vis_obj old Ho) in *.
    - rewrite is_tobj_vis in Ho. destruct (vis old); try apply shows_clean. discriminate Ho.
  Qed.

  Lemma merge_hidden : forall b a, is_tobj F32 F64 a = true -> wfh a = true ->
    shows (MOk (hm_merge a b)) (MOk (m_merge F32 F64 false (vis a) b)).
  Proof.
    induction b as [| |p s|s|l _|bm Hall] using (json_ind' F32 F64); intros a Ha Hw;
      try (destruct a as [[] ? ? ? ?]; try discriminate Ha; now apply shows_ok).
    revert a Ha Hw. induction Hall as [|[key val] t Hval _ IHt]; intros a Ha Hw.
    - destruct a as [[] ? ? ? ?]; try discriminate Ha; now apply shows_ok.
    - rewrite hm_merge_cons, (vis_obj a Ha), m_merge_cons, find_vis.
      destruct (shows_set a key _ _ Ha Hw
                  (hentry_shows (afind key (h_obj F32 F64 a)) val Hval (fun x => wfh_find a key x Hw)))
        as [[= <-] Hw'].
      apply IHt; [unfold is_tobj; now rewrite ty_set_obj | now apply Hw'].
  Qed.

  Lemma pluseq_hidden : forall a b, wfh a = true ->
    shows (hm_pluseq a b) (m_pluseq F32 F64 false (vis a) b).
  Proof.
    intros a b Hw. destruct b as [| |p s|s|l|bm]; cbn [HModel.hm_pluseq Model.m_pluseq];
      try (split; [destruct (vis a); reflexivity | discriminate]).
    - now apply shows_ok.
    - destruct a as [t n s a o]. destruct t; cbn [h_ty HModel.vis]; try (split; [reflexivity | discriminate]).
      + pose proof (wfh_none_obj _ Hw eq_refl) as Ho. cbn [h_obj] in Ho. subst o.
        exact (merge_hidden (JObj bm) (HJ F32 F64 TObj n s a []) eq_refl Hw).
      + split; [|now intros x [= <-]].
        cbn [mres_map set_arr h_arr HModel.vis]. rewrite map_app. cbn [map]. now rewrite (vis_clean (JObj bm)).
      + exact (merge_hidden (JObj bm) (HJ F32 F64 TObj n s a o) eq_refl Hw).
  Qed.

  Lemma assign_typed_vis : forall t node, vis (assign_typed F32 F64 t node) = tval_json F32 F64 t.
  Proof.
    intros t [ty n s a o]. destruct t; try reflexivity;
      [exact (vis_clean (JArr l)) | exact (vis_clean (JObj m))].
  Qed.

  Lemma assign_typed_wf : forall t node, wfh node = true -> wfh (assign_typed F32 F64 t node) = true.
  Proof.
    intros t [ty n s a o] H. cbn [wfh] in H. apply andb_true_iff in H as [_ H].
    destruct t; try exact H. exact (wfh_clean (JObj m)).
  Qed.

  Lemma shows_assign_typed : forall t node, wfh node = true ->
    shows (MOk (assign_typed F32 F64 t node)) (MOk (tval_json F32 F64 t)).
  Proof.
    intros t node H. rewrite <- (assign_typed_vis t node). now apply shows_ok, assign_typed_wf.
  Qed.

  (* json::set retags the value and keeps its object member: what it showed if an object, else empty
     (a none is born clean, `set_safe` asks it of the rest) *)
  Lemma as_object : forall h, wfh h = true -> is_tobj F32 F64 h = true \/ h_obj F32 F64 h = [] ->
    let h' := set_ty F32 F64 TObj h in
    is_tobj F32 F64 h' = true /\ wfh h' = true /\
    map fv (h_obj F32 F64 h') = match vis h with JObj m => m | _ => [] end.
  Proof.
    intros [t n s a o] Hw [Ht|Ho].
    - destruct t; try discriminate Ht. now repeat split.
    - cbn [h_obj] in Ho. subst o. destruct t; now repeat split.
  Qed.

  Lemma setkey_hidden : forall noclear key (assign : hj -> hj) v j, wfh j = true ->
    negb noclear || set_safe F32 F64 j = true ->
    (forall e, wfh e = true -> shows (MOk (assign e)) (MOk v)) ->
    shows (MOk (hm_setkey F32 F64 noclear key assign j)) (MOk (m_setkey F32 F64 key v (vis j))).
  Proof.
    intros noclear key assign v j Hw Hsafe Ha. unfold hm_setkey, m_setkey, set_safe in *.
    set (j1 := if noclear || is_tobj F32 F64 j || is_tnone F32 F64 j then set_ty F32 F64 TObj j
               else HJ F32 F64 TObj (num0 F32 F64) [] [] []).
    assert (H1 : is_tobj F32 F64 j1 = true /\ wfh j1 = true /\
                 map fv (h_obj F32 F64 j1) = match vis j with JObj m => m | _ => [] end).
    { subst j1. destruct (is_tobj F32 F64 j) eqn:Ho; [rewrite orb_true_r; apply as_object; auto|].
      rewrite is_tobj_vis in Ho.
      destruct (is_tnone F32 F64 j) eqn:Hn; [rewrite orb_true_r | rewrite !orb_false_r; destruct noclear].
      - apply as_object; auto using wfh_none_obj.
      - apply as_object; [exact Hw | right; now destruct (h_obj F32 F64 j)].
      - destruct (vis j); now repeat split. }
    destruct H1 as (Ht & Hw1 & Hm).
    pose proof (shows_set j1 key _ _ Ht Hw1 (Ha _ (wfh_entry j1 key Hw1))) as Hs. now rewrite Hm in Hs.
  Qed.

  Notation hm_step := (hm_step F32 F64 false false).
  Notation m_step := (m_step F32 F64 false false).

  Lemma hupd_shows : forall j r r', wfh j = true -> shows r r' ->
    let '(j', x) := hupd F32 F64 j r in
    upd F32 F64 (vis j) r' = (vis j', vis_obs F32 F64 x) /\ wfh j' = true.
  Proof. intros j r r' Hw [<- Hx]. destruct r; cbn [hupd mres_map upd vis_obs]; auto. Qed.

  Theorem step_hidden : forall noclear j o, wfh j = true -> step_safe F32 F64 noclear j o = true ->
    let '(j', x) := hm_step noclear j o in
    m_step (vis j) (op_vis F32 F64 o) = (vis j', vis_obs F32 F64 x) /\ wfh j' = true.
  Proof.
    intros noclear j o Hw Hs.
    destruct o as [[p|p d|p| |p|p v|k v|p|v|p v|p]|p t|k t]; cbn [HModel.hm_step Model.m_step op_vis].
    - (* OGet *) rewrite <- cget_hidden.
      destruct (hm_cget F32 F64 (pfuel p) (cstr p) j); cbn [mres_map vis_obs]; auto.
    - (* OGetD *) unfold hm_get, m_get. rewrite <- getpath_hidden.
      destruct (hm_getpath F32 F64 false (pfuel p) (cstr p) j) as [x| |]; cbn [mres_map vis_obs]; auto.
      rewrite is_tnone_vis. destruct (is_none F32 F64 (vis x)); [now rewrite vis_clean | auto].
    - (* OHas *) rewrite has_hidden. destruct (m_has F32 F64 (pfuel p) (cstr p) (vis j)); cbn [vis_obs]; auto.
    - (* OSize *) cbn [vis_obs]. now rewrite size_hidden.
    - (* OSizeAt *) rewrite <- cget_hidden.
      destruct (hm_cget F32 F64 (pfuel p) (cstr p) j) as [x| |]; cbn [mres_map vis_obs]; auto.
      now rewrite size_hidden.
    - (* OSet *) apply hupd_shows, index_hidden; trivial. intros node _. apply shows_clean.
    - (* OSetKey: the step `(hm_setkey ..., HUnit)` is `hupd j (MOk (hm_setkey ...))` *)
      exact (hupd_shows j _ _ Hw (setkey_hidden noclear k _ v j Hw Hs (fun _ _ => shows_clean v))).
    - (* ORemove *) now apply hupd_shows, remove_hidden.
    - (* OMerge *) now apply hupd_shows, pluseq_hidden.
    - (* OMergeAt *) apply hupd_shows, index_hidden; trivial. intros node Hn. now apply pluseq_hidden.
    - (* OTouch *) apply hupd_shows, index_hidden; trivial. intros node Hn. now apply shows_ok.
    - (* HSetT *) apply hupd_shows, index_hidden; trivial. intros node Hn. now apply shows_assign_typed.
    - (* HSetKeyT, as OSetKey *)
      exact (hupd_shows j _ _ Hw (setkey_hidden noclear k _ _ j Hw Hs (shows_assign_typed t))).
  Qed.

  Theorem run_hidden : forall noclear ops j,
    wfh j = true -> run_safe F32 F64 false false noclear j ops = true ->
    let '(j', xs) := hm_run F32 F64 false false noclear j ops in
    m_run F32 F64 false false (vis j) (map (op_vis F32 F64) ops) = (vis j', map (vis_obs F32 F64) xs).
  Proof.
    intros noclear ops. induction ops as [|o t IH]; intros j Hw Hs; [reflexivity|].
    cbn [run_safe] in Hs. apply andb_true_iff in Hs as [Hs1 Hs2].
    cbn [HModel.hm_run Model.m_run map]. pose proof (step_hidden noclear j o Hw Hs1) as Hstep.
    destruct (hm_step noclear j o) as [j1 x]. destruct Hstep as [Hstep Hw1]. rewrite Hstep.
    cbn [fst] in Hs2. specialize (IH j1 Hw1 Hs2).
    destruct (hm_run F32 F64 false false noclear j1 t) as [j2 xs]. rewrite IH. reflexivity.
  Qed.

  Lemma run_safe_repaired : forall ops j, run_safe F32 F64 false false false j ops = true.
  Proof.
    induction ops as [|o t IH]; intros j; [reflexivity|].
    cbn [run_safe]. rewrite IH. destruct o as [[]| |]; reflexivity.
  Qed.

  Theorem run_hidden_refines : forall noclear ops j,
    wfh j = true -> run_safe F32 F64 false false noclear j ops = true ->
    let '(j', xs) := hm_run F32 F64 false false noclear j ops in
    s_run F32 F64 (abs F32 F64 (vis j)) (map (op_vis F32 F64) ops)
      = (abs F32 F64 (vis j'), map (abs_obs F32 F64) (map (vis_obs F32 F64) xs)).
  Proof.
    intros noclear ops j Hw Hs. pose proof (run_hidden noclear ops j Hw Hs) as H.
    destruct (hm_run F32 F64 false false noclear j ops) as [j' xs].
    pose proof (run_refines F32 F64 (map (op_vis F32 F64) ops) (vis j)) as R. now rewrite H in R.
  Qed.

End Hidden.
