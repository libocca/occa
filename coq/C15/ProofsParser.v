(* C15: the shunting-yard of expressionParser.cpp, run on the tokens of a tree in `wfE`, rebuilds the tree (this
   inclusion only: that every tree the parser returns is in `wfE` is not shown).
   Fragment: atoms, prefix operators ! ~ + - * & ++ --, postfix ++ --, the binary operators the tokenizer knows,
   parentheses, calls, subscripts.

   Proof idea.  After the tokens of a tree t have been consumed on top of stacks (out0, ops0), the stacks are
   (sp_out t ++ out0, sp_ops t ++ ops0): the pending right spine of t (`consumes`); applying the pending operators rebuilds
   t (`rebuild`).  This holds when the token before t is one after which an operand may start (`prev_ok`): there every
   operator is a prefix operator and a bracket opens a parenthesised expression, so W_left and W_paren need no condition on
   the neighbours; after an operand (W_bin, W_right) the ambiguous spellings + - * & ++ -- :: are resolved by
   operatorIsLeftUnary from the neighbouring tokens, hence `amb_ok` and `right_next_ok`.  The other premises of `wfE`:
   a parent operator pops all pending operators of its left operand (`allpop`), no operator on the left spine of its right
   operand pops it (`nop_ok`), by the precedence and associativity of the regenerated table. *)
From Coq Require Import List ZArith Bool.
From OV.C12 Require Import OpDefs Model Spec ProofsRoundtrip.   (* Spec: oper_eqb; ProofsRoundtrip: oper_eqb_eq, in_ops_of_eqb *)
From OV.C15 Require Import Model.
From OV.gen Require Import C12_OpTable C15_Flags.
Import ListNotations.
Local Open Scope Z_scope.

(* the operator the tokenizer produces for o's spelling, before updateOperatorToken re-types it (the second branch is
   never taken for binops, leftops, rightops) *)
Definition lexop (o : oper) : oper :=
  match find (fun x => list_eqb (op_sym x) (op_sym o)) tokenizer_ops with
  | Some x => x
  | None => o
  end.

Definition binops : list oper :=
  filter (fun o => (op_class o =? 2) && existsb (fun x => list_eqb (op_sym x) (op_sym o)) tokenizer_ops) all_ops.
Definition leftops : list oper :=
  [op_not_; op_tilde; op_positive; op_negative; op_dereference; op_address; op_leftIncrement; op_leftDecrement].
Definition rightops : list oper := [op_rightIncrement; op_rightDecrement].
Definition lpar := op_parenthesesStart.
Definition rpar := op_parenthesesEnd.
Definition lbrk := op_bracketStart.
Definition rbrk := op_bracketEnd.

Definition opt_is (x : option oper) (b : oper) : bool :=
  match x with Some a => oper_eqb a b | None => false end.

(* the spelling-to-operator map of updateOperatorToken *)
Definition resolve (o : oper) (lu : bool) : option oper :=
  let t := op_type o in
  if is t ot_plus then Some (if lu then op_positive else op_add)
  else if is t ot_minus then Some (if lu then op_negative else op_sub)
  else if is t ot_asterisk then Some (if lu then op_dereference else op_mult)
  else if is t ot_ampersand then Some (if lu then op_address else op_bitAnd)
  else if is t ot_increment then Some (if lu then op_leftIncrement else op_rightIncrement)
  else if is t ot_decrement then Some (if lu then op_leftDecrement else op_rightDecrement)
  else if is t ot_scope then Some (if lu then op_globalScope else op_scope)
  else None.

Lemma updateOperator_eq : forall prev next o,
  updateOperator prev next o =
  if negb (is (op_type o) ot_ambiguous) then Some o
  else match operatorIsLeftUnary prev next o with None => None | Some lu => resolve o lu end.
Proof. reflexivity. Qed.

Definition opish (t : option ptok) : bool := is (optype_of t) (ot_or ot_unary ot_binary).
Definition only_unary (o : oper) : bool := is (op_type o) (ot_or ot_increment ot_decrement).
Definition chainable : optype := ot_or (ot_or ot_increment ot_decrement) ot_parentheses.

(* per class: `resolve`, given the answer operatorIsLeftUnary is to give, turns what `lexop` yields back into the
   operator; and the type bits applyOperator and operatorIsLeftUnary branch on *)
Definition bin_fact (b : oper) : bool :=
  let l := lexop b in
  negb (is (op_type l) ot_pairStart) && negb (is (op_type l) ot_pairEnd)
  && (if is (op_type l) ot_ambiguous then negb (only_unary l) && opt_is (resolve l false) b else oper_eqb l b)
  && is (op_type b) ot_binary && negb (is (op_type b) ot_pairStart) && negb (is (op_type b) ot_unary)
  && negb (is (op_type b) ot_leftUnary).
Definition left_fact (u : oper) : bool :=
  let l := lexop u in
  negb (is (op_type l) ot_pairStart) && negb (is (op_type l) ot_pairEnd)
  && (if is (op_type l) ot_ambiguous then opt_is (resolve l true) u else oper_eqb l u)
  && negb (is (op_type u) ot_binary) && is (op_type u) ot_leftUnary && negb (is (op_type u) ot_special)
  && negb (is (op_type u) ot_colon) && negb (is (op_type u) ot_pairStart)
  && is (op_type u) (ot_or ot_unary ot_binary).
Definition right_fact (r : oper) : bool :=
  let l := lexop r in
  negb (is (op_type l) ot_pairStart) && negb (is (op_type l) ot_pairEnd)
  && is (op_type l) ot_ambiguous && only_unary l && opt_is (resolve l false) r
  && negb (is (op_type r) ot_binary) && negb (is (op_type r) ot_leftUnary) && is (op_type r) ot_rightUnary
  && negb (is (op_type r) ot_pairStart) && is (op_type r) (ot_or ot_unary ot_binary).

Lemma bin_facts : forallb bin_fact binops = true. Proof. vm_compute. reflexivity. Qed.
Lemma left_facts : forallb left_fact leftops = true. Proof. vm_compute. reflexivity. Qed.
Lemma right_facts : forallb right_fact rightops = true. Proof. vm_compute. reflexivity. Qed.

(* output and operator stack, back first, after the tokens of t on empty stacks *)
Fixpoint sp_out (t : expr) : list expr :=
  match t with
  | ELeft _ e => sp_out e
  | EBin _ l r => sp_out r ++ [l]
  | ERight _ e => [e]
  | _ => [t]
  end.
Fixpoint sp_ops (t : expr) : list oper :=
  match t with
  | ELeft o e => sp_ops e ++ [o]
  | EBin o _ r => sp_ops r ++ [o]
  | ERight o _ => [o]
  | _ => []
  end.
(* the operators of t that arrive while the top of the stack is still what was below t *)
Fixpoint lspine (t : expr) : list oper :=
  match t with
  | ELeft o _ => [o]
  | EBin o l _ => o :: lspine l
  | ERight o e => o :: lspine e
  | _ => []
  end.

(* the tokens of t as the tokenizer gives them *)
Fixpoint toks (t : expr) : list ptok :=
  match t with
  | EAtom a => [PAtom a]
  | ELeft o e => POp (lexop o) :: toks e
  | ERight o e => toks e ++ [POp (lexop o)]
  | EBin o l r => toks l ++ POp (lexop o) :: toks r
  | EParen e => POp lpar :: toks e ++ [POp rpar]
  | ECall f a => toks f ++ POp lpar :: toks a ++ [POp rpar]
  | ESub a i => toks a ++ POp lbrk :: toks i ++ [POp rbrk]
  | _ => []
  end.

(* the last token as the parser remembers it (prevToken, re-typed), and the first token as the tokenizer gives it;
   the values outside the fragment are arbitrary *)
Fixpoint lastu (t : expr) : ptok :=
  match t with
  | EAtom a => PAtom a
  | ELeft _ e => lastu e
  | ERight o _ => POp o
  | EBin _ _ r => lastu r
  | EParen _ => POp rpar
  | ECall _ _ => POp rpar
  | ESub _ _ => POp rbrk
  | _ => POp rpar
  end.
Fixpoint first (t : expr) : ptok :=
  match t with
  | EAtom a => PAtom a
  | ELeft o _ => POp (lexop o)
  | ERight _ e => first e
  | EBin _ l _ => first l
  | EParen _ => POp lpar
  | ECall f _ => first f
  | ESub a _ => first a
  | _ => POp lpar
  end.

(* q, arriving, pops p (the test of applyFasterOperators) *)
Definition pops (q p : oper) : bool :=
  (op_prec p <? op_prec q) || ((op_prec q =? op_prec p) && assoc_left (op_prec p)).
Definition base_ok (q : oper) (stack : list oper) : bool :=
  match stack with
  | [] => true
  | p :: _ => is (op_type p) ot_pairStart || negb (pops q p)
  end.
Definition nop_ok (stack : list oper) (t : expr) : bool := forallb (fun q => base_ok q stack) (lspine t).
Definition allpop (q : oper) (t : expr) : bool := forallb (pops q) (sp_ops t).

Definition is_rightop_tok (t : ptok) : bool :=
  match t with POp o => existsb (oper_eqb o) rightops | _ => false end.
Definition plain_end (t : ptok) : bool :=       (* an operand end that is not a postfix operator *)
  match t with
  | PAtom _ => true
  | POp o => oper_eqb o rpar || oper_eqb o rbrk
  end.

Definition operand_end (t : ptok) : bool := plain_end t || is_rightop_tok t.

(* an ambiguous binary spelling is read as binary (`olu_binary`): after a postfix operator outright, after a plain
   operand end only with the C14-7 branch or if the next token is no operator *)
Definition amb_ok (b : oper) (l r : expr) : bool :=
  if is (op_type (lexop b)) ot_ambiguous
  then ambfix || is_rightop_tok (lastu l) || negb (opish (Some (first r)))
  else true.
(* ++/-- after a plain operand end is postfix at the end or before an operator (`olu_postfix`) *)
Definition right_next_ok (nxt : option ptok) : bool :=
  match nxt with None => true | Some _ => opish nxt end.

Inductive primary : expr -> Prop :=
| P_atom : forall a, primary (EAtom a)
| P_paren : forall e, primary (EParen e)
| P_call : forall f a, primary (ECall f a)
| P_sub : forall a i, primary (ESub a i).

(* nxt: the token that follows the tree *)
Inductive wfE : option ptok -> expr -> Prop :=
| W_atom : forall nxt a, wfE nxt (EAtom a)
| W_left : forall nxt u e, In u leftops -> wfE nxt e -> nop_ok [u] e = true -> wfE nxt (ELeft u e)
| W_right : forall nxt r e, In r rightops -> wfE (Some (POp (lexop r))) e -> allpop r e = true ->
    plain_end (lastu e) = true -> right_next_ok nxt = true -> wfE nxt (ERight r e)
| W_bin : forall nxt b l r, In b binops -> wfE (Some (POp (lexop b))) l -> wfE nxt r ->
    allpop b l = true -> nop_ok [b] r = true -> amb_ok b l r = true -> wfE nxt (EBin b l r)
| W_paren : forall nxt e, wfE (Some (POp rpar)) e -> wfE nxt (EParen e)
| W_call0 : forall nxt f, primary f -> wfE (Some (POp lpar)) f -> wfE nxt (ECall f EEmpty)
| W_call : forall nxt f a, primary f -> wfE (Some (POp lpar)) f -> wfE (Some (POp rpar)) a -> wfE nxt (ECall f a)
| W_sub : forall nxt a i, primary a -> wfE (Some (POp lbrk)) a -> wfE (Some (POp rbrk)) i -> wfE nxt (ESub a i).

(* tokens after which an operand may start *)
Definition prev_ok (p : option ptok) : Prop :=
  p = None \/ (exists o, p = Some (POp o) /\ (o = lpar \/ o = lbrk \/ In o binops \/ In o leftops)).

Definition after (st : pstate) (prev : ptok) (out : list expr) (ops : list oper) : pstate :=
  mkState (Some prev) (mkScope (s_before (st_cur st)) out ops) (st_rest st).

(* the state reached from st by the tokens of t *)
Local Notation pend st t := (after st (lastu t) (sp_out t ++ outs st) (sp_ops t ++ opsk st)).

(* t followed by the token nxt, read in a state whose previous token lets an operand start and whose top operator
   no operator on t's left spine pops: the tokens of t leave its pending right spine on the stacks *)
Definition consumes (nxt : option ptok) (t : expr) : Prop := forall st rest,
  hd_error rest = nxt -> prev_ok (st_prev st) -> nop_ok (opsk st) t = true ->
  run st (toks t ++ rest) = run (pend st t) rest.

(* for `forall x, In x l -> C1 /\ … /\ Cn`, each Ci a conjunct of `fact` (or of its negation), `facts` : forallb fact l = true *)
Ltac class_fact facts fact :=
  let x := fresh in let I := fresh in let F := fresh in
  intros x I; pose proof (proj1 (forallb_forall _ _) facts x I) as F; unfold fact in F;
  repeat (apply andb_prop in F; destruct F as [F ?]); repeat split; try assumption; apply negb_true_iff; assumption.

(* `*_lex`: the tokenizer's operator for the spelling; `*_type`: the type bits of the operator the tree carries *)
Lemma bin_lex : forall b, In b binops ->
  is (op_type (lexop b)) ot_pairStart = false /\ is (op_type (lexop b)) ot_pairEnd = false /\
  (if is (op_type (lexop b)) ot_ambiguous then negb (only_unary (lexop b)) && opt_is (resolve (lexop b) false) b
   else oper_eqb (lexop b) b) = true.
Proof. class_fact bin_facts bin_fact. Qed.

Lemma bin_type : forall b, In b binops -> is (op_type b) ot_binary = true /\ is (op_type b) ot_pairStart = false.
Proof. class_fact bin_facts bin_fact. Qed.

Lemma left_lex : forall u, In u leftops ->
  is (op_type (lexop u)) ot_pairStart = false /\ is (op_type (lexop u)) ot_pairEnd = false /\
  (if is (op_type (lexop u)) ot_ambiguous then opt_is (resolve (lexop u) true) u else oper_eqb (lexop u) u) = true.
Proof. class_fact left_facts left_fact. Qed.

Lemma left_type : forall u, In u leftops ->
  is (op_type u) ot_colon = false /\ is (op_type u) ot_binary = false /\ is (op_type u) ot_leftUnary = true /\
  is (op_type u) ot_special = false /\ is (op_type u) ot_pairStart = false.
Proof. class_fact left_facts left_fact. Qed.

Lemma right_lex : forall r, In r rightops ->
  is (op_type (lexop r)) ot_pairStart = false /\ is (op_type (lexop r)) ot_pairEnd = false /\
  is (op_type (lexop r)) ot_ambiguous = true /\ only_unary (lexop r) = true /\ opt_is (resolve (lexop r) false) r = true.
Proof. class_fact right_facts right_fact. Qed.

Lemma right_type : forall r, In r rightops ->
  is (op_type r) ot_binary = false /\ is (op_type r) ot_leftUnary = false /\ is (op_type r) ot_rightUnary = true /\
  is (op_type r) ot_pairStart = false /\ is (op_type r) (ot_or ot_unary ot_binary) = true.
Proof. class_fact right_facts right_fact. Qed.

Lemma finish_app : forall pis a b out,
  finish pis (a ++ b) out = match finish pis a out with Some o => finish pis b o | None => None end.
Proof.
  induction a as [|p a IH]; intros b out; cbn [app finish]; auto.
  destruct (applyOperator pis p out); auto.
Qed.

Lemma apply_bin : forall pis b l r out, In b binops -> applyOperator pis b (r :: l :: out) = Some (EBin b l r :: out).
Proof.
  intros pis b l r out I. destruct (bin_type b I) as [B _]. unfold applyOperator. rewrite B. reflexivity.
Qed.

Lemma apply_left : forall pis u e out, In u leftops -> applyOperator pis u (e :: out) = Some (ELeft u e :: out).
Proof.
  intros pis u e out I. destruct (left_type u I) as (C & B & L & S & _).
  unfold applyOperator, applyLeftUnary. rewrite B, L, S, C. reflexivity.
Qed.

Lemma apply_right : forall pis r e out, In r rightops -> applyOperator pis r (e :: out) = Some (ERight r e :: out).
Proof.
  intros pis r e out I. destruct (right_type r I) as (B & L & R & _).
  unfold applyOperator. rewrite B, L, R. reflexivity.
Qed.

Lemma rebuild : forall nxt t, wfE nxt t -> forall pis out,
  finish pis (sp_ops t) (sp_out t ++ out) = Some (t :: out).
Proof.
  induction 1; intros pis out; cbn [sp_ops sp_out finish app]; auto.
  - rewrite finish_app. rewrite IHwfE. cbn [finish]. rewrite apply_left; auto.
  - rewrite apply_right; auto.
  - rewrite finish_app. rewrite <- app_assoc. cbn [app]. rewrite IHwfE2. cbn [finish]. rewrite apply_bin; auto.
Qed.

Lemma sp_ops_nostart : forall nxt t, wfE nxt t -> Forall (fun p => is (op_type p) ot_pairStart = false) (sp_ops t).
Proof.
  induction 1; cbn [sp_ops]; auto; try apply Forall_app; repeat constructor; auto.
  - apply (left_type u H).
  - apply (right_type r H).
  - apply (bin_type b H).
Qed.

(* both loops treat a prefix of operators that are no openers (and that q pops) as `finish` does *)
Lemma popFaster_pending : forall pis q pending base out,
  Forall (fun p => is (op_type p) ot_pairStart = false) pending -> forallb (pops q) pending = true ->
  popFaster pis q (pending ++ base) out =
  match finish pis pending out with Some o => popFaster pis q base o | None => None end.
Proof.
  intros pis q pending base out H. revert out.
  induction H as [|p pending A _ IH]; intros out B; cbn [app finish popFaster]; auto.
  apply andb_prop in B. destruct B as [B B']. unfold pops in B. rewrite A, B. destruct (applyOperator pis p out); auto.
Qed.

Lemma closeLoop_pending : forall pis c pending base out,
  Forall (fun p => is (op_type p) ot_pairStart = false) pending ->
  closeLoop pis c (pending ++ base) out =
  match finish pis pending out with Some o => closeLoop pis c base o | None => None end.
Proof.
  intros pis c pending base out H. revert out. induction H as [|p pending A _ IH]; intro out; cbn [app finish closeLoop]; auto.
  rewrite A. destruct (applyOperator pis p out); auto.
Qed.

Lemma popFaster_base : forall pis q base out, base_ok q base = true -> popFaster pis q base out = Some (base, out).
Proof.
  intros pis q [|p base] out H; cbn [popFaster]; auto. cbn [base_ok] in H.
  destruct (is (op_type p) ot_pairStart); auto. cbn [orb] in H. apply negb_true_iff in H. unfold pops in H. rewrite H. reflexivity.
Qed.

Lemma popFaster_tree : forall pis q nxt t base out0, wfE nxt t -> allpop q t = true -> base_ok q base = true ->
  popFaster pis q (sp_ops t ++ base) (sp_out t ++ out0) = Some (base, t :: out0).
Proof.
  intros pis q nxt t base out0 W AP HB.
  rewrite popFaster_pending, (rebuild _ _ W); [apply popFaster_base, HB|apply (sp_ops_nostart _ _ W)|exact AP].
Qed.

Lemma toks_first : forall nxt t, wfE nxt t -> forall rest, hd_error (toks t ++ rest) = Some (first t).
Proof. induction 1; intro rest; cbn [toks first app]; rewrite <- ?app_assoc; auto. Qed.

Lemma lastu_end : forall nxt t, wfE nxt t -> operand_end (lastu t) = true.
Proof.
  induction 1; cbn [lastu]; auto; try reflexivity.
  destruct H as [<-|[<-|[]]]; reflexivity.
Qed.

(* after such an operator every operator is a prefix operator, and a bracket is not a call or subscript *)
Lemma prev_ok_op : forall o, o = lpar \/ o = lbrk \/ In o binops \/ In o leftops ->
  (forall nx l, operatorIsLeftUnary (Some (POp o)) (Some nx) l = Some true) /\ is (op_type o) ot_pairEnd = false.
Proof.
  assert (G : forallb (fun o => let t := op_type o in
                        (is t ot_pairStart
                         || is t (ot_or ot_unary ot_binary) && (is t ot_leftUnary || is t ot_binary && negb (is t ot_unary)))
                        && negb (is t ot_pairEnd))
                      (lpar :: lbrk :: binops ++ leftops) = true) by (vm_compute; reflexivity).
  intros o H. rewrite forallb_forall in G. assert (I : In o (lpar :: lbrk :: binops ++ leftops)).
  { destruct H as [->|[->|H]]; [apply in_eq|apply in_cons, in_eq|do 2 apply in_cons; apply in_or_app, H]. }
  destruct (andb_prop _ _ (G o I)) as [A B]. split; [|apply negb_true_iff; exact B].
  intros nx l. unfold operatorIsLeftUnary. cbn [optype_of].
  destruct (is (op_type o) ot_pairStart); [reflexivity|]. apply andb_prop in A. destruct A as [A1 A2]. rewrite A1, A2. reflexivity.
Qed.

Lemma olu_left : forall prev nx l, prev_ok prev -> operatorIsLeftUnary prev (Some nx) l = Some true.
Proof. intros prev nx l [->|(o & -> & Ho)]; [reflexivity|apply (prev_ok_op o Ho)]. Qed.

Lemma plain_end_types : forall p, plain_end p = true ->
  is (optype_of (Some p)) ot_pairStart = false /\ is (optype_of (Some p)) (ot_or ot_unary ot_binary) = false.
Proof.
  intros [a|o] H; cbn [plain_end optype_of] in *; [split; reflexivity|].
  apply orb_true_iff in H. destruct H as [H|H]; apply oper_eqb_eq in H; subst o; split; reflexivity.
Qed.

Lemma rightop_types : forall p, is_rightop_tok p = true ->
  is (optype_of (Some p)) ot_pairStart = false /\ is (optype_of (Some p)) (ot_or ot_unary ot_binary) = true /\
  is (optype_of (Some p)) ot_leftUnary = false /\ is (optype_of (Some p)) ot_binary = false.
Proof.
  intros [a|o] H; [discriminate|]. apply in_ops_of_eqb in H.
  destruct (right_type o H) as (B & L & _ & PS & U). auto.
Qed.

Lemma lastu_not_start : forall nxt t, wfE nxt t -> is (optype_of (Some (lastu t))) ot_pairStart = false.
Proof.
  intros nxt t W. destruct (orb_prop _ _ (lastu_end _ _ W)) as [E|E]; [apply plain_end_types|apply rightop_types]; exact E.
Qed.

Lemma olu_binary : forall p nx l, operand_end p = true -> only_unary l = false ->
  ambfix || is_rightop_tok p || negb (opish (Some nx)) = true ->
  operatorIsLeftUnary (Some p) (Some nx) l = Some false.
Proof.
  intros p nx l E OU C. unfold operatorIsLeftUnary. fold (only_unary l). rewrite OU.
  unfold operand_end in E. destruct (is_rightop_tok p) eqn:R.
  - destruct (rightop_types p R) as (A & B & L & D). rewrite A, B, L, D. reflexivity.
  - rewrite orb_false_r in E, C. destruct (plain_end_types p E) as [A B]. rewrite A, B. cbn [negb andb].
    destruct ambfix; [reflexivity|]. apply negb_true_iff in C. unfold opish in C. rewrite C. reflexivity.
Qed.

Lemma olu_postfix : forall p nxt l, plain_end p = true -> only_unary l = true -> right_next_ok nxt = true ->
  operatorIsLeftUnary (Some p) nxt l = Some false.
Proof.
  intros p nxt l E OU N. unfold operatorIsLeftUnary. fold (only_unary l). rewrite OU.
  destruct nxt as [nx|]; [|reflexivity].
  destruct (plain_end_types p E) as [A B]. rewrite A, B. cbn [negb].
  cbn [right_next_ok] in N. unfold opish in N. rewrite N. reflexivity.
Qed.

(* updateOperatorToken turns the spelling l into o when operatorIsLeftUnary answers the way the tree says *)
Lemma updateOperator_as : forall prev nxt l lu o,
  (if is (op_type l) ot_ambiguous then opt_is (resolve l lu) o else oper_eqb l o) = true ->
  (is (op_type l) ot_ambiguous = true -> operatorIsLeftUnary prev nxt l = Some lu) ->
  updateOperator prev nxt l = Some o.
Proof.
  intros prev nxt l lu o F H. rewrite updateOperator_eq. destruct (is (op_type l) ot_ambiguous); cbn [negb].
  - rewrite (H eq_refl). unfold opt_is in F. destruct (resolve l lu); [|discriminate]. apply oper_eqb_eq in F. congruence.
  - apply oper_eqb_eq in F. congruence.
Qed.

(* an operator that is no bracket: re-typed, it pops the faster operators and is pushed *)
Lemma step_op : forall st l o nxt stk out,
  is (op_type l) ot_pairStart = false -> is (op_type l) ot_pairEnd = false ->
  updateOperator (st_prev st) nxt l = Some o ->
  popFaster (prevIsStart st) o (opsk st) (outs st) = Some (stk, out) ->
  step st (POp l) nxt = Some (after st (POp o) out (o :: stk)).
Proof. intros st l o nxt stk out PS PE U P. unfold step, applyFaster. rewrite PS, PE, U, P. reflexivity. Qed.

Lemma step_left : forall st u nx, In u leftops -> prev_ok (st_prev st) -> base_ok u (opsk st) = true ->
  step st (POp (lexop u)) (Some nx) = Some (after st (POp u) (outs st) (u :: opsk st)).
Proof.
  intros st u nx I P B. destruct (left_lex u I) as (PS & PE & RES).
  apply step_op; auto using popFaster_base. apply (updateOperator_as _ _ _ true); auto using olu_left.
Qed.

Lemma step_after : forall st l o nxt nxt_x x, wfE nxt_x x -> allpop o x = true -> base_ok o (opsk st) = true ->
  is (op_type l) ot_pairStart = false -> is (op_type l) ot_pairEnd = false ->
  updateOperator (Some (lastu x)) nxt l = Some o ->
  step (pend st x) (POp l) nxt = Some (after st (POp o) (x :: outs st) (o :: opsk st)).
Proof.
  intros st l o nxt nxt_x x W AP HB PS PE U.
  (* arguments given: `after (pend st x) …` and `after st …` agree only after unfolding *)
  apply (step_op (pend st x) l o nxt (opsk st) (x :: outs st) PS PE U). exact (popFaster_tree _ _ _ _ _ _ W AP HB).
Qed.

Lemma step_binary : forall st b nxt_l l r, In b binops -> wfE nxt_l l -> allpop b l = true -> amb_ok b l r = true ->
  base_ok b (opsk st) = true ->
  step (pend st l) (POp (lexop b)) (Some (first r)) = Some (after st (POp b) (l :: outs st) (b :: opsk st)).
Proof.
  intros st b nxt_l l r I W AP HA HB. destruct (bin_lex b I) as (PS & PE & RES).
  apply (step_after _ _ _ _ _ _ W AP HB PS PE), (updateOperator_as _ _ _ false).
  - destruct (is (op_type (lexop b)) ot_ambiguous); [apply andb_prop in RES; apply RES|exact RES].
  - intros AM. unfold amb_ok in HA. rewrite AM in RES, HA. apply andb_prop in RES. destruct RES as [OU _].
    apply negb_true_iff in OU. apply olu_binary; eauto using lastu_end.
Qed.

Lemma step_postfix : forall st r nxt nxt_e e, In r rightops -> wfE nxt_e e -> allpop r e = true ->
  plain_end (lastu e) = true -> right_next_ok nxt = true -> base_ok r (opsk st) = true ->
  step (pend st e) (POp (lexop r)) nxt = Some (after st (POp r) (e :: outs st) (r :: opsk st)).
Proof.
  intros st r nxt nxt_e e I W AP PL RN HB. destruct (right_lex r I) as (PS & PE & AM & OU & RES).
  apply (step_after _ _ _ _ _ _ W AP HB PS PE), (updateOperator_as _ _ _ false); [rewrite AM; exact RES|].
  intros _. apply olu_postfix; auto.
Qed.

Lemma applyTernary_id : forall nxt t out, wfE nxt t -> applyTernary (t :: out) = t :: out.
Proof.
  intros nxt t out W. destruct W; cbn [applyTernary]; auto.
  destruct out as [|x out]; auto. destruct x; auto. destruct out; auto.
  (* u is not the colon pseudo-operator *)
  destruct (ot_eqb (op_type u) ot_colon) eqn:E; [|rewrite andb_false_r; reflexivity].
  apply ot_eqb_eq in E. destruct (left_type u H) as [C _]. rewrite E in C. discriminate C.
Qed.

Definition bracket_pair (opener closer : oper) : Prop :=
  (opener = lpar /\ closer = rpar) \/ (opener = lbrk /\ closer = rbrk).

Lemma bracket_types : forall opener closer, bracket_pair opener closer ->
  is (op_type opener) ot_pairStart = true /\
  is (op_type closer) ot_pairStart = false /\ is (op_type closer) ot_pairEnd = true /\
  ot_eqb (op_type closer) (ot_shl1 (op_type opener)) = true /\
  is (op_type closer) ot_binary = false /\ is (op_type closer) ot_leftUnary = false /\
  is (op_type closer) ot_rightUnary = false /\ is (op_type closer) ot_pair = true.
Proof. intros opener closer [[-> ->]|[-> ->]]; repeat split; reflexivity. Qed.

Lemma step_open : forall st opener nxt, is (op_type opener) ot_pairStart = true ->
  step st (POp opener) nxt = Some (mkState (Some (POp opener)) (mkScope (st_prev st) [] [opener]) (st_cur st :: st_rest st)).
Proof. intros st opener nxt H. unfold step. rewrite H. reflexivity. Qed.

(* the closing bracket in a scope st1 opened from st, when closePair leaves the pair holding v *)
Lemma step_close : forall st1 st closer nxt v out',
  is (op_type closer) ot_pairStart = false -> is (op_type closer) ot_pairEnd = true ->
  st_rest st1 = st_cur st :: st_rest st -> s_before (st_cur st1) = st_prev st ->
  closeLoop (prevIsStart st1) closer (opsk st1 ++ opsk st) (outs st1 ++ outs st) = Some (opsk st, EPair closer v :: outs st) ->
  attachPair (st_prev st) (EPair closer v :: outs st) = Some out' ->
  step st1 (POp closer) nxt = Some (after st (POp closer) out' (opsk st)).
Proof.
  intros st1 st closer nxt v out' CS CE R B CL AT.
  unfold step. rewrite CS, CE, R. unfold opsk, outs in *. rewrite CL, B, AT. reflexivity.
Qed.

(* closePair at the opener: the pair holds the operand v on top of the output, or nothing when the opener is the
   previous token *)
Lemma close_opener : forall nxt v opener closer pis ops out, wfE nxt v -> bracket_pair opener closer ->
  closeLoop pis closer (opener :: ops) (v :: out)
  = Some (ops, if pis then EPair closer EEmpty :: v :: out else EPair closer v :: out).
Proof.
  intros nxt v opener closer pis ops out W PAIR. destruct (bracket_types _ _ PAIR) as (OS & _ & _ & MT & B & L & R & P).
  cbn [closeLoop]. rewrite OS, MT, (applyTernary_id _ _ _ W). unfold applyOperator. rewrite B, L, R, P.
  destruct pis; reflexivity.
Qed.

Lemma close_content : forall nxt e opener closer ops out, wfE nxt e -> bracket_pair opener closer ->
  closeLoop false closer ((sp_ops e ++ [opener]) ++ ops) (sp_out e ++ out) = Some (ops, EPair closer e :: out).
Proof.
  intros nxt e opener closer ops out W PAIR.
  rewrite <- app_assoc, closeLoop_pending, (rebuild _ _ W) by apply (sp_ops_nostart _ _ W).
  apply (close_opener _ _ _ _ false _ _ W PAIR).
Qed.

(* attachPair (409-483) in the positions of the fragment: where an operand may start the pair is a parenthesised
   expression, after an operand end it is a call or a subscript *)
Lemma attach_paren : forall prev e out, prev_ok prev ->
  attachPair prev (EPair rpar e :: out) = Some (EParen e :: out).
Proof.
  assert (T : forall e out, transformLastPair (EPair rpar e :: out) = Some (EParen e :: out)) by reflexivity.
  intros prev e out HP. unfold attachPair.
  destruct (length (EPair rpar e :: out) <? 2)%nat; [apply T|].
  destruct HP as [->|(o & -> & Ho)]; cbn [is_output_tok orb negb]; [apply T|].
  destruct (prev_ok_op o Ho) as [_ PE]. rewrite PE. apply T.
Qed.

Lemma attach_suffix : forall p closer f a out, plain_end p = true ->
  attachPair (Some p) (EPair closer a :: f :: out) =
  if is (op_type closer) ot_parentheses then Some (ECall f a :: out)
  else if is (op_type closer) ot_brackets then Some (ESub f a :: out) else None.
Proof.
  intros [x|o] closer f a out H; [reflexivity|]. cbn [plain_end] in H.
  apply orb_true_iff in H. destruct H as [H|H]; apply oper_eqb_eq in H; subst o; reflexivity.
Qed.

Lemma primary_sp : forall f, primary f -> sp_out f = [f] /\ sp_ops f = [] /\ lspine f = [] /\ plain_end (lastu f) = true.
Proof. intros f P. destruct P; repeat split; reflexivity. Qed.

(* an opening bracket, the tokens of a tree e, the closing bracket.  e is consumed in a scope of its own; closing
   the scope leaves the pair holding e on the enclosing output, where attachPair joins it to what stands before
   the opener. *)
Lemma consume_brackets : forall e opener closer st rest out',
  bracket_pair opener closer ->
  wfE (Some (POp closer)) e -> consumes (Some (POp closer)) e ->
  attachPair (st_prev st) (EPair closer e :: outs st) = Some out' ->
  run st (POp opener :: toks e ++ POp closer :: rest) = run (after st (POp closer) out' (opsk st)) rest.
Proof.
  intros e opener closer st rest out' PAIR W IH AT. destruct (bracket_types _ _ PAIR) as (OS & CS & CE & _).
  cbn [run]. rewrite (toks_first _ _ W), (step_open _ _ _ OS), (IH _ (POp closer :: rest) eq_refl).
  - cbn [run]. erewrite (step_close _ st _ _ _ _ CS CE); [reflexivity|reflexivity|reflexivity| |exact AT].
    unfold prevIsStart, after, opsk, outs. cbn [st_prev st_cur s_ops s_out]. rewrite (lastu_not_start _ _ W), app_nil_r.
    apply (close_content _ _ _ _ _ _ W PAIR).
  - right. exists opener. destruct PAIR as [[-> _]|[-> _]]; auto.
  - apply forallb_forall. intros q _. cbn [opsk st_cur s_ops base_ok]. rewrite OS. reflexivity.
Qed.

Lemma consume_primary : forall nxt f st rest, primary f -> consumes nxt f ->
  hd_error rest = nxt -> prev_ok (st_prev st) ->
  run st (toks f ++ rest) = run (after st (lastu f) (f :: outs st) (opsk st)) rest.
Proof.
  intros nxt f st rest P IH HN HP. destruct (primary_sp f P) as (SO & SP & LS & _).
  rewrite IH; auto; [rewrite SO, SP; reflexivity|unfold nop_ok; rewrite LS; reflexivity].
Qed.

Theorem consume : forall nxt t, wfE nxt t -> consumes nxt t.
Proof.
  induction 1; intros st rest HN HP HB; cbn [toks app]; repeat (rewrite <- app_assoc; cbn [app]).
  - reflexivity.
  - apply andb_prop in HB. destruct HB as [HB _].
    cbn [run]. rewrite (toks_first _ _ H0), (step_left st u _ H HP HB), (IHwfE _ rest HN); auto.
    + cbn [lastu sp_out sp_ops]. rewrite <- app_assoc. reflexivity.
    + right. exists u. auto 6.
  - apply andb_prop in HB. destruct HB as [HB1 HB2].
    rewrite (IHwfE st (POp (lexop r) :: rest) eq_refl HP HB2). cbn [run hd_error]. rewrite HN, (step_postfix st r nxt _ e H H0); auto.
  - apply andb_prop in HB. destruct HB as [HB1 HB2].
    rewrite (IHwfE1 st (POp (lexop b) :: toks r ++ rest) eq_refl HP HB2). cbn [run].
    rewrite (toks_first _ _ H1), (step_binary st b _ l r H H0), (IHwfE2 _ rest HN); auto.
    + cbn [lastu sp_out sp_ops]. rewrite <- !app_assoc. reflexivity.
    + right. exists b. auto 6.
  - apply (consume_brackets e lpar rpar); auto; [left; auto|apply attach_paren, HP].
  - (* call without arguments: nothing between the brackets, so the closer sees the opener as the previous token *)
    rewrite (consume_primary _ f st _ H IHwfE); auto. cbn [run hd_error]. rewrite (step_open _ lpar _ eq_refl).
    erewrite (step_close _ (after st (lastu f) (f :: outs st) (opsk st)) rpar _ EEmpty); [reflexivity..| |].
    + apply (close_opener _ _ lpar rpar true _ _ H0). left; auto.
    + apply (attach_suffix _ rpar), (primary_sp f H).
  - rewrite (consume_primary _ f st _ H IHwfE1); auto.
    rewrite (consume_brackets a lpar rpar _ rest (ECall f a :: outs st)); auto; [left; auto|]. apply (attach_suffix _ rpar), (primary_sp f H).
  - rewrite (consume_primary _ a st _ H IHwfE1); auto.
    rewrite (consume_brackets i lbrk rbrk _ rest (ESub a i :: outs st)); auto; [right; auto|]. apply (attach_suffix _ rbrk), (primary_sp a H).
Qed.

Theorem parse_toks : forall t, wfE None t -> sy_parse (toks t) = Some t.
Proof.
  intros t W. pose proof (consume None t W init_state [] eq_refl (or_introl eq_refl)) as C.
  pose proof (toks_first _ _ W []) as F. rewrite app_nil_r in C, F.
  unfold sy_parse. destruct (toks t); [discriminate|]. rewrite C.
  - unfold after, opsk, outs. cbn [run st_cur s_ops s_out init_state].
    rewrite (app_nil_r (sp_ops t)), (rebuild _ _ W). cbv iota. rewrite (applyTernary_id _ _ _ W). reflexivity.
  - apply forallb_forall. reflexivity.
Qed.
