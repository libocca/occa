(* C15: from printed text back to the tree, end to end, for the trees whose printed form separates all
   tokens by blanks: atoms joined by the binary operators that print as ` op ` (everything but comma and the
   member/scope operators).  Printing such a tree is printing its token sequence (C12's printSeq); C12's
   tokenize_seq gives the tokens back, ProofsParser.parse_toks gives the tree back. *)
From Coq Require Import List ZArith Bool.
From OV.C12 Require Import OpDefs Model Spec Table ProofsSafety2 ProofsRoundtrip.   (* ProofsSafety2: list_eqb_eq *)
From OV.C15 Require Import Model ProofsParser.
From OV.gen Require Import C12_OpTable.
Import ListNotations.
Local Open Scope Z_scope.

Definition atom_tok (a : atom) : token :=
  match a with
  | AId v => TIdent v
  | APrim v => TPrim v
  | AStr v => TString 0 v []
  | AChr v => TChar 0 v []
  end.

(* binary operators printed with a blank on either side *)
Definition spaced_op (b : oper) : bool := negb (dotlike b) && negb (is (op_type b) ot_comma).

Inductive btree : expr -> Prop :=
| BT_atom : forall a, good tok_ops (atom_tok a) = true -> btree (EAtom a)
| BT_bin : forall b l r, In b binops -> spaced_op b = true -> btree l -> btree r -> btree (EBin b l r).

Fixpoint ctoks (t : expr) : list token :=
  match t with
  | EAtom a => [atom_tok a]
  | EBin b l r => ctoks l ++ [TOp (lexop b)] ++ ctoks r
  | _ => []
  end.

Lemma lexop_sym : forall o, op_sym (lexop o) = op_sym o.
Proof.
  intros o. unfold lexop. destruct (find _ tokenizer_ops) eqn:F; auto.
  apply find_some in F. destruct F as [_ E]. apply list_eqb_eq in E. auto.
Qed.

Lemma printSeq_app : forall fx A B, A <> [] -> B <> [] ->
  printSeq fx (A ++ B) = printSeq fx A ++ [32] ++ printSeq fx B.
Proof.
  intros fx A B NA NB. induction A as [|a A IH]; [contradiction|].
  destruct A as [|a2 A].
  - cbn [app]. destruct B; [contradiction|]. reflexivity.
  - change (printSeq fx ((a :: a2 :: A) ++ B)) with (printToken fx a ++ [32] ++ printSeq fx ((a2 :: A) ++ B)).
    rewrite IH; [|discriminate]. cbn [printSeq]. rewrite <- !app_assoc. reflexivity.
Qed.

Lemma ctoks_nonempty : forall t, btree t -> ctoks t <> [].
Proof. intros t B. destruct B; cbn [ctoks]; [discriminate|]. destruct (ctoks l); discriminate. Qed.

Lemma print_btree : forall c15fix t, btree t -> print fixed c15fix t = printSeq fixed (ctoks t).
Proof.
  intros c15fix t B. induction B.
  - destruct a; cbn [print print_atom ctoks atom_tok printSeq printToken printEncoding]; auto.
  - unfold spaced_op in H0. apply andb_true_iff in H0. destruct H0 as [D C]. apply negb_true_iff in D, C.
    cbn [print ctoks]. rewrite D, C.
    rewrite printSeq_app; [|apply ctoks_nonempty; auto|discriminate].
    rewrite (printSeq_app fixed [TOp (lexop b)] (ctoks r)); [|discriminate|apply ctoks_nonempty; auto].
    cbn [printSeq printToken]. rewrite lexop_sym. rewrite IHB1, IHB2. cbn [app]. rewrite <- ?app_assoc. reflexivity.
Qed.

Lemma ptoks_of_app : forall A C, ptoks_of (A ++ C) = ptoks_of A ++ ptoks_of C.
Proof.
  induction A as [|x A IH]; intro C; cbn [app ptoks_of]; auto. destruct (ptok_of_token x); cbn [app]; rewrite IH; auto.
Qed.

Lemma ptoks_ctoks : forall t, btree t -> ptoks_of (ctoks t) = toks t.
Proof.
  intros t B. induction B.
  - destruct a; reflexivity.
  - cbn [ctoks toks]. rewrite !ptoks_of_app, IHB1, IHB2. reflexivity.
Qed.

Lemma binop_token_good : forall b, In b binops -> good tok_ops (TOp (lexop b)) = true.
Proof.
  assert (G : forallb (fun b => good tok_ops (TOp (lexop b))) binops = true) by (vm_compute; reflexivity).
  intros b I. rewrite forallb_forall in G. auto.
Qed.

Lemma ctoks_good : forall t, btree t -> Forall (goodg tok_ops) (ctoks t).
Proof.
  intros t B. induction B; cbn [ctoks].
  - constructor; [|constructor]. split; auto. destruct a; reflexivity.
  - apply Forall_app. split; auto. constructor; auto. split; [apply binop_token_good; auto|reflexivity].
Qed.

Theorem reparse_spaced : forall c15fix t, btree t -> wfE None t ->
  parse_source fixed (print fixed c15fix t ++ [0]) = Ok (Some t).
Proof.
  intros c15fix t B W. unfold parse_source. rewrite (print_btree c15fix t B).
  pose proof (tokenize_seq tok_ops tok_ops_rt_ok (ctoks t) (ctoks_good t B)) as T.
  change tok_ops with tokenizer_ops in T. rewrite T. cbn [bind].
  rewrite (ptoks_ctoks t B). rewrite (parse_toks t W). reflexivity.
Qed.
