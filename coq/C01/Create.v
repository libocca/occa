(* C01 — creation of backend objects: kernel/stream/tag, buffer/pool, memory, and
   device::device(props) = setModeDevice(newModeDevice(...)); setStream(createStream()).  Then memory pools: the
   pool's own buffer, resize, slices, reserve. *)
From Coq Require Import List Arith Bool ZArith Lia Permutation.
From OV.C01 Require Import Model Ring Heap Inv InvPrim2 ExecBase Exec Exec6 Alloc Ops.
Import ListNotations.

Lemma insert_sorted_In off m l x : In x (insert_sorted off m l) <-> x = m \/ In x l.
Proof.
  assert (Hc : forall l', In x (m :: l') <-> x = m \/ In x l') by (intros l'; cbn; split; intros [E|H]; auto).
  induction l as [|a l IH]; cbn [insert_sorted]; [apply Hc|].
  destruct (Nat.ltb (off m) (off a)); [apply Hc|].
  cbn [In]. rewrite IH. split; intros [E|[E|H]]; auto.
Qed.

Section C.
Variable vkind : nat -> kind.
Notation inv := (inv vkind).

(* the first wrapper of a new object *)
Lemma h_new_obj T G s o k :
  inv [] [o] [] T G s -> alive s o = true -> tagof s o = TO k -> k <> KBuf -> k <> KDev ->
  oinner s o = None -> (k = KPool -> G o SMem = [] /\ pres s o = [] /\ pslots s o = 0) ->
  exists G' s', h_new fixed k (Some o) s = Some (nxt s, s') /\ inv [] [] [] (nxt s :: T) G' s' /\
    hptr s' (nxt s) = Some o /\ tagof s' (nxt s) = TH k /\ grow s s' /\ vars s' = vars s /\ dus s' = dus s /\
    odev s' = odev s /\ (forall x, x <> nxt s -> alive s' x = alive s x).
Proof.
  intros Hi Hao Hto Hkb Hkd Hoi Hpm.
  destruct (h_new_some vkind [o] T G s k o Hi Hao Hto Hkb) as (s2 & R & Hi2 & Hs).
  destruct (new_handle_frame s k (Some o) s2 Hs) as ((F1 & F2 & F3 & F4 & F5 & _) & F).
  pose proof (grow_tag _ _ _ F3 (inv_lt Hi Hao)) as Hto2. rewrite Hto in Hto2.
  pose proof Hs as (_ & _ & _ & _ & _ & _ & _ & S8 & _ & _ & _ & S12 & S13 & _).
  unfold alloc_st in S8, S12, S13. simpl_st.
  eexists _, s2. split; [exact R|]. split.
  { apply (inv_unW vkind [] [] [] (nxt s :: T) _ s2 o Hi2). intros _. refine (conj _ (conj _ (conj _ (conj _ (conj _ _))))); try congruence.
    - intros Hc m Hm. exfalso. rewrite Hto2 in Hc. injection Hc as ->.
      rewrite upd2_other, (proj1 (Hpm eq_refl)) in Hm by (right; discriminate). destruct Hm.
    - intros k' Hk'. rewrite Hto2 in Hk'. injection Hk' as <-. rewrite upd2_same.
      assert (Hne : G o SH ++ [nxt s] <> []) by (destruct (G o SH); discriminate).
      destruct k; try congruence; intros _; exact Hne.
    - intros Hc. rewrite Hto2 in Hc. injection Hc as ->. destruct (Hpm eq_refl) as (_ & P1 & P2).
      rewrite S12, S13. intros [Hn|Hn]; exfalso; now apply Hn. }
  exact (conj F1 (conj F2 (conj F3 (conj F4 (conj F5 F))))).
Qed.

Definition frame_new (s s' : st) : Prop :=
  grow s s' /\ vars s' = vars s /\ dus s' = dus s /\ nxt s' = S (nxt s) /\
  oinner s' = oinner s /\ ouse s' = ouse s /\ pres s' = pres s /\ pslots s' = pslots s /\
  (forall x, x <> nxt s -> alive s' x = alive s x /\ tagof s' x = tagof s x /\ ginner s' x = ginner s x /\
                          odev s' x = odev s x).

Lemma frame_new_of s s2 s3 o t :
  added s s2 o t -> same_obj s2 s3 -> frame_new s s3.
Proof.
  intros A Hs. pose proof (ad_e A) as Eo.
  pose proof Hs as (S1 & S2 & S3 & _ & S5 & S6 & _ & S8 & _ & _ & _ & S12 & S13 & _ & S15 & S16 & _ & S18).
  unfold frame_new. split; [eapply grow_trans; [eapply added_grow; exact A|apply same_obj_grow; exact Hs]|].
  rewrite S16, S18, S1, S8, S5, S3, S2, S15, S6, S12, S13.
  rewrite (ad_vars A), (ad_nxt A), (ad_oinner A), (ad_ouse A), (ad_dus A), (ad_pres A), (ad_pslots A).
  subst o. do 7 (split; [reflexivity|]).
  intros x Hx; destruct (ad_other A x Hx) as (B1 & B2 & B3 & B4 & B5 & B6); tauto.
Qed.

(* the tail of new_leaf, new_buffer, new_memory: o enters ring sl of its keeper w, the device or,
   for a modeMemory_t, a plain buffer *)
Lemma link_new_obj W T G s s2 o k w sl :
  inv [] W [] T G s -> added s s2 o (TO k) -> k <> KDev -> ginner s2 o = false ->
  home s2 o = Some (w, sl) -> alive s w = true -> fits (TO k) (tagof s w) sl = true ->
  (k <> KMem /\ odev s2 o = Some w /\ tagof s w = TO KDev) \/
  (k = KMem /\ (tagof s w = TO KBuf /\ ginner s w = false \/ tagof s w = TO KPool /\ In w W)) ->
  exists s3, (forall A (F : M A), (need w;;; ring_addRef w sl o;;; F) s2 = F s3) /\
    inv [] (o :: W) [] T (upd2 G w sl (G w sl ++ [o])) s3 /\
    alive s3 o = true /\ tagof s3 o = TO k /\ frame_new s s3 /\ odev s3 = odev s2 /\ ginner s3 = ginner s2.
Proof.
  intros Hi A Hkd Hg Hh Haw Hfit Hkeep.
  pose proof (ad_e A) as Eo.
  assert (Hwo : w <> o) by (intros ->; destruct (i_fresh Hi (nxt s) (le_n _)) as (F & _); congruence).
  destruct (ad_other A w Hwo) as (B1 & B2 & _ & _ & B5 & _).
  assert (Hi2 : inv [o] (o :: W) [] T G s2).
  { eapply inv_add_cell; [exact Hi|exact A| | |discriminate].
    - intros k' E. discriminate.
    - intros k' E. injection E as <-. repeat split; try reflexivity; try congruence.
      intros _ Hm. destruct Hkeep as [(_ & Hod & Htw)|(Hm' & _)]; [|contradiction].
      exists w. repeat split; assumption. }
  assert (Haw2 : alive s2 w = true) by (rewrite B2; exact Haw).
  assert (Hfree : free_of G o) by (eapply exempt_free; [exact Hi2|now left]).
  destruct (ring_addRef_out s2 G w sl o (i_heap Hi2) Haw2 (ad_alive A) Hfree) as (s3 & Hrun & Hsame & Hk3).
  exists s3. split.
  { intros B F. erewrite bind_run by (apply need_run; exact Haw2). now erewrite bind_run by exact Hrun. }
  pose proof Hsame as (_ & S2 & S3 & _ & _ & S6 & _ & _ & _ & _ & _ & _ & _ & _ & S15 & _).
  split.
  { eapply inv_link; try exact Hi2; try eassumption.
    - intros [].
    - apply (ad_alive A).
    - rewrite (ad_tag A), B1. exact Hfit.
    - intros ->. rewrite B5, B1. destruct Hkeep as [(_ & _ & Htw)|(_ & [(Htw & Hgw)|(Htw & Hw)])].
      + rewrite Htw in Hfit. destruct k; discriminate.
      + split; [exact Hgw|]. intros E. congruence.
      + split; [|intros _ Hn; exfalso; apply Hn; now right].
        destruct (ginner s w) eqn:E; [|reflexivity]. destruct (i_ginner Hi w E). congruence. }
  split; [rewrite S3; apply (ad_alive A)|]. split; [rewrite S2; apply (ad_tag A)|].
  split; [eapply frame_new_of; eassumption|]. split; assumption.
Qed.

Lemma new_leaf_spec T G s k d :
  inv [] [] [] T G s -> leaf_kind k -> alive s d = true -> tagof s d = TO KDev ->
  exists G' s', new_leaf k d s = Some (nxt s, s') /\ inv [] [nxt s] [] T G' s' /\
    alive s' (nxt s) = true /\ tagof s' (nxt s) = TO k /\ frame_new s s' /\ odev s' (nxt s) = Some d.
Proof.
  intros Hi Hk Had Htd. unfold new_leaf. erewrite bind_run by apply alloc_run.
  unfold set_field_odev at 1. unfold modify at 1. cbn [bind].
  set (s2 := set_odev (alloc_st s (TO k)) (upd (odev (alloc_st s (TO k))) (nxt s) (Some d))).
  assert (A : added s s2 (nxt s) (TO k)) by (apply added_set_odev; apply added_alloc).
  assert (Hod : odev s2 (nxt s) = Some d) by apply upd_same.
  destruct (link_new_obj [] T G s s2 (nxt s) k d (dev_slot k) Hi A) as (s3 & R & Hi3 & Ha3 & Ht3 & Hf3 & Hod3 & _);
    try assumption.
  - destruct Hk as [-> | [-> | ->]]; discriminate.
  - apply (i_fresh Hi (nxt s) (le_n _)).
  - unfold home. rewrite (ad_tag A), Hod. destruct Hk as [-> | [-> | ->]]; reflexivity.
  - rewrite Htd. destruct Hk as [-> | [-> | ->]]; reflexivity.
  - left. repeat split; try assumption. destruct Hk as [-> | [-> | ->]]; discriminate.
  - eexists _, s3. rewrite Hod3. exact (conj (R _ _) (conj Hi3 (conj Ha3 (conj Ht3 (conj Hf3 Hod))))).
Qed.

Lemma new_buffer_spec W T G s k d size :
  inv [] W [] T G s -> (k = KBuf \/ k = KPool) -> alive s d = true -> tagof s d = TO KDev ->
  exists s', new_buffer k d size s = Some (nxt s, s') /\
    inv [] (nxt s :: W) [] T (upd2 G d SBuf (G d SBuf ++ [nxt s])) s' /\
    alive s' (nxt s) = true /\ tagof s' (nxt s) = TO k /\ ginner s' (nxt s) = false /\ frame_new s s' /\
    odev s' (nxt s) = Some d.
Proof.
  intros Hi Hk Had Htd. unfold new_buffer. erewrite bind_run by apply alloc_run.
  unfold set_field_odev at 1. unfold modify at 1. cbn [bind].
  set (s1 := set_odev (alloc_st s (TO k)) (upd (odev (alloc_st s (TO k))) (nxt s) (Some d))).
  erewrite bind_run by (apply need_modify_run; apply upd_same).
  set (s2 := set_osize s1 (upd (osize s1) (nxt s) size)).
  assert (A : added s s2 (nxt s) (TO k)) by (apply added_set_osize; apply added_set_odev; apply added_alloc).
  assert (Hod : odev s2 (nxt s) = Some d) by apply upd_same.
  assert (Hg : ginner s2 (nxt s) = false) by apply (i_fresh Hi (nxt s) (le_n _)).
  destruct (link_new_obj W T G s s2 (nxt s) k d SBuf Hi A) as (s3 & R & Hi3 & Ha3 & Ht3 & Hf3 & Hod3 & Hg3);
    try assumption.
  - destruct Hk as [-> | ->]; discriminate.
  - unfold home. rewrite (ad_tag A), Hod, Hg. destruct Hk as [-> | ->]; reflexivity.
  - rewrite Htd. destruct Hk as [-> | ->]; reflexivity.
  - left. repeat split; try assumption. destruct Hk as [-> | ->]; discriminate.
  - exists s3. rewrite Hod3, Hg3. exact (conj (R _ _) (conj Hi3 (conj Ha3 (conj Ht3 (conj Hg (conj Hf3 Hod)))))).
Qed.

Lemma new_memory_spec W T G s b :
  inv [] W [] T G s -> alive s b = true -> tagof s b = TO KBuf -> ginner s b = false ->
  exists s', new_memory b s = Some (nxt s, s') /\
    inv [] (nxt s :: W) [] T (upd2 G b SMem (G b SMem ++ [nxt s])) s' /\
    alive s' (nxt s) = true /\ tagof s' (nxt s) = TO KMem /\ frame_new s s'.
Proof.
  intros Hi Hab Htb Hgb. unfold new_memory. erewrite bind_run by apply alloc_run.
  unfold set_field_obuf at 1. unfold modify at 1. cbn [bind].
  set (s2 := set_obuf (alloc_st s (TO KMem)) (upd (obuf (alloc_st s (TO KMem))) (nxt s) (Some b))).
  assert (A : added s s2 (nxt s) (TO KMem)) by (apply added_set_obuf; apply added_alloc).
  destruct (link_new_obj W T G s s2 (nxt s) KMem b SMem Hi A) as (s3 & R & Hi3 & Ha3 & Ht3 & Hf3 & _);
    try assumption; try discriminate.
  - apply (i_fresh Hi (nxt s) (le_n _)).
  - unfold home. rewrite (ad_tag A). unfold s2. simpl_st. now rewrite upd_same.
  - now rewrite Htb.
  - right. split; [reflexivity|]. left. now split.
  - exists s3. exact (conj (R _ _) (conj Hi3 (conj Ha3 (conj Ht3 Hf3)))).
Qed.

(* the modeDevice_t with its embedded currentStream wrapper *)
Definition dev_cells (s1 : st) : st :=
  set_ocur (alloc_st (alloc_st s1 (TO KDev)) (TH KStr))
           (upd (ocur (alloc_st (alloc_st s1 (TO KDev)) (TH KStr))) (nxt s1) (S (nxt s1))).

Definition dev_cell_only (s1 : st) : st :=
  set_ocur (alloc_st s1 (TO KDev)) (upd (ocur (alloc_st s1 (TO KDev))) (nxt s1) (S (nxt s1))).

Lemma added_dev s1 : added s1 (dev_cell_only s1) (nxt s1) (TO KDev).
Proof. apply added_set_ocur. apply added_alloc. Qed.

Lemma added_cur s1 : added (dev_cell_only s1) (dev_cells s1) (S (nxt s1)) (TH KStr).
Proof.
  constructor; unfold dev_cells, dev_cell_only, alloc_st; simpl_st; try reflexivity.
  - intros x Hx. rewrite !(upd_other _ (S (nxt s1))) by exact Hx. repeat split.
  - apply upd_same.
  - apply upd_same.
Qed.

Lemma dev_cells_spec T G s1 :
  inv [] [] [] T G s1 ->
  inv [] [nxt s1] [] T G (dev_cells s1).
Proof.
  intros Hi. set (d := nxt s1).
  assert (Hi2 : inv [d] [d] [] T G (dev_cell_only s1)).
  { eapply inv_add_cell; [exact Hi|apply added_dev| | |discriminate].
    - intros k E. discriminate.
    - intros k E. injection E as <-. repeat split; try reflexivity; try congruence.
      + intros Hg. exfalso. unfold dev_cell_only, alloc_st in Hg. simpl_st.
        destruct (i_fresh Hi (nxt s1) (le_n _)) as (_ & _ & _ & _ & _ & _ & _ & _ & _ & F). congruence.
      + intros _ d' Ha' Ht' E.
        destruct (i_cur Hi d' Ha' Ht' ltac:(intros [])) as (C1 & _).
        pose proof (inv_lt Hi C1) as Hlt.
        unfold dev_cell_only, alloc_st in E. simpl_st. rewrite upd_same in E. lia. }
  assert (Hi3 : inv [] [d] [] T G (dev_cell_only s1)).
  { eapply inv_drop_X; [exact Hi2| |].
    - intros _. unfold home, dev_cell_only, alloc_st, d. simpl_st. rewrite upd_same. split; [reflexivity|discriminate].
    - intros v _. unfold dev_cell_only, alloc_st, d. simpl_st. apply upd_same. }
  eapply inv_add_cell; [exact Hi3|apply added_cur| | |discriminate].
  - intros k E. injection E as <-. repeat split; try reflexivity.
    + unfold dev_cells, dev_cell_only, alloc_st. simpl_st.
      apply (i_fresh Hi (S (nxt s1)) ltac:(lia)).
    + right. split; [reflexivity|]. exists d. unfold dev_cell_only, alloc_st, d. simpl_st. rewrite !upd_same. tauto.
  - intros k E. discriminate.
Qed.

(* device::setup allocates the temporary wrapper t, the modeDevice_t d and its currentStream wrapper c *)
Lemma new_device_cells G s :
  inv [] [] [] [] G s ->
  let t := nxt s in let d := S t in let c := S d in
  exists s2,
    (forall A (rest : nat -> nat -> nat -> M A),
       (t <- alloc (TH KDev);; d <- alloc (TO KDev);; c <- alloc (TH KStr);;
        modify (fun s => set_ocur s (upd (ocur s) d c));;; rest t d c) s = rest t d c s2) /\
    inv [] [d] [] [t] G s2 /\ grow s s2 /\ nxt s2 = S c /\ vars s2 = vars s /\ dus s2 = dus s /\
    alive s2 t = true /\ tagof s2 t = TH KDev /\ hptr s2 t = None /\
    alive s2 d = true /\ tagof s2 d = TO KDev /\ ocur s2 d = c /\
    alive s2 c = true /\ tagof s2 c = TH KStr /\ hptr s2 c = None.
Proof.
  intros Hi t d c. set (s1 := alloc_st s (TH KDev)).
  destruct (alloc_handle_spec vkind [] [] [] [] G s KDev Hi) as [Hi1 Hp1]. fold t s1 in Hi1, Hp1.
  exists (dev_cells s1). split.
  { intros A rest. erewrite bind_run by apply alloc_run.
    rewrite (bind_run _ _ _ _ _ (alloc_run s1 (TO KDev))).
    rewrite (bind_run _ _ _ _ _ (alloc_run (alloc_st s1 (TO KDev)) (TH KStr))). reflexivity. }
  split; [exact (dev_cells_spec [t] G s1 Hi1)|].
  assert (Hg1 : grow s s1) by (eapply added_grow; apply added_alloc).
  assert (Hg2 : grow s1 (dev_cells s1)) by (eapply grow_trans; eapply added_grow; [apply added_dev|apply added_cur]).
  split; [eapply grow_trans; eassumption|].
  assert (Hfc : hptr s c = None) by (apply (i_fresh Hi c); unfold c, d, t; lia).
  assert (Hft : hptr s t = None) by (apply (i_fresh Hi t (le_n _))).
  clear Hi1 Hp1 Hg1 Hg2. subst s1. unfold dev_cells, alloc_st. simpl_st. fold t d c.
  assert (t <> d /\ t <> c /\ d <> c) as (N1 & N2 & N3) by (unfold c, d; lia).
  rewrite !(upd_other _ c _ t), !(upd_other _ d _ t), !(upd_other _ c _ d), !upd_same by assumption.
  repeat split; assumption.
Qed.

(* device(props) as a temporary *)
Lemma new_device_spec G s :
  inv [] [] [] [] G s ->
  exists G' s', new_device_tmp fixed s = Some (nxt s, s') /\ inv [] [] [] [nxt s] G' s' /\
    tagof s' (nxt s) = TH KDev /\ grow s s' /\ vars s' = vars s /\ dus s' = dus s.
Proof.
  intros Hi. unfold new_device_tmp.
  destruct (new_device_cells G s Hi) as
    (s2 & -> & Hi2 & Hg02 & En2 & Ev2 & Ed2 & Hat2 & Htt2 & Hpt2 & Had2 & Htd2 & Hcur2 & Hac2 & Htc2 & Hpc2).
  set (t := nxt s) in *. set (d := S t) in *. set (c := S d) in *.
  (* setModeDevice *)
  destruct (h_set_fresh vkind [] [d] [] [t] G s2 t KDev d) as (s3 & R3 & Hi3 & Hsame3); try assumption.
  { intros []. }
  { discriminate. }
  { intros d' Had' Htd' Hdw Hc'. exfalso.
    destruct (i_cur Hi2 d' Had' Htd' Hdw) as (_ & C2 & _). rewrite Hc' in C2. congruence. }
  erewrite bind_run by exact R3.
  pose proof Hsame3 as (S1 & S2 & S3 & S4 & _ & S6 & _ & S8 & S9 & _ & _ & _ & _ & _ & _ & S16 & _ & S18).
  simpl_st.
  set (G3 := upd2 G d SH (G d SH ++ [t])) in *.
  assert (Hi3' : inv [] [] [] [t] G3 s3).
  { apply (inv_unW vkind [] [] [] [t] G3 s3 d Hi3). intros _. refine (conj _ (conj _ (conj _ (conj _ (conj _ _))))).
    - intros b Hb. exfalso. rewrite S8 in Hb. pose proof (i_inner_tag Hi2 d b Hb). congruence.
    - intros Hc. rewrite S2, Htd2 in Hc. congruence.
    - intros Hc. rewrite S2, Htd2 in Hc. congruence.
    - intros _. rewrite S9, Hcur2, S3, S2, S16, S4, S6.
      split; [exact Hac2|]. split; [exact Htc2|]. split; [intros [E|[]]; unfold c, d in E; lia|]. split.
      + intros v Hv. rewrite Ev2 in Hv.
        destruct (i_vars Hi v c Hv) as (Hc' & _).
        destruct (i_fresh Hi c) as (_ & F & _); [unfold c, d, t; lia|]. congruence.
      + intros o Ho. rewrite upd_other in Ho by (unfold c, d; lia). congruence.
    - intros k Hk. rewrite S2, Htd2 in Hk. injection Hk as <-. intros _. unfold G3. rewrite upd2_same.
      destruct (G d SH); discriminate.
    - intros Hc. rewrite S2, Htd2 in Hc. congruence. }
  assert (Hlt3 : d < nxt s3 /\ t < nxt s3) by (rewrite S1, En2; unfold c, d; lia).
  (* createStream: the modeStream_t sm, then the stream ts that is returned *)
  destruct (new_leaf_spec [t] G3 s3 KStr d Hi3') as (G4 & s4 & R4 & Hi4 & Hast & Htst & Hfr4 & Hodst);
    [unfold leaf_kind; tauto|rewrite S3; exact Had2|rewrite S2; exact Htd2|].
  erewrite bind_run by exact R4.
  destruct Hfr4 as (F1 & F2 & F3 & _ & F6 & _).
  set (sm := nxt s3) in *.
  destruct (h_new_obj [t] G4 s4 sm KStr Hi4 Hast Htst) as
      (G5 & s5 & R5 & Hi5 & Hpts & Htts & Hg5 & Hv5 & Hd5 & Hod5 & _); try discriminate.
  { rewrite F6. apply (i_fresh Hi3' sm (le_n _)). }
  erewrite bind_run by exact R5.
  set (ts := nxt s4) in *.
  (* modeDevice->currentStream = ts; liveness and tags of sm, d and c are read off the invariant of s5 *)
  assert (Hats5 : alive s5 ts = true) by (apply (i_T Hi5 ts); now left).
  destruct (target_facts vkind _ G5 s5 ts sm KStr Hi5 Hats5 Htts Hpts) as (_ & Hast5 & Htst5 & _).
  destruct (i_dev Hi5 sm KStr Hast5 Htst5) as (d' & Hodst5 & Had5 & Htd5); try discriminate.
  rewrite Hod5, Hodst in Hodst5. injection Hodst5 as <-.
  assert (Hg35 : grow s3 s5) by (eapply grow_trans; eassumption).
  assert (Hcur5 : ocur s5 d = c).
  { rewrite (grow_cur _ _ _ Hg35) by apply Hlt3. rewrite S9. exact Hcur2. }
  destruct (i_cur Hi5 d Had5 Htd5 ltac:(intros [])) as (Hac5 & Htc5 & _). rewrite Hcur5 in Hac5, Htc5.
  destruct (h_set_spec vkind [ts; t] G5 s5 c KStr (Some sm) Hi5 Hac5 Htc5) as
      (G6 & s6 & R6 & Hi6 & _ & Hg6 & Hv6 & Hd6).
  { intros o E. injection E as <-. repeat split; [exact Hast5|exact Htst5|discriminate]. }
  { intros d' o Ha' Ht' Hc' E. injection E as <-.
    assert (d' = d) as -> by (apply (i_cur_inj Hi5 d' d Ha' Had5 Ht' Htd5); congruence).
    rewrite Hod5. exact Hodst. }
  assert (R6' : h_assign fixed c ts s5 = Some (tt, s6)).
  { unfold h_assign. erewrite bind_run by (apply rd_run; exact Hats5). rewrite Hpts.
    erewrite bind_run by (apply need_run; exact Hac5). exact R6. }
  erewrite bind_run by exact R6'.
  (* ~ts *)
  destruct (h_dtor_temp vkind [t] G6 s6 ts Hi6) as (G7 & s7 & R7 & Hi7 & Hg7 & Hv7 & Hd7).
  erewrite bind_run by exact R7.
  exists G7, s7. split; [reflexivity|]. split; [exact Hi7|].
  assert (Hg37 : grow s3 s7) by (eapply grow_trans; [exact Hg35|eapply grow_trans; eassumption]).
  split; [|split].
  - rewrite (grow_tag _ _ _ Hg37) by apply Hlt3. rewrite S2. exact Htt2.
  - eapply grow_trans; [exact Hg02|]. eapply grow_trans; [apply (grow_set_hptr s2)|].
    eapply grow_trans; [apply same_obj_grow; exact Hsame3|exact Hg37].
  - split; congruence.
Qed.

(* makeBuffer(); modeDevice->removeMemoryRef(buffer); buffer->malloc(); bytesAllocated += ... *)
Lemma make_buffer_spec W T G s p slots :
  inv [] W [] T G s -> alive s p = true -> tagof s p = TO KPool ->
  exists s', pool_make_buffer fixed p slots s = Some (nxt s, s') /\ inv [] (nxt s :: W) [] T G s' /\
    alive s' (nxt s) = true /\ ginner s' (nxt s) = true /\ odev s' (nxt s) = odev s p /\ frame_new s s'.
Proof.
  intros Hi Hp Ht. unfold pool_make_buffer. cbn [v_inner fixed].
  destruct (i_dev Hi p KPool Hp Ht ltac:(discriminate) ltac:(discriminate)) as (d & Hod & Had & Htd).
  erewrite bind_run by (apply rd_run; exact Hp). rewrite Hod.
  set (nb := nxt s).
  pose proof (i_fresh Hi nb (le_n _)) as (Fnb & _).
  destruct (new_buffer_spec W T G s KBuf d 0%Z Hi (or_introl eq_refl) Had Htd) as
      (s1 & R1 & Hi1 & Ha1 & Ht1 & _ & Hfr1 & Hod1).
  fold nb in R1, Hi1, Ha1, Ht1, Hod1.
  erewrite bind_run by exact R1.
  destruct Hfr1 as (F1 & F2 & F3 & F4 & F6 & F8 & F9 & F10 & F11).
  destruct (F11 d) as (D1 & D2 & _); [fold nb; congruence|].
  assert (Had1 : alive s1 d = true) by congruence.
  assert (Htd1 : tagof s1 d = TO KDev) by congruence.
  set (G1 := upd2 G d SBuf (G d SBuf ++ [nb])) in *.
  assert (HnbG : ~ In nb (G d SBuf)).
  { intros Hc. pose proof (hk_alive _ _ (i_heap Hi) _ _ _ Hc). congruence. }
  assert (Hin1 : In nb (G1 d SBuf)) by (unfold G1; rewrite upd2_same; apply in_or_app; right; now left).
  destruct (ring_removeRef_in s1 G1 d SBuf nb (i_heap Hi1) Had1 Hin1) as (s2 & R2 & Hsame2 & Hk2).
  erewrite bind_run by (erewrite bind_run by (apply need_run; exact Had1); exact R2).
  assert (HG2 : forall o sl, upd2 G1 d SBuf (ring_remove nb (G1 d SBuf)) o sl = G o sl).
  { intros o sl. unfold G1. rewrite upd2_same, upd2_upd2. rewrite (ring_remove_app_last _ _ HnbG).
    destruct (upd2_cases G d SBuf (G d SBuf) o sl) as [(-> & -> & E)|(_ & E)]; rewrite E; reflexivity. }
  assert (Hi2 : inv [nb] (nb :: W) [] T G s2).
  { eapply inv_ext_G; [intros o sl; symmetry; apply HG2|].
    eapply inv_unlink; try eassumption; [apply incl_refl|].
    intros Hw k Hk. rewrite Htd1 in Hk. injection Hk as <-.
    rewrite upd2_other by (right; discriminate).
    apply (i_live Hi1 d KDev Had1 Htd1 Hw). }
  pose proof Hsame2 as (S1 & S2 & S3 & _ & S5 & S6 & _ & S8 & S9 & _ & _ & S12 & S13 & _ & S15 & S16 & _ & S18).
  unfold modify at 1. cbn [bind].
  set (s3 := set_ginner s2 (upd (ginner s2) nb true)).
  assert (Hi3 : inv [] (nb :: W) [] T G s3).
  { eapply inv_drop_X; [apply inv_set_ginner; [exact Hi2|now left|now left| |exact (i_dead Hi nb SMem Fnb)]| |].
    - rewrite S2. exact Ht1.
    - intros _. unfold home, s3. simpl_st. rewrite S2, Ht1, upd_same. split; [reflexivity|discriminate].
    - intros v _. unfold s3. simpl_st. rewrite S3. exact Ha1. }
  assert (Hnb3 : alive s3 nb = true) by (unfold s3; simpl_st; rewrite S3; exact Ha1).
  erewrite bind_run by (apply need_modify_run; exact Hnb3).
  set (s4 := set_osize s3 (upd (osize s3) nb (unit_bytes * Z.of_nat slots)%Z)).
  assert (Hd4 : alive s4 d = true) by (unfold s4, s3; simpl_st; rewrite S3; exact Had1).
  erewrite bind_run by (apply rd_run; exact Hd4).
  erewrite bind_run by (apply need_modify_run; exact Hd4).
  eexists. split; [reflexivity|]. split.
  { apply inv_set_obytes. apply inv_set_osize. exact Hi3. }
  unfold s4, s3. simpl_st.
  split; [rewrite S3; exact Ha1|]. split; [apply upd_same|].
  split; [rewrite S6; congruence|].
  unfold frame_new. simpl_st.
  split.
  { destruct F1 as (G1' & G2' & G3' & G4' & G5' & G6'). unfold grow. simpl_st.
    rewrite S1, S2, S3, S6, S9. split; [exact G1'|]. split; [exact G2'|]. split; [exact G3'|]. split; [exact G4'|].
    split; [|exact G6']. intros e He. rewrite upd_other by (unfold nb; lia). rewrite S15. now apply G5'. }
  rewrite S16, S18, S1, S8, S5, S12, S13, F2, F3, F4, F6, F8, F9, F10.
  do 7 (split; [reflexivity|]).
  intros x Hx. rewrite S3, S2, S15, S6. rewrite upd_other by exact Hx. now apply F11.
Qed.

(* ~modeBuffer_t of a pool's own buffer *)
Lemma delete_inner_spec X W D T G s ob :
  inv X W D T G s -> alive s ob = true -> ginner s ob = true -> ~ In ob D ->
  (forall p, alive s p = true -> ~ In p W -> oinner s p <> Some ob) ->
  exists s', run_task fixed (TDelete ob) s = Some (tt, s') /\ inv X W D T G s' /\
    alive s' ob = false /\ (forall x, x <> ob -> alive s' x = alive s x) /\ shrink s s' /\ pres s' = pres s.
Proof.
  intros Hi0 Hb Hg Hd Hinn.
  pose proof (inv_weaken_W vkind X W D T G s ob Hi0) as Hi.
  destruct (i_ginner Hi ob Hg) as [Ht Hnil].
  unfold run_task. destruct (fuel_of s) as [|[|f]] eqn:Ef; [unfold fuel_of in Ef; lia..|]. cbn [exec].
  destruct (delete_enter vkind X (ob :: W) D T G s ob KBuf Hi Hb Ht Hd) as (Hi1 & Hent).
  set (s1 := set_dlog s (ob :: dlog s)) in *. rewrite Hent. cbv beta iota.
  assert (Hb1 : alive s1 ob = true) by exact Hb.
  destruct (i_dev Hi1 ob KBuf Hb1 Ht ltac:(discriminate) ltac:(discriminate)) as (d & Hd1 & Hd2 & Hd3).
  set (s2 := set_obytes s1 (upd (obytes s1) d (obytes s1 d - osize s1 ob)%Z)).
  assert (Hfree : free_of G ob).
  { intros o' sl' Hin. destruct (i_mem1 Hi _ _ _ Hin) as [Hh _].
    unfold home in Hh. rewrite Ht, Hg in Hh. discriminate. }
  destruct (ring_removeRef_out s2 G d SBuf ob (i_heap (inv_set_obytes vkind _ _ _ _ _ _ d _ Hi1)) Hd2 Hb1 Hfree)
    as (s3 & R3' & Hsame3 & Hk3).
  assert (Hi3 : inv X (ob :: W) (ob :: D) T G s3) by (eapply inv_same_obj; [apply inv_set_obytes, Hi1|eassumption..]).
  pose proof Hsame3 as (_ & S2 & S3 & _ & _ & _ & _ & S8 & _ & _ & _ & S12 & _).
  assert (Hb3 : alive s3 ob = true) by (rewrite S3; exact Hb1).
  assert (Ht3 : tagof s3 ob = TO KBuf) by (rewrite S2; exact Ht).
  erewrite bind_run.
  2:{ erewrite bind_run by reflexivity.
    erewrite bind_run by (cbn [exec]; erewrite bind_run by (eapply rd_head_run; [apply Hi1|exact Hb1]); rewrite Hnil; reflexivity).
    erewrite bind_run by (apply rd_run; exact Hb1). rewrite Hd1.
    erewrite bind_run by (apply rd_run; exact Hb1). erewrite bind_run by (apply rd_run; exact Hd2).
    erewrite bind_run by (apply need_modify_run; exact Hd2). exact R3'. }
  rewrite (kill_run ob s3 Hb3).
  eexists. split; [reflexivity|]. split; [|split; [|split; [|split]]].
  - eapply inv_unW_dead; [|simpl_st; apply upd_same].
    eapply kill_obj; try exact Hi3.
    + now left.
    + now exists KBuf.
    + exact Hd.
    + exact Hfree.
    + intros sl. destruct sl; try (eapply ring_nil; [exact Hi|rewrite Ht; reflexivity]). exact Hnil.
    + intros p Hap Hpw E. rewrite S3 in Hap. rewrite S8 in E. apply (Hinn p Hap); [|exact E]. intros Hc. apply Hpw. now right.
    + intros x k' Hax Hxb Htx Hk1' Hk2' E.
      destruct (i_dev Hi3 x k' Hax Htx Hk1' Hk2') as (d' & Hd1' & _ & Hd3'). congruence.
    + congruence.
    + intros b0 E. pose proof (i_inner_tag Hi3 ob b0 E). congruence.
  - simpl_st. apply upd_same.
  - intros x Hx. simpl_st. rewrite upd_other by exact Hx. now rewrite S3.
  - eapply shrink_trans; [apply (shrink_dlog s (ob :: dlog s))|].
    eapply shrink_trans; [apply (shrink_obytes s1)|].
    eapply shrink_trans; [apply same_obj_shrink; exact Hsame3|apply shrink_kill].
  - simpl_st. rewrite S12. reflexivity.
Qed.

Lemma inv_unW_buf X W D T G s b :
  inv X (b :: W) D T G s -> tagof s b = TO KBuf ->
  (if ginner s b then exists p, alive s p = true /\ oinner s p = Some b else G b SMem <> []) ->
  inv X W D T G s.
Proof.
  intros Hi Ht Hk. apply (inv_unW vkind X W D T G s b Hi). intros _. refine (conj _ (conj _ (conj _ (conj _ (conj _ _))))); try congruence.
  - intros b' Hb'. pose proof (i_inner_tag Hi b b' Hb'). congruence.
  - intros _ Hg. now rewrite Hg in Hk.
  - intros k Hk'. rewrite Ht in Hk'. injection Hk' as <-. intros Hg. now rewrite Hg in Hk.
Qed.

Lemma inv_unW_pool X W D T G s p b :
  inv X (p :: W) D T G s -> oinner s p = Some b ->
  alive s b = true -> ginner s b = true -> odev s b = odev s p ->
  (ouse s p = true -> G p SH <> []) -> (forall m, In m (G p SMem) -> In m (pres s p)) ->
  inv X W D T G s.
Proof.
  intros Hi Hb A1 A3 A4 Hl Hp.
  pose proof (i_inner_tag Hi p b Hb) as Ht. destruct (i_ginner Hi b A3) as [A2 _].
  apply (inv_unW vkind X W D T G s p Hi). intros _. refine (conj _ (conj _ (conj _ (conj _ (conj _ _))))); try congruence.
  - intros b' Hb'. rewrite Hb in Hb'. injection Hb' as <-. repeat split; assumption.
  - intros _. exact Hp.
  - intros k Hk. rewrite Ht in Hk. injection Hk as <-. exact Hl.
Qed.

(* what resize leaves alone until it writes the pool's own fields *)
Definition keeps (s s' : st) : Prop :=
  grow s s' /\ dus s' = dus s /\ oinner s' = oinner s /\ ouse s' = ouse s /\ pres s' = pres s.

Lemma keeps_trans a b c : keeps a b -> keeps b c -> keeps a c.
Proof.
  intros (A1 & A2 & A3 & A4 & A5) (B1 & B2 & B3 & B4 & B5).
  split; [eapply grow_trans; eassumption|]. repeat split; congruence.
Qed.

Lemma keeps_new s s' : frame_new s s' -> keeps s s'.
Proof. intros (F1 & _ & F3 & _ & F6 & F8 & F9 & _). unfold keeps. auto. Qed.

Lemma keeps_shrink s s' : shrink s s' -> pres s' = pres s -> keeps s s'.
Proof.
  intros H Hp. split; [apply shrink_grow, H|].
  destruct H as (_ & _ & _ & _ & _ & _ & _ & _ & Euse & Edus & _ & _ & Eoin & _). auto.
Qed.

(* buffer = newBuffer; size = ...: after the old buffer has gone and nb is made *)
Lemma resize_finish T G s0 s p nb slots v :
  inv [] [] [] T G s0 -> alive s0 p = true -> tagof s0 p = TO KPool -> nb = nxt s0 ->
  keeps s0 s -> inv [] [nb; p] [] T G s -> alive s p = true ->
  alive s nb = true -> ginner s nb = true -> odev s nb = odev s0 p ->
  (forall b, oinner s0 p = Some b -> alive s b = false) ->
  exists s', (wr_oinner p (Some nb);;; wr_pslots p slots;;; wr_osize p v) s = Some (tt, s') /\
    inv [] [] [] T G s' /\ alive s' p = true /\ tagof s' p = TO KPool /\ oinner s' p <> None /\
    grow s0 s' /\ dus s' = dus s0.
Proof.
  intros Hi0 Hp0 Ht0 -> (Hg & Edus & Eoin & Euse & Epres) Hi Hp Hanb Hgnb Hodnb Hold.
  destruct (i_ginner Hi _ Hgnb) as [Htnb _].
  set (nb := nxt s0) in *.
  assert (Hlt : p < nb) by (eapply inv_lt; eassumption).
  pose proof Hg as (_ & Gtag & Galive & Godev & _).
  assert (Ht : tagof s p = TO KPool) by (rewrite Gtag; assumption).
  erewrite bind_run by (apply need_modify_run; exact Hp).
  erewrite bind_run by (apply need_modify_run; simpl_st; exact Hp).
  unfold wr_osize. rewrite need_modify_run by (simpl_st; exact Hp).
  set (s1 := set_pslots (set_oinner s (upd (oinner s) p (Some nb))) (upd (pslots s) p slots)).
  eexists. split; [reflexivity|]. simpl_st.
  split; [|split; [exact Hp|split; [exact Ht|split; [rewrite upd_same; discriminate|split; [|exact Edus]]]]].
  2:{ eapply grow_trans; [exact Hg|]. unfold grow. simpl_st. repeat split; auto. }
  apply (inv_set_osize vkind [] [] [] T G s1).
  assert (Hi1 : inv [] [nb; p] [] T G s1).
  { apply inv_pool_attach; try assumption.
    - right. now left.
    - intros q Hq E. rewrite Eoin in E.
      destruct (Nat.lt_ge_cases q nb) as [Hq0|Hq0].
      + destruct (i_inner Hi0 q nb (Galive q Hq0 Hq) ltac:(intros []) E) as (_ & A & _).
        destruct (i_fresh Hi0 nb (le_n _)) as (F & _). congruence.
      + destruct (i_fresh Hi0 q Hq0) as (_ & _ & _ & _ & _ & _ & F & _). congruence.
    - intros b Hb. rewrite Eoin in Hb. now apply Hold. }
  assert (Hi2 : inv [] [p] [] T G s1).
  { apply (inv_unW_buf [] [p] [] T G s1 nb Hi1); unfold s1; simpl_st; [exact Htnb|].
    rewrite Hgnb. exists p. split; [exact Hp|apply upd_same]. }
  apply (inv_unW_pool [] [] [] T G s1 p nb Hi2); unfold s1; simpl_st; try assumption.
  - apply upd_same.
  - now rewrite (Godev p Hlt).
  - rewrite Euse. apply (i_live Hi0 p KPool Hp0 Ht0). intros [].
  - intros m Hm. rewrite Epres. apply (i_pres Hi0 p m Hp0 Ht0); [intros []|exact Hm].
Qed.

(* modeMemoryPool_t::resize as reached from reserve *)
Lemma resize_spec T G s p slots :
  inv [] [] [] T G s -> alive s p = true -> tagof s p = TO KPool -> slots <> 0 ->
  exists s', pool_resize fixed p slots s = Some (tt, s') /\ inv [] [] [] T G s' /\
    alive s' p = true /\ tagof s' p = TO KPool /\ oinner s' p <> None /\ grow s s' /\ dus s' = dus s.
Proof.
  intros Hi Hp Ht Hs0. unfold pool_resize.
  erewrite bind_run by (apply rd_run; exact Hp).
  destruct (Nat.eqb_spec (pslots s p) slots) as [Eq|_].
  { exists s. split; [reflexivity|]. split; [exact Hi|]. split; [exact Hp|]. split; [exact Ht|].
    split; [|split; [apply grow_refl|reflexivity]].
    apply (i_pool_buf Hi p Hp Ht ltac:(intros [])). right. congruence. }
  do 2 erewrite bind_run by (apply rd_run; exact Hp).
  assert (Hold : forall ob, oinner s p = Some ob ->
             alive s ob = true /\ tagof s ob = TO KBuf /\ ginner s ob = true /\ ob <> p /\
             forall q, alive s q = true -> q <> p -> oinner s q <> Some ob).
  { intros ob E. destruct (i_inner Hi p ob Hp ltac:(intros []) E) as (_ & A1 & A2 & A3 & _).
    repeat split; try assumption; try congruence.
    intros q Hq Hqp Eq. apply Hqp. eapply (i_inner_inj Hi); eassumption. }
  pose proof (i_fresh Hi (nxt s) (le_n _)) as (Fnb & _).
  assert (Hlt : p < nxt s) by (eapply inv_lt; eassumption).
  destruct (pres s p) as [|m0 res] eqn:Eres.
  - (* nothing reserved: the old buffer goes first *)
    assert (H1 : exists s1, (match oinner s p with Some ob => run_task fixed (TDelete ob) | None => ret tt end) s = Some (tt, s1) /\
               inv [] [p] [] T G s1 /\ shrink s s1 /\ pres s1 = pres s /\
               (forall x, oinner s p <> Some x -> alive s1 x = alive s x) /\
               (forall b, oinner s p = Some b -> alive s1 b = false)).
    { pose proof (inv_weaken_W vkind [] [] [] T G s p Hi) as Hiw.
      destruct (oinner s p) as [ob|].
      - destruct (Hold ob eq_refl) as (A1 & A2 & A3 & _ & A5).
        destruct (delete_inner_spec [] [p] [] T G s ob Hiw A1 A3 ltac:(intros [])) as (s1 & R1 & Hi1 & Hdead1 & Hal1 & Hsh1 & Ep1).
        { intros q Hq Hqw. apply A5; [exact Hq|]. intros ->. apply Hqw. now left. }
        exists s1. split; [exact R1|]. split; [exact Hi1|]. split; [exact Hsh1|]. split; [exact Ep1|].
        split; [intros x Hx; apply Hal1; congruence|intros b [= <-]; exact Hdead1].
      - exists s. split; [reflexivity|]. split; [exact Hiw|]. split; [apply shrink_refl|]. split; [reflexivity|].
        split; [reflexivity|discriminate]. }
    destruct H1 as (s1 & R1 & Hi1 & Hsh1 & Ep1 & Hal1 & Hdead1).
    erewrite bind_run by exact R1.
    pose proof Hsh1 as (Enxt & Etag & _ & _ & _ & Eodev & _).
    assert (Hp1 : alive s1 p = true).
    { rewrite Hal1; [exact Hp|]. intros E. now destruct (Hold p E) as (_ & _ & _ & N & _). }
    destruct (make_buffer_spec [p] T G s1 p slots Hi1 Hp1) as (s2 & R2 & Hi2 & Hanb & Hgnb & Hodnb & Hfr2);
      [congruence|].
    erewrite bind_run by exact R2.
    pose proof Hfr2 as (_ & _ & _ & _ & _ & _ & _ & _ & F11).
    apply (resize_finish T G s s2 p (nxt s1) slots _ Hi Hp Ht Enxt); try assumption.
    + eapply keeps_trans; [apply keeps_shrink; eassumption|apply keeps_new; exact Hfr2].
    + destruct (F11 p ltac:(lia)) as (P1 & _). rewrite P1. exact Hp1.
    + congruence.
    + intros b Eb. destruct (F11 b) as (B1 & _); [|rewrite B1; now apply Hdead1].
      intros ->. destruct (Hold _ Eb) as (A1 & _). congruence.
  - (* live reservations: the new buffer is made first *)
    destruct (make_buffer_spec [] T G s p slots Hi Hp Ht) as
        (s1 & R1 & Hi1 & Hanb & Hgnb & Hodnb & Hfr1).
    erewrite bind_run by exact R1.
    pose proof Hfr1 as (_ & _ & _ & _ & F6 & _ & _ & _ & F11).
    destruct (oinner s p) as [ob|] eqn:Eo.
    2:{ exfalso. apply (i_pool_buf Hi p Hp Ht ltac:(intros [])); [left; rewrite Eres; discriminate|exact Eo]. }
    destruct (Hold ob eq_refl) as (A1 & A2 & A3 & A4 & A5).
    destruct (F11 ob ltac:(congruence)) as (B1 & B2 & B3 & _).
    destruct (F11 p ltac:(lia)) as (P1 & _).
    destruct (delete_inner_spec [] [nxt s; p] [] T G s1 ob) as (s2 & R2 & Hi2 & Hdead2 & Hal2 & Hsh2 & Ep2).
    + apply inv_incl_W with (W := [nxt s]); [exact Hi1|]. intros x [<-|[]]. now left.
    + congruence.
    + congruence.
    + intros [].
    + intros q Hq Hqw. rewrite F6. destruct (F11 q) as (Q1 & _); [intros ->; apply Hqw; now left|].
      apply A5; [congruence|]. intros ->. apply Hqw. right. now left.
    + erewrite bind_run by exact R2.
      pose proof Hsh2 as (_ & Etag & _ & _ & _ & Eodev & Egin & _).
      apply (resize_finish T G s s2 p (nxt s) slots _ Hi Hp Ht eq_refl); try assumption; try congruence.
      * eapply keeps_trans; [apply keeps_new; exact Hfr1|apply keeps_shrink; assumption].
      * rewrite Hal2; congruence.
      * rewrite Hal2; congruence.
Qed.

(* serial::memoryPool::slice *)
Lemma pool_slice_spec T G s p off :
  inv [] [] [] T G s -> alive s p = true -> tagof s p = TO KPool -> oinner s p <> None ->
  exists m G' s', pool_slice p off s = Some (m, s') /\ inv [] [m] [] T G' s' /\
    alive s' m = true /\ tagof s' m = TO KMem /\ grow s s' /\ dus s' = dus s.
Proof.
  intros Hi Hp Ht Hoi. unfold pool_slice. rewrite (bind_run _ _ _ _ _ (alloc_run s (TO KMem))).
  set (m := nxt s).
  unfold set_field_obuf at 1. unfold modify at 1. cbn [bind]. unfold modify at 1. cbn [bind].
  set (s2 := set_moff (set_obuf (alloc_st s (TO KMem)) (upd (obuf (alloc_st s (TO KMem))) m (Some p)))
                      (upd (moff (set_obuf (alloc_st s (TO KMem)) (upd (obuf (alloc_st s (TO KMem))) m (Some p)))) m off)).
  assert (A : added s s2 m (TO KMem)) by (apply added_set_moff; apply added_set_obuf; apply added_alloc).
  pose proof (i_fresh Hi m (le_n _)) as (Fm & _ & _ & _ & _ & _ & _ & _ & _ & Fg).
  assert (Hpm : p <> m) by congruence.
  assert (Hiw : inv [] [p] [] T G s) by (apply inv_incl_W with (W := []); [exact Hi|intros x []]).
  (* m is linked before it is entered in pres: p stays in W until then *)
  destruct (link_new_obj [p] T G s s2 m KMem p SMem Hiw A) as (s3 & R & Hi3 & Hm3 & Htm3 & Hfr & _);
    try assumption; try discriminate.
  { unfold home. rewrite (ad_tag A). unfold s2. simpl_st. now rewrite upd_same. }
  { now rewrite Ht. }
  { right. split; [reflexivity|]. right. split; [exact Ht|now left]. }
  rewrite R.
  pose proof Hfr as (Hg3 & _ & Fdus & _ & Foin & Fuse & Fpres & _ & F11).
  destruct (F11 p Hpm) as (P1 & P2 & _ & P5).
  set (G3 := upd2 G p SMem (G p SMem ++ [m])) in *.
  assert (Hp3 : alive s3 p = true) by (rewrite P1; exact Hp).
  erewrite bind_run by (apply rd_run; exact Hp3).
  erewrite bind_run by apply get_run.
  erewrite bind_run by (apply need_modify_run; exact Hp3).
  set (l := insert_sorted (moff s3) m (pres s3 p)).
  set (s4 := set_pres s3 (upd (pres s3) p l)).
  assert (Hpres4 : forall x, In x (G3 p SMem) -> In x l).
  { intros x Hx. unfold G3 in Hx. rewrite upd2_same in Hx. apply insert_sorted_In.
    apply in_app_or in Hx. destruct Hx as [Hx|[<-|[]]]; [right|now left].
    rewrite Fpres. exact (i_pres Hi p x Hp Ht ltac:(intros []) Hx). }
  assert (Hi4 : inv [] [m; p] [] T G3 s4).
  { apply inv_set_pres; [exact Hi3|exact Hp3|exact Hpres4|]. intros _ Hc. exfalso. apply Hc. right. now left. }
  exists m, G3, s4. split; [reflexivity|]. split.
  { destruct (oinner s p) as [b|] eqn:Eb; [|congruence].
    destruct (i_inner Hi p b Hp ltac:(intros []) Eb) as (_ & I2 & I3 & I4 & I5).
    destruct (F11 b) as (C1 & C2 & C3 & C5); [fold m; congruence|].
    apply (inv_unW_pool [] [m] [] T G3 s4 p b); unfold s4; simpl_st; try congruence.
    - apply inv_incl_W with (W := [m; p]); [exact Hi4|]. intros x [<-|[<-|[]]]; [right; now left|now left].
    - rewrite Fuse. unfold G3. rewrite upd2_other by (right; discriminate).
      apply (i_live Hi p KPool Hp Ht ltac:(intros [])).
    - rewrite upd_same. exact Hpres4. }
  unfold s4. simpl_st.
  split; [exact Hm3|]. split; [exact Htm3|].
  split; [exact Hg3|exact Fdus].
Qed.

(* modeMemoryPool_t::reserve (one alignment unit) *)
Lemma pool_reserve_spec T G s p :
  inv [] [] [] T G s -> alive s p = true -> tagof s p = TO KPool ->
  exists m G' s', pool_reserve fixed p s = Some (m, s') /\ inv [] [m] [] T G' s' /\
    alive s' m = true /\ tagof s' m = TO KMem /\ grow s s' /\ dus s' = dus s.
Proof.
  intros Hi Hp Ht. unfold pool_reserve.
  do 2 erewrite bind_run by (apply rd_run; exact Hp).
  assert (Hresized : forall n, n <> 0 ->
     exists m G' s', (pool_resize fixed p n;;; pool_slice p (length (pres s p))) s = Some (m, s') /\ inv [] [m] [] T G' s' /\
       alive s' m = true /\ tagof s' m = TO KMem /\ grow s s' /\ dus s' = dus s).
  { intros n Hn.
    destruct (resize_spec T G s p n Hi Hp Ht Hn) as (s1 & R1 & Hi1 & Hp1 & Ht1 & Ho1 & Hg1 & Hd1).
    destruct (pool_slice_spec T G s1 p (length (pres s p)) Hi1 Hp1 Ht1 Ho1) as
        (m & G' & s' & R & Hi' & A1 & A2 & A4 & A5).
    exists m, G', s'. split; [erewrite bind_run by exact R1; exact R|]. split; [exact Hi'|].
    split; [exact A1|]. split; [exact A2|].
    split; [eapply grow_trans; eassumption|congruence]. }
  destruct (Nat.ltb_spec (pslots s p) (length (pres s p) + 1)) as [Hlt|Hge].
  - apply Hresized. lia.
  - destruct (pres s p) as [|m0 res] eqn:Eres.
    + apply (pool_slice_spec T G); try assumption.
      apply (i_pool_buf Hi p Hp Ht ltac:(intros [])). right. cbn in Hge. lia.
    + erewrite bind_run by apply get_run.
      destruct (Nat.leb (first_gap (moff s) (m0 :: res) 0 + 1) (pslots s p)).
      * apply (pool_slice_spec T G); try assumption.
        apply (i_pool_buf Hi p Hp Ht ltac:(intros [])). left. rewrite Eres. discriminate.
      * apply Hresized. cbn. lia.
Qed.

End C.
