(* C01 — histories stay well formed (from the step theorem); what holds in every well-formed state. *)
From Coq Require Import List Arith Bool ZArith Lia Permutation.
From OV.C01 Require Import Model Ring Heap Inv InvPrim2 ExecBase Exec Exec6 Alloc Ops Create Step Statements.
Import ListNotations.

Lemma inv_init vkind : inv vkind [] [] [] [] (fun _ _ => []) init.
Proof.
  constructor.
  1:{ constructor; cbn; intros; try contradiction; try exact I; try (constructor; fail); auto. }
  all: cbn; intros; try discriminate; try contradiction; try (constructor; fail); auto.
  - repeat split.
  - split; [intros []|]. intros [[k Hk] _]. discriminate.
Qed.

Section T.
Variable vkind : nat -> kind.
Notation WF := (WF vkind).

Lemma WF_init : WF init.
Proof. split; [exists (fun _ _ => []); apply inv_init|]. intros o []. Qed.

Lemma run_ok : forall ops s, WF s -> exists s', run fixed vkind ops s = Some s' /\ WF s'.
Proof.
  induction ops as [|o ops IH]; intros s Hw.
  - exists s. split; [reflexivity|exact Hw].
  - cbn [run]. destruct (step_ok vkind o s Hw) as (r & s1 & R & Hw1). rewrite R. now apply IH.
Qed.

Definition reach (s : st) : Prop := exists ops, run fixed vkind ops init = Some s.

Lemma reach_WF s : reach s -> WF s.
Proof.
  intros [ops Hr]. destruct (run_ok ops init WF_init) as (s' & R & Hw). congruence.
Qed.

Lemma walk_path s start : forall l a fuel,
  path (lft s) (rgt s) a (l ++ [start]) -> ~ In start l -> length l < fuel ->
  walk s fuel start a = a :: l.
Proof.
  induction l as [|b l IH]; intros a fuel Hp Hn Hf.
  - destruct fuel as [|f]; [cbn in Hf; lia|]. cbn in Hp. destruct Hp as [[Hr _] _]. cbn [walk]. rewrite Hr, Nat.eqb_refl. reflexivity.
  - destruct fuel as [|f]; [cbn in Hf; lia|]. cbn [app path] in Hp. destruct Hp as [[Hr _] Hp]. cbn [walk]. rewrite Hr.
    destruct (Nat.eqb_spec b start) as [->|Hne]; [exfalso; apply Hn; now left|].
    f_equal. apply IH; [exact Hp|intros H; apply Hn; now right|cbn in Hf; lia].
Qed.

Lemma ring_list_G X W D T G s o sl : inv vkind X W D T G s -> ring_list s o sl = G o sl.
Proof.
  intros Hi. pose proof (i_heap Hi) as Hk. unfold ring_list. rewrite (hk_head _ _ Hk).
  destruct (G o sl) as [|h t] eqn:EG; [reflexivity|]. cbn [hd_error].
  pose proof (hk_cyc _ _ Hk o sl) as Hc. pose proof (hk_nd _ _ Hk o sl) as Hnd. rewrite EG in Hc, Hnd.
  apply walk_path; [exact Hc|apply NoDup_cons_iff in Hnd; tauto|].
  assert (Hlen : length (h :: t) <= nxt s).
  { rewrite <- (seq_length (nxt s) 0). apply NoDup_incl_length; [exact Hnd|].
    intros x Hx. apply in_seq. split; [lia|]. cbn.
    eapply inv_lt; [exact Hi|]. apply (hk_alive _ _ Hk o sl). now rewrite EG. }
  cbn [length] in Hlen. lia.
Qed.

Lemma WF_Wf s : WF s -> Wf s.
Proof.
  intros [[G Hi] _]. constructor.
  - intros o sl. rewrite (ring_list_G _ _ _ _ _ _ o sl Hi). apply (hk_nd _ _ (i_heap Hi)).
  - intros o sl e. rewrite (ring_list_G _ _ _ _ _ _ o sl Hi). split.
    + intros Hin. split; [apply (hk_alive _ _ (i_heap Hi) _ _ _ Hin)|apply (i_mem1 Hi _ _ _ Hin)].
    + intros [Ha Hh]. apply (i_mem2 Hi); [exact Ha|intros []|exact Hh].
  - intros e o sl Ha Hh. apply (i_own Hi e o sl). apply (i_mem2 Hi); [exact Ha|intros []|exact Hh].
  - apply (i_log_nd Hi).
  - intros o. rewrite (i_log Hi o). split; [intros [H1 [H2|[]]]; tauto|tauto].
Qed.

Lemma run_app ops1 : forall ops2 s s1, run fixed vkind ops1 s = Some s1 ->
  run fixed vkind (ops1 ++ ops2) s = run fixed vkind ops2 s1.
Proof.
  induction ops1 as [|o ops1 IH]; intros ops2 s s1 H; cbn in *.
  - now injection H as <-.
  - destruct (step fixed vkind o s) as [[r s']|]; [|discriminate]. now apply IH.
Qed.

Lemma ring_witness G s o sl : inv vkind [] [] [] [] G s -> G o sl <> [] ->
  exists e, alive s e = true /\ home s e = Some (o, sl) /\ fits (tagof s e) (tagof s o) sl = true.
Proof.
  intros Hi Hne. destruct (G o sl) as [|e t] eqn:EG; [congruence|].
  destruct (member_facts (e:=e) (o:=o) (sl:=sl) Hi) as (Ha & _ & Hh & _ & Hfit); [rewrite EG; now left|].
  now exists e.
Qed.

Lemma counted_has_wrapper G s o k :
  inv vkind [] [] [] [] G s -> alive s o = true -> tagof s o = TO k -> k <> KBuf -> ouse s o = true ->
  exists h, alive s h = true /\ tagof s h = TH k /\ hptr s h = Some o.
Proof.
  intros Hi Ha Ht Hk Hu. pose proof (i_live Hi o k Ha Ht ltac:(intros [])) as Hl.
  destruct (ring_witness G s o SH Hi) as (h & Hah & Hhome & Hfit); [destruct k; try congruence; now apply Hl|].
  destruct (fits_SH _ _ Hfit) as (k' & Hth & Hto & _). rewrite Ht in Hto. injection Hto as <-.
  exists h. split; [exact Hah|]. split; [exact Hth|].
  unfold home in Hhome. rewrite Hth in Hhome. destruct (hptr s h); congruence.
Qed.

Lemma count_occ_once (l : list nat) o : NoDup l -> In o l -> count_occ Nat.eq_dec l o = 1.
Proof.
  intros Hnd Hin. pose proof (proj1 (NoDup_count_occ Nat.eq_dec l) Hnd o).
  pose proof (proj1 (count_occ_In Nat.eq_dec l o) Hin). lia.
Qed.

Theorem wf_init_thm : Wf init.
Proof. apply WF_Wf, WF_init. Qed.

Theorem wf_step_thm : forall s o, reach s ->
  exists r s', step fixed vkind o s = Some (r, s') /\ Wf s' /\ reach s'.
Proof.
  intros s o Hr. destruct (step_ok vkind o s (reach_WF s Hr)) as (r & s' & R & Hw).
  exists r, s'. split; [exact R|]. split; [now apply WF_Wf|].
  destruct Hr as [ops Hops]. exists (ops ++ [o]). rewrite (run_app ops [o] init s Hops). cbn. now rewrite R.
Qed.

Theorem wf_run_thm : forall ops, exists s, run fixed vkind ops init = Some s /\ Wf s.
Proof.
  intros ops. destruct (run_ok ops init WF_init) as (s & R & Hw). exists s. split; [exact R|now apply WF_Wf].
Qed.

Theorem no_touch_after_destroy_thm : forall ops, run fixed vkind ops init <> None.
Proof. intros ops. destruct (run_ok ops init WF_init) as (s & R & _). congruence. Qed.

Theorem destroyed_exactly_once_thm : forall s, WF s ->
  (forall o, count_occ Nat.eq_dec (dlog s) o <= 1) /\
  (forall o k, tagof s o = TO k -> k <> KBuf -> ouse s o = true ->
     (forall h, wrapper s h -> hptr s h <> Some o) -> count_occ Nat.eq_dec (dlog s) o = 1).
Proof.
  intros s [[G Hi] _].
  split.
  - intros o. apply NoDup_count_occ, (i_log_nd Hi).
  - intros o k Ht Hk Hu Hnone. apply count_occ_once; [apply (i_log_nd Hi)|].
    apply (i_log Hi). split; [now exists k|left].
    destruct (alive s o) eqn:Ea; [exfalso|reflexivity].
    destruct (counted_has_wrapper G s o k Hi Ea Ht Hk Hu) as (h & Hah & Hth & Hp).
    apply (Hnone h); [split; [exact Hah|now exists k]|exact Hp].
Qed.

Theorem free_uninitializes_all_thm : forall s v h o,
  WF s -> vars s v = Some h -> hptr s h = Some o ->
  exists s', step fixed vkind (OFree v) s = Some (Done, s') /\
    alive s' o = false /\ count_occ Nat.eq_dec (dlog s') o = 1 /\
    (forall h', wrapper s' h' -> hptr s' h' <> Some o).
Proof.
  intros s v h o [[G Hi] _] Hv Hp.
  unfold step. erewrite bind_run by apply get_run. rewrite Hv.
  destruct (var_handle vkind [] G s v h Hi Hv) as (Hu & _ & Hth).
  destruct (h_free_spec vkind [] G s h (vkind v) Hi Hu Hth) as (G1 & s1 & R1 & Hi1 & _ & _ & _ & Hpost).
  erewrite bind_run by exact R1.
  destruct (Hpost o Hp) as (P1 & P2 & P3).
  exists s1. split; [reflexivity|]. split; [exact P1|]. split; [exact (count_occ_once _ o (i_log_nd Hi1) P2)|].
  intros h' [Ha Ht]. now apply P3.
Qed.

Theorem no_leak_thm : forall s, WF s -> (forall v, vars s v = None) ->
  forall o k, alive s o = true -> tagof s o = TO k -> kept_alive s o k.
Proof.
  intros s [[G Hi] _] Hnv o k Ha Ht.
  assert (Hgen : k <> KBuf -> ouse s o = false \/
             (k = KStr /\ exists d, alive s d = true /\ tagof s d = TO KDev /\ hptr s (ocur s d) = Some o)).
  { intros Hk. destruct (ouse s o) eqn:Eu; [right|now left].
    destruct (counted_has_wrapper G s o k Hi Ha Ht Hk Eu) as (h & Hah & Hth & Hp).
    (* with no variables left, the wrapper is the current stream of a device *)
    destruct (i_handles Hi h k Hah Hth) as [[v Hv]|[(d & D1 & D2 & D3)|[]]].
    - rewrite Hnv in Hv. discriminate.
    - destruct (i_cur Hi d D1 D2 ltac:(intros [])) as (_ & C2 & _). rewrite D3, Hth in C2. injection C2 as ->.
      split; [reflexivity|]. exists d. rewrite D3. repeat split; assumption. }
  destruct k; try (apply Hgen; discriminate).
  cbn [kept_alive]. destruct (ginner s o) eqn:Eg.
  - right. destruct (i_inner_own Hi o Ha Ht Eg ltac:(intros [])) as (p & P1 & P2).
    exists p. split; [exact P1|]. split; [|exact P2]. apply (i_inner_tag Hi p o P2).
  - left. destruct (ring_witness G s o SMem Hi (i_live Hi o KBuf Ha Ht ltac:(intros []) Eg)) as (m & Ham & Hhome & Hfit).
    destruct (fits_SMem _ _ Hfit) as (Htm & _).
    exists m. split; [exact Ham|]. split; [exact Htm|].
    unfold home in Hhome. rewrite Htm in Hhome. destruct (obuf s m); congruence.
Qed.

End T.
