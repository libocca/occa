(* C01 — a fresh cell joins the heap. *)
From Coq Require Import List Arith Bool ZArith Lia Permutation.
From OV.C01 Require Import Model Ring Heap Inv InvPrim2 ExecBase.
Import ListNotations.

Section A.
Variable vkind : nat -> kind.
Notation inv := (inv vkind).

(* s' is s plus the fresh cell e (whose creation-time fields may already be set) *)
Record added (s s' : st) (e : nat) (t : tag) : Prop := {
  ad_e     : e = nxt s;
  ad_nxt   : nxt s' = S e;
  ad_lft   : lft s' = lft s;
  ad_rgt   : rgt s' = rgt s;
  ad_head  : ohead s' = ohead s;
  ad_hptr  : hptr s' = hptr s;
  ad_ouse  : ouse s' = ouse s;
  ad_oinner: oinner s' = oinner s;
  ad_pres  : pres s' = pres s;
  ad_pslots: pslots s' = pslots s;
  ad_vars  : vars s' = vars s;
  ad_dlog  : dlog s' = dlog s;
  ad_dus   : dus s' = dus s;
  ad_other : forall x, x <> e ->
               tagof s' x = tagof s x /\ alive s' x = alive s x /\ odev s' x = odev s x /\
               obuf s' x = obuf s x /\ ginner s' x = ginner s x /\ ocur s' x = ocur s x;
  ad_alive : alive s' e = true;
  ad_tag   : tagof s' e = t
}.

Global Arguments ad_e {s s' e t}.
Global Arguments ad_nxt {s s' e t}.
Global Arguments ad_lft {s s' e t}.
Global Arguments ad_rgt {s s' e t}.
Global Arguments ad_head {s s' e t}.
Global Arguments ad_hptr {s s' e t}.
Global Arguments ad_ouse {s s' e t}.
Global Arguments ad_oinner {s s' e t}.
Global Arguments ad_pres {s s' e t}.
Global Arguments ad_pslots {s s' e t}.
Global Arguments ad_vars {s s' e t}.
Global Arguments ad_dlog {s s' e t}.
Global Arguments ad_dus {s s' e t}.
Global Arguments ad_other {s s' e t}.
Global Arguments ad_alive {s s' e t}.
Global Arguments ad_tag {s s' e t}.

Lemma added_home s s' e t x : added s s' e t -> x <> e -> home s' x = home s x.
Proof.
  intros A Hx. destruct (ad_other A x Hx) as (A1 & A2 & A3 & A4 & A5 & A6).
  unfold home. now rewrite A1, (ad_hptr A), A3, A4, A5.
Qed.

Lemma inv_add_cell X W D T G s s' e t X' W' T' :
  inv X W D T G s -> added s s' e t ->
  (* a wrapper: a temporary, or the embedded wrapper of a device under construction *)
  (forall k, t = TH k ->
     X' = X /\ W' = W /\ ginner s' e = false /\
     ((T' = e :: T) \/ (T' = T /\ exists d, alive s d = true /\ tagof s d = TO KDev /\ ocur s d = e))) ->
  (* an object: unlinked and not yet kept alive by anything *)
  (forall k, t = TO k ->
     X' = e :: X /\ W' = e :: W /\ T' = T /\
     (k <> KDev -> k <> KMem -> exists d, odev s' e = Some d /\ alive s d = true /\ tagof s d = TO KDev) /\
     (ginner s' e = true -> k = KBuf) /\
     (k = KDev -> forall d', alive s d' = true -> tagof s d' = TO KDev -> ocur s d' <> ocur s' e)) ->
  t <> TFree ->
  inv X' W' D T' G s'.
Proof.
  intros Hi A HH HO Htf.
  pose proof (ad_e A) as Ee.
  destruct (i_fresh Hi e ltac:(lia)) as (F1 & F2 & F3 & F4 & F5 & F6 & F7 & F8 & F9 & F10).
  assert (Hne : forall x, alive s x = true -> x <> e) by (intros x Hx ->; congruence).
  assert (Hoth := ad_other A).
  assert (Hal : forall x, x <> e -> alive s' x = alive s x) by (intros x Hx; now destruct (Hoth x Hx) as (_ & H & _)).
  assert (Htg : forall x, x <> e -> tagof s' x = tagof s x) by (intros x Hx; now destruct (Hoth x Hx) as (H & _)).
  assert (HeG : free_of G e) by (eapply dead_free; eassumption).
  assert (Hmem_ne : forall x o sl, In x (G o sl) -> x <> e /\ o <> e).
  { intros x o sl Hin. split.
    - apply Hne. apply (hk_alive _ _ (i_heap Hi) _ _ _ Hin).
    - apply Hne. apply (i_own Hi _ _ _ Hin). }
  assert (HT : incl T T' /\ forall x, In x T' -> x = e \/ In x T).
  { destruct t as [|k|k]; [congruence| |].
    - destruct (HH k eq_refl) as (_ & _ & _ & [->|[-> _]]); split;
        auto using incl_refl, incl_tl; intros x [<-|Hx]; auto.
    - destruct (HO k eq_refl) as (_ & _ & -> & _). auto using incl_refl. }
  destruct HT as [HT HT'].
  (* the new cell is in no ring, so it may be exempt and waived before it exists *)
  assert (Hi' : inv X' W' D T G s).
  { destruct t as [|k|k]; [congruence| |].
    - destruct (HH k eq_refl) as (-> & -> & _). exact Hi.
    - destruct (HO k eq_refl) as (-> & -> & _). apply inv_weaken_W, inv_weaken_X; assumption. }
  inv_clauses Hi'.
  (* an object that is not waived is not the new cell *)
  assert (Hold : forall o k, alive s' o = true -> tagof s' o = TO k -> ~ In o W' ->
                 o <> e /\ alive s o = true /\ tagof s o = TO k).
  { intros o k Ha Ht Hw. assert (Hoe : o <> e).
    { intros ->. rewrite (ad_tag A) in Ht. destruct (HO k Ht) as (_ & -> & _). apply Hw. now left. }
    rewrite Hal in Ha by exact Hoe. rewrite Htg in Ht by exact Hoe. auto. }
  constructor; rewrite ?(ad_hptr A), ?(ad_ouse A), ?(ad_oinner A), ?(ad_pres A), ?(ad_pslots A), ?(ad_vars A), ?(ad_dlog A).
  - destruct Aheap as [B1 B2 B3 B4 B5 B6]. constructor; rewrite ?(ad_lft A), ?(ad_rgt A), ?(ad_head A); try assumption.
    intros o sl x Hx. rewrite Hal; [eapply B4; exact Hx|]. apply Hne. eapply B4; exact Hx.
  - intros x o sl Hin. destruct (Hmem_ne _ _ _ Hin) as [Hx _]. destruct (Amem1 x o sl Hin) as [H1 H2].
    rewrite (added_home _ _ _ _ _ A Hx). exact (conj H1 H2).
  - intros x o sl Ha Hx Hh. destruct (Nat.eq_dec x e) as [->|Hxe].
    + exfalso. unfold home in Hh. rewrite (ad_tag A) in Hh. destruct t as [|k|k]; [congruence| |].
      * rewrite (ad_hptr A), F3 in Hh. discriminate.
      * destruct (HO k eq_refl) as (-> & _). apply Hx. now left.
    + rewrite (added_home _ _ _ _ _ A Hxe) in Hh. rewrite Hal in Ha by exact Hxe. now apply Amem2.
  - intros x o sl Hin. destruct (Hmem_ne _ _ _ Hin) as [Hx Ho]. rewrite Hal, !Htg by assumption. now apply Aown.
  - intros x Hx. rewrite (ad_nxt A) in Hx. destruct (Hoth x ltac:(lia)) as (-> & -> & -> & -> & -> & _).
    apply Afresh. lia.
  - intros x Ha. destruct (Nat.eq_dec x e) as [->|Hxe]; [rewrite (ad_tag A); exact Htf|].
    rewrite Htg by exact Hxe. apply Atag. now rewrite <- Hal.
  - intros o sl Ha. destruct (Nat.eq_dec o e) as [->|Hoe]; [now apply Adead|]. apply Adead. now rewrite <- Hal.
  - intros p b Ha Hw Hb.
    assert (Hpe : p <> e) by (intros ->; congruence).
    rewrite Hal in Ha by exact Hpe.
    destruct (Ainner p b Ha Hw Hb) as (I1 & I2 & I3).
    destruct (Hoth p Hpe) as (-> & _ & -> & _). destruct (Hoth b (Hne b I2)) as (-> & -> & -> & _ & -> & _).
    exact (conj I1 (conj I2 I3)).
  - intros p b Hb. rewrite Htg; [now apply (Aitag p b)|]. intros ->. congruence.
  - intros p p' b Ha Ha' Hb Hb'.
    assert (p <> e) by (intros ->; congruence). assert (p' <> e) by (intros ->; congruence).
    rewrite Hal in Ha, Ha' by assumption. eapply Ainj; eassumption.
  - intros b Ha Ht Hg Hw. destruct (Hold b KBuf Ha Ht Hw) as (Hbe & Ha0 & Ht0).
    destruct (Hoth b Hbe) as (_ & _ & _ & _ & B5 & _). rewrite B5 in Hg.
    destruct (Aiown b Ha0 Ht0 Hg Hw) as (p & Hp1 & Hp2).
    exists p. split; [|exact Hp2]. rewrite Hal; [exact Hp1|now apply Hne].
  - intros b. destruct (Nat.eq_dec b e) as [->|Hbe].
    + intros Hg. split; [|now apply Adead]. rewrite (ad_tag A). destruct t as [|k|k]; [congruence| |].
      * destruct (HH k eq_refl) as (_ & _ & Hgf & _). congruence.
      * destruct (HO k eq_refl) as (_ & _ & _ & _ & Hgk & _). now rewrite (Hgk Hg).
    + destruct (Hoth b Hbe) as (-> & _ & _ & _ & -> & _). apply Agin.
  - intros p m Ha Ht Hw Hin. destruct (Hmem_ne _ _ _ Hin) as [_ Hpe].
    rewrite Hal in Ha by exact Hpe. rewrite Htg in Ht by exact Hpe. now apply Apres.
  - intros o k Ha Ht Hk1 Hk2.
    assert (exists d, odev s' o = Some d /\ alive s d = true /\ tagof s d = TO KDev) as (d & D1 & D2 & D3).
    { destruct (Nat.eq_dec o e) as [->|Hoe].
      - rewrite (ad_tag A) in Ht. destruct (HO k Ht) as (_ & _ & _ & Hd & _). now apply Hd.
      - destruct (Hoth o Hoe) as (B1 & B2 & -> & _). rewrite B2 in Ha. rewrite B1 in Ht. now apply (Adev o k). }
    exists d. rewrite Hal, Htg by (now apply Hne). repeat split; assumption.
  - intros m. destruct (Nat.eq_dec m e) as [->|Hme].
    + intros _ Ht Hx. exfalso. apply Hx. rewrite (ad_tag A) in Ht. destruct (HO KMem Ht) as (-> & _). now left.
    + destruct (Hoth m Hme) as (-> & -> & _ & -> & _). apply Abuf.
  - intros d Ha Ht Hw. destruct (Hold d KDev Ha Ht Hw) as (Hde & Ha0 & Ht0).
    destruct (Hoth d Hde) as (_ & _ & _ & _ & _ & ->).
    destruct (Acur d Ha0 Ht0 Hw) as (C1 & C2 & C3 & C4).
    rewrite Hal, Htg by (now apply Hne). repeat split; try assumption.
    intros Hc. destruct (HT' _ Hc); [congruence|contradiction].
  - assert (Hnew : forall d, d <> e -> alive s' d = true -> tagof s' e = TO KDev -> tagof s' d = TO KDev ->
                     ocur s' d <> ocur s' e).
    { intros d Hde. destruct (Hoth d Hde) as (-> & -> & _ & _ & _ & ->). intros Ha Ht Ht'.
      rewrite (ad_tag A) in Ht. destruct (HO KDev Ht) as (_ & _ & _ & _ & _ & Hinj). now apply Hinj. }
    intros d d'. destruct (Nat.eq_dec d e) as [->|Hde]; destruct (Nat.eq_dec d' e) as [->|Hde']; [reflexivity| | |].
    + intros _ Ha' Ht Ht' Hc. symmetry in Hc. destruct (Hnew d' Hde' Ha' Ht Ht' Hc).
    + intros Ha _ Ht Ht' Hc. destruct (Hnew d Hde Ha Ht' Ht Hc).
    + destruct (Hoth d Hde) as (-> & -> & _ & _ & _ & ->). destruct (Hoth d' Hde') as (-> & -> & _ & _ & _ & ->).
      apply Acurinj.
  - assert (Hdev : forall d h, alive s d = true /\ tagof s d = TO KDev /\ ocur s d = h ->
                     alive s' d = true /\ tagof s' d = TO KDev /\ ocur s' d = h).
    { intros d h Hd. destruct (Hoth d (Hne d (proj1 Hd))) as (-> & -> & _ & _ & _ & ->). exact Hd. }
    intros h k Ha Ht. destruct (Nat.eq_dec h e) as [->|Hhe].
    + rewrite (ad_tag A) in Ht. destruct (HH k Ht) as (_ & _ & _ & [->|[-> (d & Hd)]]).
      * right. right. now left.
      * right. left. exists d. now apply Hdev.
    + rewrite Hal in Ha by exact Hhe. rewrite Htg in Ht by exact Hhe.
      destruct (Ahand h k Ha Ht) as [Hv|[(d & Hd)|Hin]]; [now left| |right; right; now apply HT].
      right. left. exists d. now apply Hdev.
  - intros v h Hv. destruct (Avars v h Hv) as (V1 & V2 & V3).
    assert (Hhe : h <> e) by (intros ->; congruence).
    rewrite Htg, Hal by exact Hhe. repeat split; [exact V1| |exact V3].
    intros Hc. destruct (HT' _ Hc); [congruence|contradiction].
  - exact Avinj.
  - intros h Hin. destruct (HT' _ Hin) as [->|Hin'].
    + split; [apply (ad_alive A)|]. rewrite (ad_tag A).
      destruct t as [|k|k]; [congruence|now exists k|].
      exfalso. destruct (HO k eq_refl) as (_ & _ & -> & _). destruct (AT e Hin) as [Hc _]. congruence.
    + destruct (AT h Hin') as [T1 T2]. rewrite Hal, Htg by (now apply Hne). split; assumption.
  - destruct t as [|k|k]; [congruence| |].
    + destruct (HH k eq_refl) as (_ & _ & _ & [->|[-> _]]); [|exact ATnd].
      constructor; [|exact ATnd]. intros Hc. destruct (AT e Hc). congruence.
    + destruct (HO k eq_refl) as (_ & _ & -> & _). exact ATnd.
  - intros o k Ha Ht Hw. destruct (Hold o k Ha Ht Hw) as (Hoe & Ha0 & Ht0).
    destruct (Hoth o Hoe) as (_ & _ & _ & _ & -> & _). now apply Alive.
  - exact Alognd.
  - intros o. rewrite Alog. destruct (Nat.eq_dec o e) as [->|Hoe].
    + rewrite F2, (ad_alive A). split.
      * intros [[k Hk] _]. discriminate.
      * intros [_ [Hc|Hc]]; [discriminate|]. destruct (AD e Hc). congruence.
    + rewrite Htg, Hal by exact Hoe. reflexivity.
  - intros o Hin. destruct (AD o Hin) as [D1 D2]. rewrite Hal, Htg by (now apply Hne). split; assumption.
  - intros d st Ha Ht Hw. destruct (Hold d KDev Ha Ht Hw) as (Hde & Ha0 & Ht0).
    destruct (Hoth d Hde) as (_ & _ & _ & _ & _ & ->). intros Hp.
    pose proof (Acs d st Ha0 Ht0 Hw Hp) as Hod.
    assert (Hse : st <> e) by (intros ->; congruence).
    destruct (Hoth st Hse) as (_ & _ & -> & _). exact Hod.
  - intros p Ha Ht Hw. destruct (Hold p KPool Ha Ht Hw) as (_ & Ha0 & Ht0). now apply Apb.
Qed.

End A.
