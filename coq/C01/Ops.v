(* C01 — allocation of a cell (`alloc_st`, the `added_set_*` facts) and the wrapper operations of
   the fixed code: each preserves the invariant. *)
From Coq Require Import List Arith Bool ZArith Lia Permutation.
From OV.C01 Require Import Model Ring Heap Inv InvPrim2 ExecBase Exec Exec6 Alloc.
Import ListNotations.

Lemma onat_eqb_spec a b : reflect (a = b) (onat_eqb a b).
Proof.
  destruct a as [x|], b as [y|]; cbn; try (constructor; congruence).
  destruct (Nat.eqb_spec x y); constructor; congruence.
Qed.

Section O.
Variable vkind : nat -> kind.
Notation inv := (inv vkind).

(* An unlinked wrapper gets its pointer by `inv_null` or by entering the ring of an object of its
   kind.  The last premise is `i_cur_str` in case h is the currentStream wrapper of a device. *)
Lemma point_at X W D T G s h k o :
  inv (h :: X) W D T G s -> ~ In h X -> alive s h = true -> tagof s h = TH k ->
  alive s o = true -> tagof s o = TO k -> k <> KBuf ->
  (forall d, alive s d = true -> tagof s d = TO KDev -> ~ In d W -> ocur s d = h -> odev s o = Some d) ->
  exists s', (wr_hptr h (Some o);;; need o;;; ring_addRef o SH h) s = Some (tt, s') /\
             inv X W D T (upd2 G o SH (G o SH ++ [h])) s' /\
             same_obj (set_hptr s (upd (hptr s) h (Some o))) s'.
Proof.
  intros Hi Hnx Hh Hth Hao Hto Hkb Hcs.
  erewrite bind_run by (apply need_modify_run; exact Hh).
  set (s2 := set_hptr s (upd (hptr s) h (Some o))).
  assert (Hi2 : inv (h :: X) W D T G s2).
  { apply inv_set_hptr; [exact Hi|now left|exists k; exact Hth|].
    intros d st Had Htd Hdw Hc E. injection E as <-. now apply Hcs. }
  assert (Hfree : free_of G h) by (eapply exempt_free; [exact Hi|now left]).
  destruct (ring_addRef_out s2 G o SH h (i_heap Hi2) Hao Hh Hfree) as (s3 & Hrun3 & Hsame3 & Hk3).
  erewrite bind_run by (apply need_run; exact Hao).
  exists s3. split; [exact Hrun3|]. split; [|exact Hsame3].
  eapply inv_link; try exact Hi2; try eassumption.
  - unfold home, s2. simpl_st. rewrite Hth, upd_same. reflexivity.
  - unfold s2. simpl_st. rewrite Hth, Hto. now apply fits_SH_intro.
  - intros E. discriminate.
Qed.

(* setModeX *)
Lemma h_set_spec T G s h k o' :
  inv [] [] [] T G s -> alive s h = true -> tagof s h = TH k ->
  (forall o, o' = Some o -> alive s o = true /\ tagof s o = TO k /\ k <> KBuf) ->
  (forall d o, alive s d = true -> tagof s d = TO KDev -> ocur s d = h -> o' = Some o -> odev s o = Some d) ->
  exists G' s', h_set fixed h o' s = Some (tt, s') /\ inv [] [] [] T G' s' /\ hptr s' h = o' /\
                grow s s' /\ vars s' = vars s /\ dus s' = dus s.
Proof.
  intros Hi Hh Hth Ho' Hcs.
  unfold h_set. erewrite bind_run by (apply rd_run; exact Hh).
  destruct (onat_eqb_spec (hptr s h) o') as [Eq|Ne].
  - exists G, s. split; [reflexivity|]. split; [exact Hi|]. split; [exact Eq|].
    split; [apply grow_refl|]. split; reflexivity.
  - unfold run_task.
    destruct (release_spec vkind (fuel_of s) T G s h k Hi Hh Hth (fuel_ok s)) as
        (G1 & s1 & Hex1 & Hi1 & Hsh1 & Hh1 & _ & Hk1).
    erewrite bind_run by exact Hex1.
    pose proof Hsh1 as (_ & Etag & Eal & _ & Evars & Eodev & _ & Ecur & _ & Edus & _).
    rewrite <- Etag in Hth.
    (* the frame is settled in s2, before h enters a ring *)
    set (s2 := set_hptr s1 (upd (hptr s1) h o')).
    assert (Hp2 : hptr s2 h = o') by apply upd_same.
    assert (Hg2 : grow s s2) by (eapply grow_trans; [apply shrink_grow; exact Hsh1|apply grow_set_hptr]).
    assert (F2 : vars s2 = vars s /\ dus s2 = dus s) by exact (conj Evars Edus).
    destruct o' as [o|].
    + destruct (Ho' o eq_refl) as (Hao & Hto & Hkb).
      assert (Hao1 : alive s1 o = true).
      { destruct (alive s1 o) eqn:E; [reflexivity|]. exfalso.
        destruct (Hk1 o Hao E) as (old & Hold & [Ex|Ex]).
        - subst old. exact (Ne Hold).
        - destruct (target_facts vkind T G s h old k Hi Hh ltac:(now rewrite <- Etag) Hold) as (_ & _ & Htold & _).
          congruence. }
      destruct (point_at [] [] [] T G1 s1 h k o Hi1) as (s3 & Hrun3 & Hi3 & Hsame3); try assumption.
      { intros []. }
      { now rewrite Etag. }
      { intros d Had Htd _ Hc. rewrite Eodev. apply (Hcs d o); [now apply Eal|now rewrite <- Etag|now rewrite <- Ecur|reflexivity]. }
      eexists _, s3. split; [exact Hrun3|]. split; [exact Hi3|].
      pose proof Hsame3 as (_ & _ & _ & S4 & _ & _ & _ & _ & _ & _ & _ & _ & _ & _ & _ & S16 & _ & S18).
      split; [rewrite S4; exact Hp2|].
      split; [eapply grow_trans; [exact Hg2|apply same_obj_grow; exact Hsame3]|].
      rewrite S16, S18. exact F2.
    + erewrite bind_run by (apply need_modify_run; exact Hh1).
      exists G1, s2. split; [reflexivity|]. split; [|exact (conj Hp2 (conj Hg2 F2))].
      apply inv_null; [exact Hi1|exact Hh1|now exists k].
Qed.

(* setModeX on a wrapper that points nowhere *)
Lemma h_set_fresh X W D T G s h k o :
  inv X W D T G s -> alive s h = true -> tagof s h = TH k -> hptr s h = None -> ~ In h X ->
  alive s o = true -> tagof s o = TO k -> k <> KBuf ->
  (forall d, alive s d = true -> tagof s d = TO KDev -> ~ In d W -> ocur s d = h -> odev s o = Some d) ->
  exists s', h_set fixed h (Some o) s = Some (tt, s') /\
             inv X W D T (upd2 G o SH (G o SH ++ [h])) s' /\
             same_obj (set_hptr s (upd (hptr s) h (Some o))) s'.
Proof.
  intros Hi Hh Hth Hp Hnx Hao Hto Hkb Hcs.
  unfold h_set. erewrite bind_run by (apply rd_run; exact Hh). rewrite Hp. cbn [onat_eqb].
  assert (Hrel : run_task fixed (TRelease h) s = Some (tt, s)).
  { unfold run_task, fuel_of. replace (2 * nxt s + 8) with (S (2 * nxt s + 7)) by lia. cbn [exec].
    erewrite bind_run by (apply rd_run; exact Hh). rewrite Hp. reflexivity. }
  erewrite bind_run by exact Hrel.
  apply (point_at X W D T G s h k o); try assumption.
  apply inv_weaken_X; [exact Hi|]. eapply null_free; [exact Hi|now exists k|exact Hp].
Qed.

Definition alloc_st (s : st) (t : tag) : st :=
  set_nxt (set_tagof (set_alive s (upd (alive s) (nxt s) true)) (upd (tagof s) (nxt s) t)) (S (nxt s)).

Lemma alloc_run s t : alloc t s = Some (nxt s, alloc_st s t).
Proof. reflexivity. Qed.

Lemma added_alloc s t : added s (alloc_st s t) (nxt s) t.
Proof.
  constructor; unfold alloc_st; simpl_st; try reflexivity.
  - intros x Hx. rewrite !upd_other by exact Hx. repeat split.
  - apply upd_same.
  - apply upd_same.
Qed.

(* writes to fields of the fresh cell keep `added` *)
Local Ltac added_set :=
  intros []; constructor; simpl_st; try assumption; intros x Hx; rewrite upd_other by exact Hx; auto.

Lemma added_set_odev s s' e t v : added s s' e t -> added s (set_odev s' (upd (odev s') e v)) e t.
Proof. added_set. Qed.
Lemma added_set_obuf s s' e t v : added s s' e t -> added s (set_obuf s' (upd (obuf s') e v)) e t.
Proof. added_set. Qed.
Lemma added_set_ginner s s' e t v : added s s' e t -> added s (set_ginner s' (upd (ginner s') e v)) e t.
Proof. added_set. Qed.
Lemma added_set_ocur s s' e t v : added s s' e t -> added s (set_ocur s' (upd (ocur s') e v)) e t.
Proof. added_set. Qed.
Lemma added_set_moff s s' e t v : added s s' e t -> added s (set_moff s' v) e t.
Proof. added_set. Qed.
Lemma added_set_osize s s' e t v : added s s' e t -> added s (set_osize s' v) e t.
Proof. added_set. Qed.

Lemma added_grow s s' e t : added s s' e t -> grow s s'.
Proof.
  intros A. pose proof (ad_e A) as Ee. unfold grow. rewrite (ad_nxt A).
  split; [lia|]. repeat split; intros x Hx; assert (Hne : x <> e) by lia;
    destruct (ad_other A x Hne) as (B1 & B2 & B3 & B4 & B5 & B6); congruence.
Qed.

(* s' is s with one more cell, a wrapper of kind k that points to v *)
Definition new_handle (s : st) (k : kind) (v : option nat) (s' : st) : Prop :=
  hptr s' (nxt s) = v /\ tagof s' (nxt s) = TH k /\ grow s s' /\ vars s' = vars s /\ dus s' = dus s /\
  nxt s' = S (nxt s).

Lemma new_handle_frame s k v s' :
  same_obj (set_hptr (alloc_st s (TH k)) (upd (hptr s) (nxt s) v)) s' ->
  new_handle s k v s' /\ odev s' = odev s /\ (forall x, x <> nxt s -> alive s' x = alive s x).
Proof.
  intros Hs.
  assert (Hg : grow s s').
  { eapply grow_trans; [eapply added_grow; apply (added_alloc s (TH k))|].
    eapply grow_trans; [apply grow_set_hptr|apply same_obj_grow; exact Hs]. }
  destruct Hs as (S1 & S2 & S3 & S4 & _ & S6 & _ & _ & _ & _ & _ & _ & _ & _ & _ & S16 & _ & S18).
  unfold new_handle. rewrite S1, S2, S3, S4, S6, S16, S18. unfold alloc_st. simpl_st.
  split; [|split; [reflexivity|intros x Hx; now apply upd_other]].
  split; [apply upd_same|]. split; [apply upd_same|]. split; [exact Hg|]. repeat split.
Qed.

Lemma alloc_handle_spec X W D T G s k :
  inv X W D T G s ->
  inv X W D (nxt s :: T) G (alloc_st s (TH k)) /\ hptr (alloc_st s (TH k)) (nxt s) = None.
Proof.
  intros Hi. split.
  - eapply inv_add_cell; [exact Hi|apply added_alloc| | |discriminate].
    + intros k' _. repeat split; try reflexivity.
      * unfold alloc_st. simpl_st. apply (i_fresh Hi (nxt s) (le_n _)).
      * now left.
    + intros k' E. discriminate.
  - unfold alloc_st. simpl_st. apply (i_fresh Hi (nxt s) (le_n _)).
Qed.

(* construction from a modeX_t pointer: the new wrapper nxt s enters o's ring; W is untouched *)
Lemma h_new_some W T G s k o :
  inv [] W [] T G s -> alive s o = true -> tagof s o = TO k -> k <> KBuf ->
  exists s', h_new fixed k (Some o) s = Some (nxt s, s') /\
    inv [] W [] (nxt s :: T) (upd2 G o SH (G o SH ++ [nxt s])) s' /\
    same_obj (set_hptr (alloc_st s (TH k)) (upd (hptr s) (nxt s) (Some o))) s'.
Proof.
  intros Hi Hao Hto Hkb. unfold h_new. erewrite bind_run by apply alloc_run.
  destruct (alloc_handle_spec [] W [] T G s k Hi) as [Hi1 Hp1].
  destruct (i_fresh Hi (nxt s) (le_n _)) as (F & _).
  assert (Hoth : forall x, alive s x = true -> upd (alive s) (nxt s) true x = true /\
                                              upd (tagof s) (nxt s) (TH k) x = tagof s x).
  { intros x Hx. rewrite !upd_other by congruence. now split. }
  destruct (h_set_fresh [] W [] (nxt s :: T) G (alloc_st s (TH k)) (nxt s) k o) as (s2 & Hrun2 & Hi2 & Hsame2);
    try assumption; unfold alloc_st; simpl_st.
  - apply upd_same.
  - apply upd_same.
  - intros [].
  - now apply Hoth.
  - now rewrite (proj2 (Hoth o Hao)).
  - intros d Had Htd Hdw Hc. exfalso.
    assert (Hdh : d <> nxt s) by (intros ->; rewrite upd_same in Htd; discriminate).
    rewrite upd_other in Had by exact Hdh. rewrite upd_other in Htd by exact Hdh.
    destruct (i_cur Hi d Had Htd Hdw) as (C1 & _). congruence.
  - erewrite bind_run by exact Hrun2. exists s2. split; [reflexivity|]. split; [exact Hi2|exact Hsame2].
Qed.

Lemma h_new_spec T G s k o' :
  inv [] [] [] T G s ->
  (forall o, o' = Some o -> alive s o = true /\ tagof s o = TO k /\ k <> KBuf) ->
  exists G' s', h_new fixed k o' s = Some (nxt s, s') /\ inv [] [] [] (nxt s :: T) G' s' /\
    new_handle s k o' s'.
Proof.
  intros Hi Ho'. destruct o' as [o|].
  - destruct (Ho' o eq_refl) as (Hao & Hto & Hkb).
    destruct (h_new_some [] T G s k o Hi Hao Hto Hkb) as (s' & R & Hi' & Hs).
    eexists _, s'. split; [exact R|]. split; [exact Hi'|]. apply (new_handle_frame s k (Some o) s' Hs).
  - destruct (alloc_handle_spec [] [] [] T G s k Hi) as [Hi1 Hp1].
    exists G, (alloc_st s (TH k)). split.
    { unfold h_new. erewrite bind_run by apply alloc_run.
      erewrite bind_run; [reflexivity|].
      unfold h_set. erewrite bind_run by (apply rd_run; apply upd_same). rewrite Hp1. reflexivity. }
    split; [exact Hi1|]. split; [exact Hp1|]. split; [apply upd_same|].
    split; [eapply added_grow; apply added_alloc|]. unfold alloc_st. simpl_st.
    repeat split.
Qed.

(* a wrapper the program can name: held by a variable, or a temporary of the running call *)
Definition usable (T : list nat) (s : st) (h : nat) : Prop := (exists v, vars s v = Some h) \/ In h T.

Lemma usable_facts T G s h :
  inv [] [] [] T G s -> usable T s h ->
  alive s h = true /\ is_h_tag (tagof s h) /\
  (forall d, alive s d = true -> tagof s d = TO KDev -> ocur s d <> h).
Proof.
  intros Hi [[v Hv]|Hin].
  - destruct (i_vars Hi v h Hv) as (V1 & V2 & V3). split; [apply V3; intros []|]. split; [exists (vkind v); exact V1|].
    intros d Ha Ht E. destruct (i_cur Hi d Ha Ht ltac:(intros [])) as (_ & _ & _ & C4). apply (C4 v). now rewrite E.
  - destruct (i_T Hi h Hin) as [T1 T2]. split; [exact T1|]. split; [exact T2|].
    intros d Ha Ht E. destruct (i_cur Hi d Ha Ht ltac:(intros [])) as (_ & _ & C3 & _). apply C3. now rewrite E.
Qed.

(* copy constructor *)
Lemma h_copy_spec T G s src k :
  inv [] [] [] T G s -> alive s src = true -> tagof s src = TH k ->
  exists G' s', h_copy fixed src s = Some (nxt s, s') /\ inv [] [] [] (nxt s :: T) G' s' /\
    new_handle s k (hptr s src) s'.
Proof.
  intros Hi Ha Ht. unfold h_copy. erewrite bind_run by (apply rd_run; exact Ha).
  erewrite bind_run by apply get_run. unfold kind_of at 1. rewrite Ht.
  apply (h_new_spec T G); [exact Hi|]. intros o Ho.
  destruct (target_facts vkind T G s src o k Hi Ha Ht Ho) as (_ & A1 & A2 & A3 & _). tauto.
Qed.

(* operator = *)
Lemma h_assign_spec T G s dst src k :
  inv [] [] [] T G s -> usable T s dst -> tagof s dst = TH k -> alive s src = true -> tagof s src = TH k ->
  exists G' s', h_assign fixed dst src s = Some (tt, s') /\ inv [] [] [] T G' s' /\
    hptr s' dst = hptr s src /\ grow s s' /\ vars s' = vars s /\ dus s' = dus s.
Proof.
  intros Hi Hu Htd Has Hts.
  destruct (usable_facts T G s dst Hi Hu) as (Had & _ & Hnc).
  unfold h_assign. erewrite bind_run by (apply rd_run; exact Has).
  erewrite bind_run by (apply need_run; exact Had).
  destruct (h_set_spec T G s dst k (hptr s src) Hi Had Htd) as (G' & s' & Hrun & Hpost).
  - intros o Ho. destruct (target_facts vkind T G s src o k Hi Has Hts Ho) as (_ & A1 & A2 & A3 & _). repeat split; assumption.
  - intros d o Ha Ht E. exfalso. exact (Hnc d Ha Ht E).
  - exists G', s'. exact (conj Hrun Hpost).
Qed.

(* ~wrapper(): h is dead afterwards, and still on the exempt list *)
Lemma h_dtor_core T G s h :
  inv [] [] [] T G s -> usable T s h ->
  exists G' s', h_dtor fixed h s = Some (tt, s') /\ inv [h] [] [] (remove Nat.eq_dec h T) G' s' /\
    alive s' h = false /\ grow s s' /\ vars s' = vars s /\ dus s' = dus s.
Proof.
  intros Hi Hu.
  destruct (usable_facts T G s h Hi Hu) as (Hah & [k Hth] & Hnc).
  unfold h_dtor, run_task.
  destruct (release_spec vkind (fuel_of s) T G s h k Hi Hah Hth (fuel_ok s)) as
      (G1 & s1 & Hex1 & Hi1 & Hsh1 & Hh1 & _).
  erewrite bind_run by exact Hex1. rewrite (kill_run h s1 Hh1).
  pose proof Hsh1 as (_ & Etag & Eal & _ & Evars & _ & _ & Ecur & _ & Edus & _).
  exists G1, (set_alive s1 (upd (alive s1) h false)). split; [reflexivity|]. split.
  - apply (inv_kill_handle vkind [h] [] [] T G1 s1 h); try assumption.
    + rewrite Etag. now exists k.
    + eapply exempt_free; [exact Hi1|now left].
    + intros v _. now left.
    + intros d Had Htd _ E. apply (Hnc d); [now apply Eal|rewrite <- Etag; exact Htd|rewrite <- Ecur; exact E].
  - split; [simpl_st; apply upd_same|].
    split; [eapply grow_trans; [apply shrink_grow; exact Hsh1|apply shrink_grow; apply shrink_kill]|].
    simpl_st. split; assumption.
Qed.

Lemma h_dtor_temp T G s t :
  inv [] [] [] (t :: T) G s ->
  exists G' s', h_dtor fixed t s = Some (tt, s') /\ inv [] [] [] T G' s' /\
    grow s s' /\ vars s' = vars s /\ dus s' = dus s.
Proof.
  intros Hi.
  assert (HtT : ~ In t T) by (pose proof (i_T_nd Hi) as H; apply NoDup_cons_iff in H; tauto).
  destruct (h_dtor_core (t :: T) G s t Hi ltac:(right; now left)) as (G' & s' & Hrun & Hi' & Hd & Hg & Hv & Hdu).
  rewrite (remove_self_notin T t HtT) in Hi'.
  exists G', s'. split; [exact Hrun|]. split.
  - eapply inv_drop_X; [exact Hi'|congruence|].
    intros v Hc. exfalso. rewrite Hv in Hc. destruct (i_vars Hi v t Hc) as (_ & H & _). apply H. now left.
  - exact (conj Hg (conj Hv Hdu)).
Qed.

Lemma drop_var_spec G s v h :
  inv [] [] [] [] G s -> vars s v = Some h ->
  exists G' s', drop_var fixed v s = Some (tt, s') /\ inv [] [] [] [] G' s' /\
    grow s s' /\ vars s' = upd (vars s) v None /\ dus s' = dus s.
Proof.
  intros Hi Hv. unfold drop_var. erewrite bind_run by apply get_run. rewrite Hv.
  destruct (h_dtor_core [] G s h Hi ltac:(left; now exists v)) as (G' & s1 & Hrun & Hi1 & Hd & Hg & Hvv & Hdu).
  erewrite bind_run by exact Hrun. cbn [remove] in Hi1.
  exists G', (set_vars s1 (upd (vars s1) v None)). split; [reflexivity|]. split.
  - eapply inv_clear_var; [exact Hi1|exact Hd|]. rewrite Hvv. exact Hv.
  - simpl_st. rewrite Hvv.
    assert (Hg2 : grow s (set_vars s1 (upd (vars s1) v None))).
    { eapply grow_trans; [exact Hg|]. unfold grow. simpl_st. repeat split; auto. }
    exact (conj Hg2 (conj eq_refl Hdu)).
Qed.

(* after free() through h: the object h pointed to is destroyed, logged, and named by no live wrapper *)
Definition free_post (s : st) (h : nat) (s' : st) : Prop :=
  grow s s' /\ vars s' = vars s /\ dus s' = dus s /\
  (forall o, hptr s h = Some o ->
     alive s' o = false /\ In o (dlog s') /\
     forall h', alive s' h' = true -> is_h_tag (tagof s' h') -> hptr s' h' <> Some o).

Lemma h_free_spec T G s h k :
  inv [] [] [] T G s -> usable T s h -> tagof s h = TH k ->
  exists G' s', h_free fixed h s = Some (tt, s') /\ inv [] [] [] T G' s' /\ free_post s h s'.
Proof.
  intros Hi Hu Hth.
  destruct (usable_facts T G s h Hi Hu) as (Hah & _ & Hnc).
  (* `modeX = NULL` on a wrapper that points nowhere keeps whatever has been reached *)
  assert (Hreset : forall G1 s1, inv [] [] [] T G1 s1 -> alive s1 h = true -> tagof s1 h = TH k ->
            hptr s1 h = None -> free_post s h s1 ->
            let s2 := set_hptr s1 (upd (hptr s1) h None) in
            wr_hptr h None s1 = Some (tt, s2) /\ inv [] [] [] T G1 s2 /\ free_post s h s2).
  { intros G1 s1 Hi1 Ha1 Ht1 Hp1 (P1 & P2 & P3 & P4) s2.
    assert (Hk1 : is_h_tag (tagof s1 h)) by now exists k.
    split; [now apply need_modify_run|]. split.
    { apply inv_null; [apply inv_weaken_X; [exact Hi1|eapply null_free; eassumption]|exact Ha1|exact Hk1]. }
    unfold free_post. split; [eapply grow_trans; [exact P1|apply grow_set_hptr]|].
    do 2 (split; [assumption|]).
    intros o Ho. destruct (P4 o Ho) as (Q1 & Q2 & Q3). split; [exact Q1|]. split; [exact Q2|].
    intros h' Ha' Ht'. unfold s2, upd. simpl_st. destruct (Nat.eqb h' h); [discriminate|exact (Q3 h' Ha' Ht')]. }
  unfold h_free. erewrite bind_run by (apply rd_run; exact Hah).
  erewrite bind_run by apply get_run. unfold kind_of at 1. rewrite Hth.
  destruct (hptr s h) as [o|] eqn:Ep.
  2:{ assert (P : free_post s h s) by (unfold free_post; rewrite Ep; split; [apply grow_refl|]; repeat split; auto; discriminate).
      destruct (Hreset G s Hi Hah Hth Ep P) as (R & Hi' & P').
      (* memory, pool and device wrappers return at once *)
      destruct k; try (exists G, s; split; [reflexivity|]; split; assumption).
      all: eexists G, _; split; [erewrite bind_run by reflexivity; exact R|]; split; assumption. }
  destruct (target_facts vkind T G s h o k Hi Hah Hth Ep) as (_ & Hao & Hto & Hkb & Hcur & Hib).
  destruct (delete_top vkind (fuel_of s) [] T G s o k) as (G1 & s1 & Hex1 & Hi1 & Hd1 & Hsh1 & _ & Hhk1);
    try assumption.
  { apply inv_weaken_W. exact Hi. }
  { intros x []. }
  { intros E. destruct (Hcur E) as (C1 & C2 & C3 & _ & C5 & C6). repeat split; try assumption. intros []. }
  { pose proof (fuel_ok s). lia. }
  apply inv_unW_dead in Hi1; [|exact Hd1].
  pose proof Hsh1 as (_ & Etag & _ & Ehp & Evars & _ & _ & _ & _ & Edus & _).
  assert (Hh1 : alive s1 h = true).
  { destruct (alive s1 h) eqn:E; [reflexivity|]. exfalso.
    destruct (Hhk1 h ltac:(now exists k) Hah E) as [-> E2].
    exact (Hnc o Hao Hto (eq_sym E2)). }
  (* a live wrapper that points to o would sit in o's ring, whose owner is alive *)
  assert (Hno : forall h', alive s1 h' = true -> is_h_tag (tagof s1 h') -> hptr s1 h' <> Some o).
  { intros h' Ha' [k' Hk'] Hc.
    assert (Hm : In h' (G1 o SH)).
    { apply (i_mem2 Hi1); [exact Ha'|intros []|]. unfold home. now rewrite Hk', Hc. }
    destruct (i_own Hi1 _ _ _ Hm) as [Hc2 _]. congruence. }
  assert (Hp1 : hptr s1 h = None).
  { destruct (Ehp h) as [E|E]; [|exact E]. exfalso. apply (Hno h); [exact Hh1|exists k; now rewrite Etag|congruence]. }
  assert (P1 : free_post s h s1).
  { unfold free_post. rewrite Ep. split; [apply shrink_grow; exact Hsh1|]. do 2 (split; [assumption|]).
    intros o' E. injection E as <-. split; [exact Hd1|]. split; [|exact Hno].
    apply (i_log Hi1). split; [exists k; now rewrite Etag|now left]. }
  destruct (Hreset G1 s1 Hi1 Hh1 ltac:(now rewrite Etag) Hp1 P1) as (R & Hi2 & P2).
  unfold run_task. destruct k; try congruence.
  2: exists G1, s1; split; [exact Hex1|]; split; assumption.   (* memoryPool::free does not reset its own pointer *)
  all: eexists G1, _; split; [erewrite bind_run by exact Hex1; exact R|]; split; assumption.
Qed.

Lemma h_dontUseRefs_spec T G s h :
  inv [] [] [] T G s -> usable T s h ->
  exists s', h_dontUseRefs h s = Some (tt, s') /\ inv [] [] [] T G s' /\
    grow s s' /\ vars s' = vars s /\
    (dus s' = dus s \/ exists o, hptr s h = Some o /\ dus s' = o :: dus s).
Proof.
  intros Hi Hu. destruct (usable_facts T G s h Hi Hu) as (Hah & [k Hth] & _).
  unfold h_dontUseRefs. erewrite bind_run by (apply rd_run; exact Hah).
  destruct (hptr s h) as [o|] eqn:Ep.
  - destruct (target_facts vkind T G s h o k Hi Hah Hth Ep) as (_ & Hao & _).
    erewrite bind_run by (apply need_modify_run; exact Hao).
    eexists. split; [reflexivity|]. split; [apply inv_ouse_false; assumption|].
    unfold modify. simpl_st. split; [unfold grow; simpl_st; repeat split; auto|].
    split; [reflexivity|]. right. exists o. tauto.
  - exists s. split; [reflexivity|]. split; [exact Hi|]. split; [apply grow_refl|]. split; [reflexivity|now left].
Qed.

Lemma var_handle T G s v h :
  inv [] [] [] T G s -> vars s v = Some h ->
  usable T s h /\ alive s h = true /\ tagof s h = TH (vkind v).
Proof.
  intros Hi Hv. destruct (i_vars Hi v h Hv) as (V1 & _ & V3).
  split; [left; now exists v|]. split; [apply V3; intros []|exact V1].
Qed.

(* swap(); a and b are held by variables: `var_handle` applies again after every step *)
Lemma h_swap_spec G s a b k :
  inv [] [] [] [] G s -> usable [] s a -> usable [] s b -> tagof s a = TH k -> tagof s b = TH k ->
  exists G' s', h_swap fixed a b s = Some (tt, s') /\ inv [] [] [] [] G' s' /\
    grow s s' /\ vars s' = vars s /\ dus s' = dus s.
Proof.
  intros Hi [[va Hva]|[]] [[vb Hvb]|[]] Hta Htb. unfold h_swap. cbn [v_swap fixed].
  destruct (var_handle [] G s va a Hi Hva) as (_ & _ & Ea). rewrite Hta in Ea. injection Ea as ->.
  destruct (var_handle [] G s vb b Hi Hvb) as (_ & Hab & Eb). rewrite Htb in Eb.
  destruct (h_copy_spec [] G s b _ Hi Hab Htb) as (G1 & s1 & R1 & Hi1 & _ & Ht1 & Hg1 & Hv1 & Hd1 & Hn1).
  erewrite bind_run by exact R1. set (tmp := nxt s) in *.
  rewrite <- Hv1 in Hva, Hvb.
  destruct (var_handle [tmp] G1 s1 va a Hi1 Hva) as (_ & Haa1 & Eta1).
  destruct (var_handle [tmp] G1 s1 vb b Hi1 Hvb) as (Ub1 & _ & Etb1). rewrite <- Eb in Etb1.
  destruct (h_assign_spec [tmp] G1 s1 b a _ Hi1 Ub1 Etb1 Haa1 Eta1) as
      (G2 & s2 & R2 & Hi2 & _ & Hg2 & Hv2 & Hd2).
  erewrite bind_run by exact R2.
  rewrite <- Hv2 in Hva.
  destruct (var_handle [tmp] G2 s2 va a Hi2 Hva) as (Ua2 & _ & Eta2).
  destruct (i_T Hi2 tmp ltac:(now left)) as [Hat2 _].
  assert (Htt2 : tagof s2 tmp = TH (vkind va)).
  { rewrite (grow_tag _ _ _ Hg2); [exact Ht1|]. rewrite Hn1. unfold tmp. lia. }
  destruct (h_assign_spec [tmp] G2 s2 a tmp _ Hi2 Ua2 Eta2 Hat2 Htt2) as
      (G3 & s3 & R3 & Hi3 & _ & Hg3 & Hv3 & Hd3).
  erewrite bind_run by exact R3.
  destruct (h_dtor_temp [] G3 s3 tmp Hi3) as (G4 & s4 & R4 & Hi4 & Hg4 & Hv4 & Hd4).
  exists G4, s4. split; [exact R4|]. split; [exact Hi4|].
  split; [eapply grow_trans; [exact Hg1|]; eapply grow_trans; [exact Hg2|]; eapply grow_trans; eassumption|].
  split; congruence.
Qed.

(* var = temporary *)
Lemma store_spec G s v t :
  inv [] [] [] [t] G s -> tagof s t = TH (vkind v) ->
  exists G' s', store fixed v t s = Some (tt, s') /\ inv [] [] [] [] G' s' /\
    grow s s' /\ dus s' = dus s.
Proof.
  intros Hi Ht. unfold store. erewrite bind_run by apply get_run.
  destruct (vars s v) as [h|] eqn:Ev.
  - destruct (var_handle [t] G s v h Hi Ev) as (Uh & _ & V1).
    assert (Hat : alive s t = true) by (apply (i_T Hi t); now left).
    destruct (h_assign_spec [t] G s h t (vkind v) Hi Uh V1 Hat Ht) as
        (G1 & s1 & R1 & Hi1 & _ & Hg1 & _ & Hd1).
    erewrite bind_run by exact R1.
    destruct (h_dtor_temp [] G1 s1 t Hi1) as (G2 & s2 & R2 & Hi2 & Hg2 & _ & Hd2).
    exists G2, s2. split; [exact R2|]. split; [exact Hi2|].
    split; [eapply grow_trans; eassumption|congruence].
  - eexists G, _. split; [reflexivity|]. split.
    + apply inv_bind_var; assumption.
    + simpl_st. split; [unfold grow; simpl_st; repeat split; auto|reflexivity].
Qed.

End O.
