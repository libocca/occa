(* C01 — the ring heap: every ring head points at a well linked cycle; how ring_t::addRef and
   ring_t::removeRef of Model.v act on it. *)
From Coq Require Import List Arith Bool ZArith Lia Permutation.
From OV.C01 Require Import Model Ring.
Import ListNotations.

Definition GH := nat -> slot -> list nat.

Definition free_of (G : GH) (e : nat) : Prop := forall o sl, ~ In e (G o sl).

Record heap_ok (s : st) (G : GH) : Prop := {
  hk_head : forall o sl, ohead s o sl = hd_error (G o sl);
  hk_cyc  : forall o sl, cyc (lft s) (rgt s) (G o sl);
  hk_nd   : forall o sl, NoDup (G o sl);
  hk_alive: forall o sl e, In e (G o sl) -> alive s e = true;
  hk_disj : forall o sl o' sl' e, In e (G o sl) -> In e (G o' sl') -> o = o' /\ sl = sl';
  hk_self : forall e, free_of G e -> lft s e = e /\ rgt s e = e }.

(* everything except the ring pointers is the same *)
Definition same_obj (s s' : st) : Prop :=
  nxt s' = nxt s /\ tagof s' = tagof s /\ alive s' = alive s /\ hptr s' = hptr s /\
  ouse s' = ouse s /\ odev s' = odev s /\ obuf s' = obuf s /\ oinner s' = oinner s /\
  ocur s' = ocur s /\ osize s' = osize s /\ obytes s' = obytes s /\ pres s' = pres s /\
  pslots s' = pslots s /\ moff s' = moff s /\ ginner s' = ginner s /\ vars s' = vars s /\
  dlog s' = dlog s /\ dus s' = dus s.

Lemma same_obj_refl s : same_obj s s.
Proof. repeat split. Qed.
Lemma same_obj_trans a b c : same_obj a b -> same_obj b c -> same_obj a c.
Proof.
  intros H1 H2. unfold same_obj in *. decompose [and] H1. decompose [and] H2.
  repeat split; etransitivity; eassumption.
Qed.

Lemma slot_eqb_spec a b : reflect (a = b) (slot_eqb a b).
Proof. destruct a, b; cbn; constructor; congruence. Qed.

Lemma upd2_same {A} (f : nat -> slot -> A) k sl v : upd2 f k sl v k sl = v.
Proof. unfold upd2. rewrite Nat.eqb_refl. destruct (slot_eqb_spec sl sl); [reflexivity|congruence]. Qed.
Lemma upd2_other {A} (f : nat -> slot -> A) k sl v x s : (x <> k \/ s <> sl) -> upd2 f k sl v x s = f x s.
Proof.
  unfold upd2. intros H. destruct (Nat.eqb_spec x k); cbn; [|reflexivity].
  destruct (slot_eqb_spec s sl); [|reflexivity]. destruct H; congruence.
Qed.
Lemma upd2_cases {A} (f : nat -> slot -> A) k sl v x s :
  (x = k /\ s = sl /\ upd2 f k sl v x s = v) \/ ((x <> k \/ s <> sl) /\ upd2 f k sl v x s = f x s).
Proof.
  destruct (Nat.eq_dec x k) as [->|Hn].
  - destruct (slot_eqb_spec s sl) as [->|Hs].
    + left. rewrite upd2_same. tauto.
    + right. split; [tauto|]. apply upd2_other. tauto.
  - right. split; [tauto|]. apply upd2_other. tauto.
Qed.

Lemma upd2_upd2 {A} (f : nat -> slot -> A) k sl v w x s :
  upd2 (upd2 f k sl v) k sl w x s = upd2 f k sl w x s.
Proof.
  destruct (upd2_cases f k sl w x s) as [(-> & -> & E)|(Hd & E)]; rewrite E.
  - apply upd2_same.
  - rewrite !upd2_other by exact Hd. reflexivity.
Qed.

Ltac simpl_st :=
  cbn [nxt tagof alive lft rgt hptr ohead ouse odev obuf oinner ocur osize obytes pres pslots moff
       ginner vars dlog dus
       set_nxt set_tagof set_alive set_lft set_rgt set_hptr set_ohead set_ouse set_odev set_obuf
       set_oinner set_ocur set_osize set_obytes set_pres set_pslots set_moff set_ginner set_vars
       set_dlog set_dus] in *.
(* the same on the goal alone, for use with the clauses of an invariant in context *)
Ltac simpl_goal :=
  cbn [nxt tagof alive lft rgt hptr ohead ouse odev obuf oinner ocur osize obytes pres pslots moff
       ginner vars dlog dus
       set_nxt set_tagof set_alive set_lft set_rgt set_hptr set_ohead set_ouse set_odev set_obuf
       set_oinner set_ocur set_osize set_obytes set_pres set_pslots set_moff set_ginner set_vars
       set_dlog set_dus].

Definition unlinkL (s : st) (e : nat) : nat -> nat :=
  if Nat.eqb (lft s e) e then upd (lft s) e e
  else upd (upd (lft s) (rgt s e) (lft s e)) e e.
Definition unlinkR (s : st) (e : nat) : nat -> nat :=
  if Nat.eqb (lft s e) e then upd (rgt s) e e
  else upd (upd (rgt s) (lft s e) (rgt s e)) e e.

Lemma entry_unlink_run s e :
  alive s e = true ->
  (lft s e <> e -> alive s (lft s e) = true /\ alive s (rgt s e) = true) ->
  entry_unlink e s = Some (tt, set_rgt (set_lft s (unlinkL s e)) (unlinkR s e)).
Proof.
  intros Ha Hn. unfold entry_unlink, unlinkL, unlinkR, rd, wr_lft, wr_rgt, bind, need, get, modify, ret.
  rewrite Ha. destruct (Nat.eqb_spec (lft s e) e) as [E|E].
  - cbn. rewrite Ha. cbn. rewrite Ha. reflexivity.
  - destruct (Hn E) as [Hl Hr]. rewrite Ha. rewrite Hl. cbn. rewrite Hr. cbn. rewrite Ha. cbn. rewrite Ha. reflexivity.
Qed.

Lemma unlinkL_self s e : unlinkL s e e = e.
Proof. unfold unlinkL. destruct (Nat.eqb (lft s e) e); apply upd_same. Qed.
Lemma unlinkR_self s e : unlinkR s e e = e.
Proof. unfold unlinkR. destruct (Nat.eqb (lft s e) e); apply upd_same. Qed.

(* unlinking a cell that is in no ring succeeds and leaves every pointer as it was *)
Lemma unlink_out s G e :
  heap_ok s G -> alive s e = true -> free_of G e ->
  entry_unlink e s = Some (tt, set_rgt (set_lft s (unlinkL s e)) (unlinkR s e)) /\
  forall x, unlinkL s e x = lft s x /\ unlinkR s e x = rgt s x.
Proof.
  intros Hk Ha Hf. destruct (hk_self _ _ Hk e Hf) as [HL HR].
  split; [apply entry_unlink_run; [exact Ha|congruence]|]. intros x.
  unfold unlinkL, unlinkR. rewrite HL, Nat.eqb_refl. unfold upd.
  destruct (Nat.eqb_spec x e) as [->|_]; [rewrite HL, HR|]; tauto.
Qed.

Lemma unlink_in s G o sl l1 e l2 :
  heap_ok s G -> G o sl = l1 ++ e :: l2 ->
  cyc (unlinkL s e) (unlinkR s e) (l1 ++ l2) /\
  (forall x, ~ In x (G o sl) -> unlinkL s e x = lft s x /\ unlinkR s e x = rgt s x) /\
  In (lft s e) (G o sl) /\ In (rgt s e) (G o sl).
Proof.
  intros Hk E.
  pose proof (hk_cyc _ _ Hk o sl) as Hc. pose proof (hk_nd _ _ Hk o sl) as Hnd. rewrite E in Hc, Hnd.
  destruct (cyc_neighbours _ _ _ _ _ Hc) as [HLin HRin].
  assert (Hein : In e (l1 ++ e :: l2)) by (apply in_or_app; right; now left).
  split; [|split].
  - destruct (l1 ++ l2) as [|y t] eqn:E2; [exact I|]. rewrite <- E2.
    destruct (unlink_any _ _ _ _ _ Hnd Hc ltac:(rewrite E2; discriminate)) as [Hne Hc'].
    unfold unlinkL, unlinkR. destruct (Nat.eqb_spec (lft s e) e); [contradiction|]. exact Hc'.
  - intros x Hx. rewrite E in Hx. unfold unlinkL, unlinkR.
    assert (x <> e) by (intros ->; contradiction).
    destruct (Nat.eqb_spec (lft s e) e).
    + rewrite !upd_other by assumption. tauto.
    + rewrite !upd_other; try assumption; try tauto; intros ->; contradiction.
  - rewrite E. tauto.
Qed.

(* the ghost list after ring_t::removeRef: removing the head makes the old tail the new head, so
   the list is rotated by one in that case *)
Definition ring_remove (e : nat) (l : list nat) : list nat :=
  match l with
  | [] => []
  | h :: t => if Nat.eqb h e then match t with [] => [] | _ => last t h :: removelast t end
              else h :: remove_nat e t
  end.

Lemma ring_remove_In e l x : NoDup l -> (In x (ring_remove e l) <-> In x l /\ x <> e).
Proof.
  destruct l as [|h t]; cbn [ring_remove]; [cbn; tauto|]. intros Hnd.
  apply NoDup_cons_iff in Hnd as [Hh Hnd].
  destruct (Nat.eqb_spec h e) as [->|Hne].
  - destruct t as [|b t']; [cbn; intuition congruence|].
    assert (Hp : forall y, In y (last (b :: t') e :: removelast (b :: t')) <-> In y (b :: t')).
    { intros y. rewrite (app_removelast_last e (l := b :: t')) at 3 by discriminate.
      rewrite in_app_iff. cbn. tauto. }
    rewrite Hp. split; [intros H; split; [now right|intros ->; contradiction]|].
    intros [[E|H] Hx]; [congruence|exact H].
  - split.
    + intros [->|H]; [split; [now left|assumption]|].
      split; [right; eapply remove_nat_In; exact H|].
      intros ->. exact (proj2 (remove_nat_NoDup e t Hnd) H).
    + intros [[->|H] Hx]; [now left|]. right. now apply remove_nat_In_ne.
Qed.

Lemma ring_remove_NoDup e l : NoDup l -> NoDup (ring_remove e l).
Proof.
  destruct l as [|h t]; cbn [ring_remove]; [constructor|]. intros Hnd.
  apply NoDup_cons_iff in Hnd as [Hh Hnd].
  destruct (Nat.eqb_spec h e) as [->|Hne].
  - destruct t as [|b t']; [constructor|].
    eapply Permutation_NoDup; [|exact Hnd].
    rewrite (app_removelast_last e (l := b :: t')) at 1 by discriminate.
    apply Permutation_sym. apply Permutation_cons_append.
  - constructor; [|apply remove_nat_NoDup; exact Hnd].
    intros H. apply Hh. eapply remove_nat_In. exact H.
Qed.

Lemma ring_remove_app_last l x : ~ In x l -> ring_remove x (l ++ [x]) = l.
Proof.
  destruct l as [|h t]; cbn [app ring_remove]; intros H.
  - now rewrite Nat.eqb_refl.
  - destruct (Nat.eqb_spec h x) as [->|Hne]; [exfalso; apply H; now left|].
    f_equal. rewrite (remove_nat_split x t []); [apply app_nil_r|]. intros Hc. apply H. now right.
Qed.

(* one ring changes: its new list draws on its old members and on unlinked cells; pointers move
   only inside the old and the new list, and a dropped member is left self-linked *)
Lemma heap_ok_upd2 s s' G o sl l :
  heap_ok s G -> alive s' = alive s ->
  ohead s' o sl = hd_error l ->
  (forall o' sl', o' <> o \/ sl' <> sl -> ohead s' o' sl' = ohead s o' sl') ->
  cyc (lft s') (rgt s') l -> NoDup l ->
  (forall x, In x l -> alive s x = true /\ (In x (G o sl) \/ free_of G x)) ->
  (forall x, ~ In x l -> In x (G o sl) -> lft s' x = x /\ rgt s' x = x) ->
  (forall x, ~ In x l -> ~ In x (G o sl) -> lft s' x = lft s x /\ rgt s' x = rgt s x) ->
  heap_ok s' (upd2 G o sl l).
Proof.
  intros Hk Ea Hhd Hhd' Hc Hnd Hl Hdrop Hsame.
  assert (Hoth : forall o' sl' x, o' <> o \/ sl' <> sl -> In x (G o' sl') -> ~ In x l /\ ~ In x (G o sl)).
  { intros o' sl' x Hd Hx.
    assert (Hn : ~ In x (G o sl)) by (intros Hx2; destruct (hk_disj _ _ Hk _ _ _ _ _ Hx Hx2); tauto).
    split; [|exact Hn]. intros Hxl. destruct (Hl x Hxl) as [_ [H|H]]; [tauto|exact (H _ _ Hx)]. }
  constructor.
  - intros o' sl'. destruct (upd2_cases G o sl l o' sl') as [(-> & -> & ->)|(Hd & ->)]; [exact Hhd|].
    rewrite Hhd' by exact Hd. apply (hk_head _ _ Hk).
  - intros o' sl'. destruct (upd2_cases G o sl l o' sl') as [(-> & -> & ->)|(Hd & ->)]; [exact Hc|].
    eapply cyc_ext; [|apply (hk_cyc _ _ Hk)]. intros x Hx. apply Hsame; eapply Hoth; eassumption.
  - intros o' sl'. destruct (upd2_cases G o sl l o' sl') as [(-> & -> & ->)|(Hd & ->)]; [exact Hnd|apply Hk].
  - intros o' sl' x. rewrite Ea. destruct (upd2_cases G o sl l o' sl') as [(-> & -> & ->)|(Hd & ->)]; [apply Hl|apply Hk].
  - assert (Hmix : forall o' sl' x, In x l -> In x (G o' sl') -> o' = o /\ sl' = sl).
    { intros o' sl' x Hx Hx'.
      destruct (Nat.eq_dec o' o) as [Eo|Hno]; [destruct (slot_eqb_spec sl' sl) as [Es|Hns]; [tauto|]|];
        exfalso; apply (proj1 (Hoth o' sl' x ltac:(tauto) Hx')); exact Hx. }
    intros o1 sl1 o2 sl2 x.
    destruct (upd2_cases G o sl l o1 sl1) as [(-> & -> & ->)|(Hd1 & ->)];
    destruct (upd2_cases G o sl l o2 sl2) as [(-> & -> & ->)|(Hd2 & ->)]; intros H1 H2; [tauto| | |].
    + destruct (Hmix _ _ _ H1 H2) as [-> ->]. tauto.
    + destruct (Hmix _ _ _ H2 H1) as [-> ->]. tauto.
    + apply (hk_disj _ _ Hk _ _ _ _ x); assumption.
  - intros x Hf.
    assert (Hxl : ~ In x l) by (intros H; apply (Hf o sl); now rewrite upd2_same).
    destruct (in_dec Nat.eq_dec x (G o sl)) as [Hin|Hn]; [now apply Hdrop|].
    destruct (Hsame x Hxl Hn) as [-> ->]. apply (hk_self _ _ Hk). intros o' sl' Hx.
    destruct (Nat.eq_dec o' o) as [Eo|Hno]; [destruct (slot_eqb_spec sl' sl) as [Es|Hns]; [subst; contradiction|]|];
      apply (Hf o' sl'); rewrite upd2_other by tauto; exact Hx.
Qed.

Lemma heap_ok_ext s G G' : (forall o sl, G' o sl = G o sl) -> heap_ok s G -> heap_ok s G'.
Proof.
  intros E [A1 A2 A3 A4 A5 A6]. constructor.
  - intros o sl. rewrite E. apply A1.
  - intros o sl. rewrite E. apply A2.
  - intros o sl. rewrite E. apply A3.
  - intros o sl e. rewrite E. apply A4.
  - intros o sl o' sl' e. rewrite !E. apply A5.
  - intros e H. apply A6. intros o sl. rewrite <- E. apply H.
Qed.

Lemma ring_removeRef_in s G o sl e :
  heap_ok s G -> alive s o = true -> In e (G o sl) ->
  exists s', ring_removeRef o sl e s = Some (tt, s') /\ same_obj s s' /\
             heap_ok s' (upd2 G o sl (ring_remove e (G o sl))).
Proof.
  intros Hk Ho Hin.
  destruct (G o sl) as [|h t] eqn:EG; [destruct Hin|].
  pose proof (hk_head _ _ Hk o sl) as Hhd. rewrite EG in Hhd. cbn in Hhd.
  pose proof (hk_cyc _ _ Hk o sl) as Hc. rewrite EG in Hc.
  pose proof (hk_nd _ _ Hk o sl) as Hnd. rewrite EG in Hnd.
  assert (Hah : alive s h = true) by (apply (hk_alive _ _ Hk o sl); rewrite EG; now left).
  assert (Hae : alive s e = true) by (apply (hk_alive _ _ Hk o sl); rewrite EG; exact Hin).
  destruct (in_split _ _ Hin) as (l1 & l2 & Esplit).
  assert (EG' : G o sl = l1 ++ e :: l2) by congruence.
  destruct (unlink_in s G o sl l1 e l2 Hk EG') as (Hcyc' & Hframe & Hnb).
  assert (Hrun : entry_unlink e s = Some (tt, set_rgt (set_lft s (unlinkL s e)) (unlinkR s e))).
  { apply entry_unlink_run; [exact Hae|]. intros _. destruct Hnb as [H1 H2].
    split; eapply (hk_alive _ _ Hk o sl); eassumption. }
  set (tail := lft s h).
  assert (Htail : tail = last (h :: t) h) by (eapply cyc_head_left; exact Hc).
  set (hd' := if Nat.eqb h e then (if Nat.eqb tail e then None else Some tail) else Some h).
  exists (set_ohead (set_rgt (set_lft s (unlinkL s e)) (unlinkR s e)) (upd2 (ohead s) o sl hd')).
  split; [|split].
  - unfold ring_removeRef, rd_head, ring_removeRef_core, wr_head, rd, bind, need, get, modify, ret.
    rewrite Ho, Hhd, Hah. fold tail. rewrite Hrun. cbn. unfold hd'.
    destruct (Nat.eqb h e); cbn; rewrite Ho; reflexivity.
  - repeat split.
  - assert (Hmem : forall x, In x (ring_remove e (h :: t)) <-> In x (h :: t) /\ x <> e)
      by (intros x; apply ring_remove_In; exact Hnd).
    apply (heap_ok_upd2 s); simpl_st; rewrite ?EG;
      [exact Hk|reflexivity| |intros; now apply upd2_other| |now apply ring_remove_NoDup| | |].
    + rewrite upd2_same. unfold hd'. cbn [ring_remove].
      destruct (Nat.eqb_spec h e) as [->|Hne]; [|reflexivity].
      destruct t as [|b t'].
      * cbn in Htail. rewrite Htail, Nat.eqb_refl. reflexivity.
      * rewrite last_cons_cons in Htail.
        destruct (Nat.eqb_spec tail e) as [E|_]; [|cbn; rewrite Htail; reflexivity].
        exfalso. apply NoDup_cons_iff in Hnd as [Hn _]. apply Hn. rewrite <- E, Htail.
        rewrite (last_nonempty_default (b :: t') e b) by discriminate. apply last_cons_In.
    + cbn [ring_remove]. destruct (Nat.eqb_spec h e) as [->|Hne].
      * (* e was the head: l1 = [] *)
        assert (l1 = [] /\ l2 = t) as [-> ->].
        { destruct l1 as [|a l1]; [cbn in Esplit; split; congruence|].
          exfalso. cbn in Esplit. injection Esplit as <- Et.
          apply NoDup_cons_iff in Hnd as [Hn _]. apply Hn. rewrite Et. apply in_or_app. right. now left. }
        cbn [app] in Hcyc'. destruct t as [|b t']; [exact I|].
        rewrite (app_removelast_last e (l := b :: t')) in Hcyc' by discriminate.
        apply cyc_rot in Hcyc'. exact Hcyc'.
      * destruct l1 as [|a l1]; [cbn in Esplit; congruence|].
        cbn in Esplit. injection Esplit as <- Et. rewrite Et.
        rewrite remove_nat_split; [exact Hcyc'|].
        intros Hx. apply NoDup_cons_iff in Hnd as [_ Hnd]. rewrite Et in Hnd.
        apply NoDup_remove_2 in Hnd. apply Hnd. apply in_or_app. now left.
    + intros x Hx. apply Hmem in Hx. split; [|tauto]. apply (hk_alive _ _ Hk o sl). rewrite EG. tauto.
    + intros x Hx Hin'. destruct (Nat.eq_dec x e) as [->|Hxe]; [split; [apply unlinkL_self|apply unlinkR_self]|].
      exfalso. apply Hx, Hmem. repeat split; assumption.
    + intros x _ Hn. apply Hframe. now rewrite EG.
Qed.

Lemma ring_removeRef_out s G o sl e :
  heap_ok s G -> alive s o = true -> alive s e = true -> free_of G e ->
  exists s', ring_removeRef o sl e s = Some (tt, s') /\ same_obj s s' /\ heap_ok s' G.
Proof.
  intros Hk Ho Hae Hf.
  pose proof (hk_head _ _ Hk o sl) as Hhd.
  destruct (unlink_out s G e Hk Hae Hf) as [Hrun Hpt].
  destruct (G o sl) as [|h t] eqn:EG; cbn in Hhd.
  - exists (set_ohead s (upd2 (ohead s) o sl None)). split; [|split].
    + unfold ring_removeRef, rd_head, ring_removeRef_core, wr_head, rd, bind, need, get, modify, ret.
      rewrite Ho, Hhd. cbn. rewrite Ho. reflexivity.
    + repeat split.
    + constructor; simpl_st; try apply Hk.
      intros o' sl'. destruct (upd2_cases (ohead s) o sl None o' sl') as [(-> & -> & ->)|(Hd & ->)].
      * now rewrite EG.
      * apply (hk_head _ _ Hk).
  - assert (Hah : alive s h = true) by (apply (hk_alive _ _ Hk o sl); rewrite EG; now left).
    assert (Hhe : h <> e) by (intros ->; apply (Hf o sl); rewrite EG; now left).
    exists (set_ohead (set_rgt (set_lft s (unlinkL s e)) (unlinkR s e)) (upd2 (ohead s) o sl (Some h))).
    split; [|split].
    + unfold ring_removeRef, rd_head, ring_removeRef_core, wr_head, rd, bind, need, get, modify, ret.
      rewrite Ho, Hhd, Hah. rewrite Hrun. cbn.
      destruct (Nat.eqb_spec h e); [contradiction|]. cbn. rewrite Ho. reflexivity.
    + repeat split.
    + constructor; simpl_st.
      * intros o' sl'. destruct (upd2_cases (ohead s) o sl (Some h) o' sl') as [(-> & -> & ->)|(Hd & ->)].
        -- now rewrite EG.
        -- apply (hk_head _ _ Hk).
      * intros o' sl'. eapply cyc_ext; [|apply (hk_cyc _ _ Hk)]. intros x _. apply Hpt.
      * apply Hk.
      * apply Hk.
      * apply Hk.
      * intros x Hx. destruct (Hpt x) as [-> ->]. apply (hk_self _ _ Hk). exact Hx.
Qed.

Lemma ring_addRef_out s G o sl e :
  heap_ok s G -> alive s o = true -> alive s e = true -> free_of G e ->
  exists s', ring_addRef o sl e s = Some (tt, s') /\ same_obj s s' /\
             heap_ok s' (upd2 G o sl (G o sl ++ [e])).
Proof.
  intros Hk Ho Hae Hf.
  pose proof (hk_head _ _ Hk o sl) as Hhd.
  destruct (unlink_out s G e Hk Hae Hf) as [Hrun Hpt].
  assert (Hmem : forall x, In x (G o sl ++ [e]) -> alive s x = true /\ (In x (G o sl) \/ free_of G x)).
  { intros x Hx. apply in_app_or in Hx as [Hx|[<-|[]]]; [|tauto]. split; [|now left]. exact (hk_alive _ _ Hk _ _ _ Hx). }
  assert (Hnd : NoDup (G o sl ++ [e])).
  { eapply Permutation_NoDup; [apply Permutation_cons_append|]. constructor; [apply Hf|apply Hk]. }
  destruct (G o sl) as [|h t] eqn:EG; cbn in Hhd.
  - exists (set_ohead (set_rgt (set_lft s (unlinkL s e)) (unlinkR s e)) (upd2 (ohead s) o sl (Some e))).
    split; [|split; [repeat split|]].
    + unfold ring_addRef, rd_head, wr_head, rd, bind, need, get, modify, ret.
      rewrite Ho, Hhd. rewrite Hrun. cbn. rewrite Ho. reflexivity.
    + apply (heap_ok_upd2 s); simpl_st; rewrite ?EG;
        [exact Hk|reflexivity|apply upd2_same|intros; now apply upd2_other| |exact Hnd|exact Hmem|intros x _ []|].
      * apply cyc_single. split; [apply unlinkR_self|apply unlinkL_self].
      * intros x _ _. apply Hpt.
  - assert (Hah : alive s h = true) by (apply (hk_alive _ _ Hk o sl); rewrite EG; now left).
    assert (Hhe : h <> e) by (intros ->; apply (Hf o sl); rewrite EG; now left).
    pose proof (hk_cyc _ _ Hk o sl) as Hc. rewrite EG in Hc.
    set (z := unlinkL s e h).
    assert (Ez : z = lft s h) by apply Hpt.
    assert (Hzin : In z (h :: t)) by (rewrite Ez, (cyc_head_left _ _ _ _ Hc); apply last_cons_In).
    assert (Haz : alive s z = true) by (apply (hk_alive _ _ Hk o sl); now rewrite EG).
    exists (set_rgt (set_lft s (upd (upd (unlinkL s e) e z) h e)) (upd (upd (unlinkR s e) z e) e h)).
    split; [|split; [repeat split|]].
    + unfold ring_addRef, rd_head, wr_lft, wr_rgt, rd, bind, need, get, modify, ret.
      rewrite Ho, Hhd. destruct (Nat.eqb_spec h e); [contradiction|].
      rewrite Hrun. cbn. rewrite Hah. cbn. fold z. rewrite Hae. cbn. rewrite Haz. cbn. rewrite Hah. cbn. rewrite Hae. reflexivity.
    + apply (heap_ok_upd2 s); simpl_st; rewrite ?EG;
        [exact Hk|reflexivity|exact Hhd|reflexivity| |exact Hnd|exact Hmem| |].
      * (* unlinking the free cell e changed nothing, so this is [link_tail] on the old cycle *)
        apply link_tail; [rewrite <- EG; apply Hk|rewrite <- EG; apply Hf|].
        eapply cyc_ext; [|exact Hc]. intros x _. apply Hpt.
      * intros x Hx Hin. destruct Hx. apply in_or_app. now left.
      * intros x Hx Hn.
        assert (x <> e) by (intros ->; apply Hx, in_or_app; right; now left).
        assert (x <> h) by (intros ->; apply Hn; now left).
        assert (x <> z) by (intros ->; contradiction).
        rewrite !upd_other by assumption. apply Hpt.
Qed.

Lemma rd_head_run s G o sl : heap_ok s G -> alive s o = true -> rd_head o sl s = Some (hd_error (G o sl), s).
Proof.
  intros Hk Ho. unfold rd_head, bind, need, get. rewrite Ho. now rewrite (hk_head _ _ Hk).
Qed.

Lemma needsFree_run s G o :
  heap_ok s G -> alive s o = true ->
  needsFree o s = Some (ouse s o && match G o SH with [] => true | _ => false end, s).
Proof.
  intros Hk Ho. unfold needsFree, rd, bind, need, get, ret. rewrite Ho.
  rewrite (rd_head_run s G o SH Hk Ho). destruct (G o SH); reflexivity.
Qed.
