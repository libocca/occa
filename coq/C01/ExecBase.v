(* C01 — running the primitives symbolically; what a destructor run (`shrink`) and a library call
   (`grow`) may change; the fuel measure. *)
From Coq Require Import List Arith Bool ZArith Lia Permutation.
From OV.C01 Require Import Model Ring Heap Inv InvPrim2.
Import ListNotations.

Lemma bind_run {A B} (m : M A) (f : A -> M B) s a s1 :
  m s = Some (a, s1) -> bind m f s = f a s1.
Proof. unfold bind. now intros ->. Qed.

Lemma bind_run_in {A B C} (m : M A) (f : A -> M B) (g : B -> M C) s a s1 :
  m s = Some (a, s1) -> bind (bind m f) g s = bind (f a) g s1.
Proof. unfold bind. now intros ->. Qed.

Lemma bind_assoc {A B C} (m : M A) (f : A -> M B) (g : B -> M C) s :
  bind m (fun a => bind (f a) g) s = bind (bind m f) g s.
Proof. unfold bind. destruct (m s) as [[a s1]|]; reflexivity. Qed.

Lemma rd_run {A} (f : st -> nat -> A) e s : alive s e = true -> rd f e s = Some (f s e, s).
Proof. intros H. unfold rd, bind, need, get. now rewrite H. Qed.

Lemma get_run {A} (f : st -> A) s : get f s = Some (f s, s).
Proof. reflexivity. Qed.

(* every field write of Model.v is [need e] followed by one [modify] *)
Lemma need_modify_run e f s : alive s e = true -> (need e ;;; modify f) s = Some (tt, f s).
Proof. intros H. unfold bind, need, modify. now rewrite H. Qed.

Lemma kill_run e s : alive s e = true -> kill e s = Some (tt, set_alive s (upd (alive s) e false)).
Proof. apply need_modify_run. Qed.
Lemma need_run s e : alive s e = true -> need e s = Some (tt, s).
Proof. unfold need. now intros ->. Qed.

Lemma existsb_eqb_false o l : ~ In o l -> existsb (Nat.eqb o) l = false.
Proof.
  induction l as [|a l IH]; cbn; [reflexivity|]. intros H.
  destruct (Nat.eqb_spec o a) as [->|_]; [tauto|]. cbn. apply IH. tauto.
Qed.
Lemma existsb_eqb_true o l : In o l -> existsb (Nat.eqb o) l = true.
Proof.
  intros H. apply existsb_exists. exists o. split; [exact H|apply Nat.eqb_refl].
Qed.

Lemma log_destroy_run o s : ~ In o (dlog s) -> log_destroy o s = Some (tt, set_dlog s (o :: dlog s)).
Proof. intros H. unfold log_destroy. now rewrite existsb_eqb_false. Qed.

(* what a destructor run may change: cells die, pointer fields (hptr, obuf) are kept or nulled,
   nothing is allocated *)
Definition shrink (s s' : st) : Prop :=
  nxt s' = nxt s /\ tagof s' = tagof s /\ (forall e, alive s' e = true -> alive s e = true) /\
  (forall h, hptr s' h = hptr s h \/ hptr s' h = None) /\
  vars s' = vars s /\ odev s' = odev s /\ ginner s' = ginner s /\ ocur s' = ocur s /\ ouse s' = ouse s /\
  dus s' = dus s /\ moff s' = moff s /\ pslots s' = pslots s /\ oinner s' = oinner s /\
  (forall m, obuf s' m = obuf s m \/ obuf s' m = None).

Lemma shrink_refl s : shrink s s.
Proof. unfold shrink. repeat split; auto. Qed.

Lemma shrink_tag s s' : shrink s s' -> tagof s' = tagof s.
Proof. now intros (_ & E & _). Qed.

Lemma shrink_trans a b c : shrink a b -> shrink b c -> shrink a c.
Proof.
  intros (A1 & A2 & A3 & A4 & A5 & A6 & A7 & A8 & A9 & A10 & A11 & A12 & A13 & A14)
         (B1 & B2 & B3 & B4 & B5 & B6 & B7 & B8 & B9 & B10 & B11 & B12 & B13 & B14).
  unfold shrink. repeat split; try congruence.
  - auto.
  - intros h. destruct (B4 h) as [-> | ->]; [apply A4|now right].
  - intros m. destruct (B14 m) as [-> | ->]; [apply A14|now right].
Qed.

Lemma same_obj_shrink s s' : same_obj s s' -> shrink s s'.
Proof.
  intros (H1 & H2 & H3 & H4 & H5 & H6 & H7 & H8 & H9 & H10 & H11 & H12 & H13 & H14 & H15 & H16 & H17 & H18).
  unfold shrink. rewrite H1, H2, H3, H4, H5, H6, H7, H8, H9, H13, H14, H15, H16, H18. repeat split; auto.
Qed.

Lemma shrink_hptr_none s h : shrink s (set_hptr s (upd (hptr s) h None)).
Proof.
  unfold shrink. simpl_st. repeat split; auto.
  intros x. unfold upd. destruct (Nat.eqb x h); auto.
Qed.

Lemma shrink_kill s e : shrink s (set_alive s (upd (alive s) e false)).
Proof.
  unfold shrink. simpl_st. repeat split; auto.
  intros x. unfold upd. destruct (Nat.eqb x e); [discriminate|auto].
Qed.
Lemma shrink_dlog s l : shrink s (set_dlog s l).
Proof. unfold shrink. simpl_st. repeat split; auto. Qed.
Lemma shrink_obuf s m : shrink s (set_obuf s (upd (obuf s) m None)).
Proof.
  unfold shrink. simpl_st. repeat split; auto.
  intros x. unfold upd. destruct (Nat.eqb x m); auto.
Qed.
Lemma shrink_obytes s d v : shrink s (set_obytes s (upd (obytes s) d v)).
Proof. unfold shrink. simpl_st. repeat split; auto. Qed.
Lemma shrink_osize s d v : shrink s (set_osize s (upd (osize s) d v)).
Proof. unfold shrink. simpl_st. repeat split; auto. Qed.
Lemma shrink_pres s p l : shrink s (set_pres s (upd (pres s) p l)).
Proof. unfold shrink. simpl_st. repeat split; auto. Qed.

(* what a whole library call may change: cells are added and may die; tags and creation-time fields
   of existing cells stay *)
Definition grow (s s' : st) : Prop :=
  nxt s <= nxt s' /\
  (forall e, e < nxt s -> tagof s' e = tagof s e) /\
  (forall e, e < nxt s -> alive s' e = true -> alive s e = true) /\
  (forall e, e < nxt s -> odev s' e = odev s e) /\
  (forall e, e < nxt s -> ginner s' e = ginner s e) /\
  (forall e, e < nxt s -> ocur s' e = ocur s e).

Lemma grow_refl s : grow s s.
Proof. unfold grow. repeat split; auto. Qed.

Lemma grow_trans a b c : grow a b -> grow b c -> grow a c.
Proof.
  intros (A1 & A2 & A3 & A4 & A5 & A6) (B1 & B2 & B3 & B4 & B5 & B6). unfold grow.
  split; [lia|]. split; [|split; [|split; [|split]]]; intros e He.
  - rewrite B2 by lia. now apply A2.
  - intros H. apply A3; [exact He|]. apply B3; [lia|exact H].
  - rewrite B4 by lia. now apply A4.
  - rewrite B5 by lia. now apply A5.
  - rewrite B6 by lia. now apply A6.
Qed.

Lemma grow_tag s s' e : grow s s' -> e < nxt s -> tagof s' e = tagof s e.
Proof. intros (_ & H & _) He. now apply H. Qed.
Lemma grow_cur s s' e : grow s s' -> e < nxt s -> ocur s' e = ocur s e.
Proof. intros (_ & _ & _ & _ & _ & H) He. now apply H. Qed.

Lemma shrink_grow s s' : shrink s s' -> grow s s'.
Proof.
  intros (A1 & A2 & A3 & A4 & A5 & A6 & A7 & A8 & _). unfold grow. rewrite A1, A2, A6, A7, A8.
  repeat split; auto.
Qed.

Lemma same_obj_grow s s' : same_obj s s' -> grow s s'.
Proof. intros H. apply shrink_grow. now apply same_obj_shrink. Qed.

Lemma grow_set_hptr s v : grow s (set_hptr s v).
Proof. unfold grow. simpl_st. repeat split; auto. Qed.

(* The fuel measure: live cells + wrappers that still point somewhere.  Every turn of a loop of
   [exec] lowers it; a nested call costs one unit of fuel without lowering it, so a task needs
   [measure s + c] where c is the static nesting depth below it (2 for a leaf or a slice, 3-5 for
   buffers, pools and memories, 7 for device::free, 8 for removeXRef); [fuel_ok]: a library call has that. *)
Definition mcell (s : st) (e : nat) : nat :=
  (if alive s e then 1 else 0) + (if alive s e then match hptr s e with Some _ => 1 | None => 0 end else 0).
Fixpoint msum (s : st) (n : nat) : nat :=
  match n with 0 => 0 | S k => mcell s k + msum s k end.
Definition measure (s : st) : nat := msum s (nxt s).

Lemma msum_le s s' n :
  (forall e, mcell s' e <= mcell s e) -> msum s' n <= msum s n.
Proof. intros H. induction n; cbn; [lia|]. specialize (H n). lia. Qed.

Lemma msum_lt s s' n x :
  (forall e, mcell s' e <= mcell s e) -> x < n -> mcell s' x < mcell s x -> msum s' n < msum s n.
Proof.
  intros H Hx Hlt. induction n; [lia|]. cbn.
  destruct (Nat.eq_dec x n) as [->|Hne].
  - pose proof (msum_le s s' n H). lia.
  - assert (x < n) by lia. specialize (IHn H0). specialize (H n). lia.
Qed.

Lemma shrink_mcell s s' : shrink s s' -> forall e, mcell s' e <= mcell s e.
Proof.
  intros (A1 & A2 & A3 & A4 & _) e. unfold mcell.
  destruct (alive s' e) eqn:E'.
  - rewrite (A3 e E'). destruct (A4 e) as [-> | ->]; [lia|]. destruct (hptr s e); lia.
  - destruct (alive s e); destruct (hptr s e); lia.
Qed.

Lemma shrink_measure s s' : shrink s s' -> measure s' <= measure s.
Proof.
  intros H. unfold measure. destruct H as (A1 & A). rewrite A1. apply msum_le. apply shrink_mcell.
  unfold shrink. auto.
Qed.

Lemma shrink_measure_lt s s' x :
  shrink s s' -> x < nxt s -> mcell s' x < mcell s x -> measure s' < measure s.
Proof.
  intros H Hx Hlt. unfold measure. pose proof H as (A1 & _). rewrite A1.
  eapply msum_lt; [apply shrink_mcell; exact H|exact Hx|exact Hlt].
Qed.

Lemma msum_le_2n s n : msum s n <= 2 * n.
Proof.
  induction n; cbn [msum]; [lia|]. unfold mcell at 1.
  destruct (alive s n); [destruct (hptr s n)|]; lia.
Qed.

Lemma fuel_ok s : measure s + 8 <= fuel_of s.
Proof. unfold fuel_of, measure. pose proof (msum_le_2n s (nxt s)). lia. Qed.

Lemma shrink_ext s s' : shrink s s' -> ext s s'.
Proof.
  intros (A1 & A2 & A3 & _). unfold ext. rewrite A1, A2. repeat split; auto.
Qed.

