(* C01 — the destructors of the fixed code preserve the invariant and never reach UB: the loop
   that nulls the wrappers, then each class of object from the leaves (kernel, stream, tag, slice)
   up to buffers, pools and memories that take their buffer with them. *)
From Coq Require Import List Arith Bool ZArith Lia Permutation.
From OV.C01 Require Import Model Ring Heap Inv InvPrim2 ExecBase.
Import ListNotations.

Section E.
Variable vkind : nat -> kind.
Notation inv := (inv vkind).
Notation exec := (exec fixed).

(* while (ring.head) { removeRef; wrapper->modeX = NULL }.  Every turn clears one wrapper's pointer,
   which the measure counts. *)
Lemma null_spec : forall f X W D T G s o,
  measure s < f -> inv X W D T G s -> alive s o = true -> In o W ->
  exists s', exec f (TNull o) s = Some (tt, s') /\ inv X W D T (upd2 G o SH []) s' /\
             shrink s s' /\ alive s' = alive s /\ obuf s' = obuf s.
Proof.
  induction f as [|f IH]; intros X W D T G s o Hf Hi Ho Hw; [lia|]. cbn [exec].
  erewrite bind_run by (eapply rd_head_run; [apply Hi|exact Ho]).
  destruct (G o SH) as [|h t] eqn:EG; cbn [hd_error].
  - exists s. split; [reflexivity|]. split.
    + eapply inv_ext_G; [|exact Hi]. intros o' sl'.
      destruct (upd2_cases G o SH [] o' sl') as [(-> & -> & E)|(Hd & E)]; rewrite E; congruence.
    + repeat split; auto using shrink_refl.
  - assert (Hin : In h (G o SH)) by (rewrite EG; now left).
    destruct (member_facts Hi Hin) as (Hah & _ & Hhome & Hnx & Hfit).
    destruct (fits_SH _ _ Hfit) as (k & Hth & Hto & Hk).
    destruct (ring_removeRef_in s G o SH h (i_heap Hi) Ho Hin) as (s1 & Hrun & Hsame & Hk1).
    erewrite bind_run by exact Hrun.
    assert (Hi1 : inv (h :: X) W D T (upd2 G o SH (ring_remove h (G o SH))) s1).
    { eapply inv_unlink; try eassumption; [apply incl_refl|]. intros Hn. contradiction. }
    pose proof Hsame as (_ & S2 & S3 & _ & _ & _ & S7 & S8 & _).
    assert (Hah1 : alive s1 h = true) by (rewrite S3; exact Hah).
    erewrite bind_run by (apply need_modify_run; exact Hah1).
    set (s2 := set_hptr s1 (upd (hptr s1) h None)).
    assert (Hi2 : inv X W D T (upd2 G o SH (ring_remove h (G o SH))) s2).
    { apply inv_null; [exact Hi1|exact Hah1|]. rewrite S2. exists k. exact Hth. }
    assert (Hs12 : shrink s s2).
    { eapply shrink_trans; [apply same_obj_shrink; exact Hsame|apply shrink_hptr_none]. }
    assert (Hlt : measure s2 < measure s).
    { eapply shrink_measure_lt with (x := h); [exact Hs12|eapply inv_lt; eassumption|].
      unfold mcell, s2. simpl_st. rewrite upd_same, S3, Hah.
      unfold home in Hhome. rewrite Hth in Hhome. destruct (hptr s h); [lia|discriminate]. }
    destruct (IH X W D T (upd2 G o SH (ring_remove h (G o SH))) s2 o) as (s' & Hex & Hi' & Hsh & Hal & Hob);
      try assumption; [lia|unfold s2; simpl_st; rewrite S3; exact Ho|].
    exists s'. split; [exact Hex|]. split.
    + eapply inv_ext_G; [|exact Hi']. intros o' sl'. symmetry. apply upd2_upd2.
    + split; [eapply shrink_trans; eassumption|].
      unfold s2 in *. simpl_st. repeat split; congruence.
Qed.

Lemma remove_self_notin (l : list nat) o : ~ In o l -> remove Nat.eq_dec o (o :: l) = l.
Proof.
  intros H. cbn. destruct (Nat.eq_dec o o); [|congruence]. now apply notin_remove.
Qed.

Lemma detach_dev X W D T G s o d sl :
  inv X W D T G s -> alive s o = true -> alive s d = true -> tagof s d = TO KDev -> sl <> SH -> o <> d ->
  (home s o = Some (d, sl) \/ home s o = None) ->
  exists s' G', ring_removeRef d sl o s = Some (tt, s') /\ same_obj s s' /\ inv (o :: X) W D T G' s' /\
                (forall sl', G' o sl' = G o sl').
Proof.
  intros Hi Hao Had Htd Hsl Hod Hh.
  assert (Hcase : In o (G d sl) \/ free_of G o).
  { destruct (in_dec Nat.eq_dec o X) as [Hx|Hx]; [right; eapply exempt_free; eassumption|].
    destruct Hh as [Hh|Hh]; [left; now apply (i_mem2 Hi)|].
    right. intros o' sl' Hin. destruct (i_mem1 Hi _ _ _ Hin) as [Hh' _]. congruence. }
  destruct Hcase as [Hin|Hfree].
  - destruct (ring_removeRef_in s G d sl o (i_heap Hi) Had Hin) as (s1 & Hrun & Hsame & Hk1).
    exists s1, (upd2 G d sl (ring_remove o (G d sl))). split; [exact Hrun|]. split; [exact Hsame|]. split.
    + eapply inv_unlink; try eassumption; [apply incl_refl|].
      intros Hw k Hk. rewrite Htd in Hk. injection Hk as <-.
      rewrite upd2_other by (right; intros E; apply Hsl; now symmetry).
      apply (i_live Hi d KDev Had Htd Hw).
    + intros sl'. apply upd2_other. left. exact Hod.
  - destruct (ring_removeRef_out s G d sl o (i_heap Hi) Had Hao Hfree) as (s1 & Hrun & Hsame & Hk1).
    exists s1, G. split; [exact Hrun|]. split; [exact Hsame|]. split; [|reflexivity].
    apply inv_weaken_X; [|exact Hfree]. eapply inv_same_obj; eassumption.
Qed.

Lemma kill_obj X X' W D T G s o :
  inv X' W (o :: D) T G s -> (X' = X \/ X' = o :: X) ->
  is_obj_tag (tagof s o) -> ~ In o D ->
  free_of G o -> (forall sl, G o sl = []) ->
  (forall p, alive s p = true -> ~ In p W -> oinner s p <> Some o) ->
  (forall x k', alive s x = true -> x <> o -> tagof s x = TO k' -> k' <> KDev -> k' <> KMem -> odev s x <> Some o) ->
  (tagof s o = TO KDev -> alive s (ocur s o) = false) ->
  (forall b, oinner s o = Some b -> alive s b = true -> ginner s b = true -> In b W) ->
  inv X W D T G (set_alive s (upd (alive s) o false)).
Proof.
  intros Hi HX Hto Hnd Hfree Hrings Hinn Hdev Hdc Hio.
  assert (HT : ~ In o T) by (eapply obj_not_in_T; eassumption).
  assert (Hk : inv X' W D T G (set_alive s (upd (alive s) o false))).
  { rewrite <- (remove_self_notin D o Hnd). rewrite <- (notin_remove Nat.eq_dec T o HT).
    apply inv_kill; try assumption.
    - intros _. eapply logged_in_D; [exact Hi|now left].
    - intros v Hv. destruct (i_vars Hi v o Hv) as (Ht & _). destruct Hto as [k Hk]. congruence.
    - intros d Had Htd Hw E. destruct (i_cur Hi d Had Htd Hw) as (_ & Ht & _).
      rewrite E in Ht. destruct Hto as [k Hk]. congruence. }
  destruct HX as [->| ->]; [exact Hk|].
  eapply inv_unX_dead; [exact Hk| |].
  - simpl_st. apply upd_same.
  - simpl_st. exact Hto.
Qed.

Definition leaf_kind (k : kind) : Prop := k = KKer \/ k = KStr \/ k = KTag.
Definition simple_kind (k : kind) : Prop := leaf_kind k \/ k = KMem.

(* a simple object has no ring but that of its wrappers *)
Lemma kill_simple X X' W D T G s o k :
  inv X' W (o :: D) T G s -> (X' = X \/ X' = o :: X) ->
  tagof s o = TO k -> simple_kind k -> ~ In o D ->
  free_of G o -> G o SH = [] ->
  inv X W D T G (set_alive s (upd (alive s) o false)).
Proof.
  intros Hi HX Hto Hk Hnd Hfree Hring.
  assert (Hn : k <> KBuf /\ k <> KDev /\ k <> KPool)
    by (destruct Hk as [[-> | [-> | ->]] | ->]; repeat split; discriminate).
  destruct Hn as (N1 & N2 & N3).
  eapply kill_obj; try eassumption.
  - exists k. exact Hto.
  - intros sl. destruct sl; [exact Hring|..];
      (apply (ring_nil Hi); rewrite Hto; destruct Hk as [[-> | [-> | ->]] | ->]; reflexivity).
  - intros p Hap Hw E. destruct (i_inner Hi p o Hap Hw E) as (_ & _ & Ht & _). congruence.
  - intros x k' Hax Hxo Htx Hk1 Hk2 E.
    destruct (i_dev Hi x k' Hax Htx Hk1 Hk2) as (d & Hd1 & _ & Hd3). congruence.
  - intros E. congruence.
  - intros b E. pose proof (i_inner_tag Hi o b E) as Ht. congruence.
Qed.

(* the opening steps of every destructor, whatever follows *)
Definition enters (s : st) (o : nat) (k : kind) (s1 : st) : Prop :=
  forall A (F : kind -> M A), (need o;;; k0 <- get (fun s => kind_of s o);; log_destroy o;;; F k0) s = F k s1.

Lemma delete_enter X W D T G s o k :
  inv X W D T G s -> alive s o = true -> tagof s o = TO k -> ~ In o D ->
  let s1 := set_dlog s (o :: dlog s) in inv X W (o :: D) T G s1 /\ enters s o k s1.
Proof.
  intros Hi Ho Ht Hd s1.
  destruct (inv_log vkind X W D T G s o Hi Ho (ex_intro _ k Ht) Hd) as [Hnl Hi1].
  split; [exact Hi1|]. intros A F.
  erewrite bind_run by (apply need_run; exact Ho). erewrite bind_run by apply get_run.
  unfold kind_of at 1. rewrite Ht. now erewrite bind_run by (apply log_destroy_run; exact Hnl).
Qed.

(* every destructor but ~modeBuffer_t goes on to null the wrappers *)
Lemma delete_open f X W D T G s o k :
  inv X W D T G s -> alive s o = true -> tagof s o = TO k -> ~ In o D -> In o W -> measure s < f ->
  exists s1 s2, enters s o k s1 /\
    exec f (TNull o) s1 = Some (tt, s2) /\ inv X W (o :: D) T (upd2 G o SH []) s2 /\
    shrink s s2 /\ alive s2 = alive s /\ obuf s2 = obuf s /\ alive s2 o = true /\ tagof s2 o = TO k.
Proof.
  intros Hi Ho Ht Hd Hw Hf. destruct (delete_enter X W D T G s o k Hi Ho Ht Hd) as (Hi1 & Hent).
  destruct (null_spec f X W (o :: D) T G (set_dlog s (o :: dlog s)) o) as (s2 & Hex & Hi2 & Hsh & Hal & Hob);
    try assumption; [pose proof (shrink_measure _ _ (shrink_dlog s (o :: dlog s))); lia|].
  exists (set_dlog s (o :: dlog s)), s2. split; [exact Hent|]. split; [exact Hex|]. split; [exact Hi2|].
  split; [eapply shrink_trans; [apply shrink_dlog|exact Hsh]|]. repeat split; try assumption.
  - rewrite Hal. exact Ho.
  - rewrite (shrink_tag _ _ Hsh). exact Ht.
Qed.

(* delete o runs, keeps the invariant, and takes with it only cells satisfying P *)
Definition deletes X W D T f s o (P : nat -> Prop) : Prop :=
  exists G' s', exec f (TDelete o) s = Some (tt, s') /\ inv X W D T G' s' /\ alive s' o = false /\
                shrink s s' /\ forall x, alive s x = true -> alive s' x = false -> P x.

Lemma deletes_mono X W D T f s o (P Q : nat -> Prop) :
  deletes X W D T f s o P -> (forall x, alive s x = true -> P x -> Q x) -> deletes X W D T f s o Q.
Proof.
  intros (G' & s' & Hex & Hi & Hd & Hsh & Hk) HPQ. exists G', s'. repeat (split; [assumption|]).
  intros x H1 H2. apply HPQ; [exact H1|]. now apply Hk.
Qed.

(* every destructor ends in kill o *)
Lemma deletes_kill X W D T G f s s' o (P : nat -> Prop) :
  exec f (TDelete o) s = kill o s' -> alive s' o = true -> shrink s s' ->
  inv X W D T G (set_alive s' (upd (alive s') o false)) ->
  P o -> (forall x, alive s x = true -> alive s' x = false -> P x) ->
  deletes X W D T f s o P.
Proof.
  intros Hex Ho Hsh Hi HPo HP. exists G, (set_alive s' (upd (alive s') o false)).
  split; [rewrite Hex; now apply kill_run|]. split; [exact Hi|]. simpl_st. split; [apply upd_same|].
  split; [eapply shrink_trans; [exact Hsh|apply shrink_kill]|].
  intros x H1 H2. destruct (Nat.eq_dec x o) as [->|Hne]; [exact HPo|]. rewrite upd_other in H2 by exact Hne. now apply HP.
Qed.

(* ~modeMemory_t of a slice that ~modeBuffer_t has unlinked and whose buffer pointer it has cleared *)
Lemma delete_mem_down f X W D T G s o :
  inv (o :: X) W D T G s -> alive s o = true -> tagof s o = TO KMem -> obuf s o = None ->
  ~ In o D -> In o W -> measure s + 2 <= f -> deletes X W D T f s o (eq o).
Proof.
  intros Hi Ho Ht Hob Hd Hw Hf.
  destruct f as [|f]; [lia|].
  destruct (delete_open f (o :: X) W D T G s o KMem Hi Ho Ht Hd Hw ltac:(lia))
    as (s1 & s2 & Hent & Hex & Hi2 & Hsh & Hal & Hob2 & Ho2 & Ht2).
  apply (deletes_kill X W D T (upd2 G o SH []) (S f) s s2); try assumption; [| |reflexivity|].
  - cbn [exec]. rewrite Hent.
    erewrite bind_run_in by exact Hex. erewrite bind_run_in by (apply rd_run; exact Ho2). now rewrite Hob2, Hob.
  - eapply kill_simple; try eassumption; [now right|now right| |].
    + eapply exempt_free; [exact Hi2|now left].
    + apply upd2_same.
  - intros x H1 H2. rewrite Hal in H2. congruence.
Qed.

(* ~modeKernel_t / ~modeStream_t / ~modeStreamTag_t *)
Lemma delete_leaf f X W D T G s o k :
  inv X W D T G s -> alive s o = true -> tagof s o = TO k -> leaf_kind k ->
  ~ In o D -> In o W -> measure s + 2 <= f -> deletes X W D T f s o (eq o).
Proof.
  intros Hi Ho Ht Hlk Hd Hw Hf.
  destruct f as [|f]; [lia|].
  destruct (delete_open f X W D T G s o k Hi Ho Ht Hd Hw ltac:(lia))
    as (s1 & s2 & Hent & Hex & Hi2 & Hsh & Hal & _ & Ho2 & Ht2).
  assert (Hk1 : k <> KDev) by (destruct Hlk as [-> | [-> | ->]]; discriminate).
  assert (Hk2 : k <> KMem) by (destruct Hlk as [-> | [-> | ->]]; discriminate).
  destruct (i_dev Hi2 o k Ho2 Ht2 Hk1 Hk2) as (d & Hd1 & Hd2 & Hd3).
  assert (Hod : o <> d) by (intros ->; rewrite Ht2 in Hd3; injection Hd3 as ->; congruence).
  assert (Hhome : home s2 o = Some (d, dev_slot k)).
  { unfold home. rewrite Ht2, Hd1. destruct Hlk as [-> | [-> | ->]]; reflexivity. }
  assert (Hslot : dev_slot k <> SH) by (destruct Hlk as [-> | [-> | ->]]; discriminate).
  destruct (detach_dev X W (o :: D) T _ s2 o d (dev_slot k) Hi2 Ho2 Hd2 Hd3 Hslot Hod (or_introl Hhome))
    as (s3 & G3 & Hrun3 & Hsame3 & Hi3 & HG3).
  pose proof Hsame3 as (_ & S2 & S3 & _).
  assert (Ho3 : alive s3 o = true) by (rewrite S3; exact Ho2).
  apply (deletes_kill X W D T G3 (S f) s s3); [|exact Ho3| | |reflexivity|].
  - cbn [exec]. rewrite Hent. destruct Hlk as [-> | [-> | ->]];
      (erewrite bind_run_in by exact Hex; erewrite bind_run_in by (apply rd_run; exact Ho2); rewrite Hd1;
       erewrite bind_run_in by (apply need_run; exact Hd2); now erewrite bind_run by exact Hrun3).
  - eapply shrink_trans; [exact Hsh|apply same_obj_shrink; exact Hsame3].
  - eapply kill_simple; try eassumption.
    + now right.
    + rewrite S2. exact Ht2.
    + now left.
    + eapply exempt_free; [exact Hi3|now left].
    + rewrite HG3. apply upd2_same.
  - intros x H1 H2. rewrite S3, Hal in H2. congruence.
Qed.

Lemma home_shrink s s' e r : shrink s s' -> home s' e = Some r -> home s e = Some r.
Proof.
  intros (A1 & A2 & A3 & A4 & A5 & A6 & A7 & A8 & A9 & A10 & A11 & A12 & A13 & A14).
  unfold home. rewrite A2, A6, A7. destruct (tagof s e) as [|k|k]; [auto| |].
  - destruct (A4 e) as [-> | ->]; [auto|discriminate].
  - destruct k; auto. destruct (A14 e) as [-> | ->]; [auto|discriminate].
Qed.

Lemma ring_subset X X' W W' D D' T T' G G' s s' :
  inv X W D T G s -> inv X' W' D' T' G' s' -> shrink s s' -> incl X X' ->
  forall e o sl, In e (G' o sl) -> In e (G o sl).
Proof.
  intros Hi Hi' Hsh HX e o sl Hin.
  destruct (member_facts Hi' Hin) as (Ha & _ & Hh & Hnx & _).
  apply (i_mem2 Hi); [|intros H; apply Hnx; now apply HX|eapply home_shrink; eassumption].
  destruct Hsh as (_ & _ & A3 & _). now apply A3.
Qed.

Lemma ring_nil_preserved X X' W W' D D' T T' G G' s s' o sl :
  inv X W D T G s -> inv X' W' D' T' G' s' -> shrink s s' -> incl X X' ->
  G o sl = [] -> G' o sl = [].
Proof.
  intros Hi Hi' Hsh HX Hnil. destruct (G' o sl) as [|e l] eqn:E; [reflexivity|].
  pose proof (ring_subset _ _ _ _ _ _ _ _ _ _ _ _ Hi Hi' Hsh HX e o sl) as H. rewrite E, Hnil in H. destruct H. now left.
Qed.

(* ~modeBuffer_t: destroy all slices *)
Lemma children_spec : forall f X W D T G s b,
  measure s + 3 <= f -> inv X W D T G s -> alive s b = true -> In b W ->
  (forall x, In x D -> ~ In x (G b SMem)) ->
  exists G' s', exec f (TChildren b) s = Some (tt, s') /\ inv X W D T G' s' /\ G' b SMem = [] /\
                alive s' b = true /\ shrink s s' /\
                (forall x, alive s x = true -> alive s' x = false -> In x (G b SMem)).
Proof.
  induction f as [|f IH]; intros X W D T G s b Hf Hi Hb Hw HD; [lia|]. cbn [exec].
  erewrite bind_run by (eapply rd_head_run; [apply Hi|exact Hb]).
  destruct (G b SMem) as [|m t] eqn:EG; cbn [hd_error].
  - exists G, s. split; [reflexivity|]. split; [exact Hi|]. split; [exact EG|]. split; [exact Hb|].
    split; [apply shrink_refl|]. intros x H1 H2. congruence.
  - assert (Hin : In m (G b SMem)) by (rewrite EG; now left).
    destruct (member_facts Hi Hin) as (Ham & _ & Hhome & Hnx & Hfit).
    destruct (fits_SMem _ _ Hfit) as (Htm & Htb).
    destruct (ring_removeRef_in s G b SMem m (i_heap Hi) Hb Hin) as (s1 & Hrun & Hsame & Hk1).
    erewrite bind_run by exact Hrun.
    set (G1 := upd2 G b SMem (ring_remove m (G b SMem))) in *.
    assert (Hi1 : inv (m :: X) W D T G1 s1).
    { eapply inv_unlink; try eassumption; [apply incl_refl|]. intros Hn. contradiction. }
    pose proof Hsame as (_ & S2 & S3 & _).
    assert (Ham1 : alive s1 m = true) by (rewrite S3; exact Ham).
    erewrite bind_run by (apply need_modify_run; exact Ham1).
    set (s2 := set_obuf s1 (upd (obuf s1) m None)).
    assert (Hi2 : inv (m :: X) (m :: W) D T G1 s2).
    { apply inv_weaken_W. apply inv_set_obuf; [exact Hi1|now left|]. rewrite S2. exact Htm. }
    assert (Hsh02 : shrink s s2) by (eapply shrink_trans; [apply same_obj_shrink; exact Hsame|apply shrink_obuf]).
    pose proof (shrink_measure _ _ Hsh02) as Hms2.
    destruct (delete_mem_down f X (m :: W) D T G1 s2 m) as (G3 & s3 & Hex3 & Hi3 & Hd3 & Hsh3 & Hk3).
    + exact Hi2.
    + unfold s2. simpl_st. exact Ham1.
    + unfold s2. simpl_st. rewrite S2. exact Htm.
    + unfold s2. simpl_st. apply upd_same.
    + intros H. apply (HD m H). now left.
    + now left.
    + lia.
    + erewrite bind_run by exact Hex3.
      assert (Hbm : b <> m) by (intros ->; rewrite Htm in Htb; destruct Htb; discriminate).
      pose proof (inv_unW_dead _ _ _ _ _ _ _ _ Hi3 Hd3) as Hi3'.
      pose proof (shrink_trans _ _ _ Hsh02 Hsh3) as Hsh03.
      assert (Hlt : measure s3 < measure s).
      { eapply shrink_measure_lt with (x := m); [exact Hsh03|eapply inv_lt; eassumption|].
        unfold mcell. rewrite Hd3, Ham. lia. }
      assert (Hb3 : alive s3 b = true).
      { destruct (alive s3 b) eqn:E; [reflexivity|]. exfalso. apply Hbm. symmetry.
        apply Hk3; [unfold s2; simpl_st; rewrite S3; exact Hb|exact E]. }
      pose proof (ring_subset _ _ _ _ _ _ _ _ _ _ _ _ Hi Hi3' Hsh03 (incl_refl X)) as Hsub.
      destruct (IH X W D T G3 s3 b) as (G' & s' & Hex' & Hi' & Hnil & Hb' & Hsh' & Hk'); try assumption; try lia.
      { intros x Hx Hx3. apply (HD x Hx). rewrite <- EG. now apply Hsub. }
      exists G', s'. split; [exact Hex'|]. split; [exact Hi'|]. split; [exact Hnil|]. split; [exact Hb'|].
      split; [eapply shrink_trans; eassumption|].
      intros x Hx1 Hx2. destruct (alive s3 x) eqn:E3.
      * rewrite <- EG. apply Hsub. now apply Hk'.
      * left. apply Hk3; [unfold s2; simpl_st; rewrite S3; exact Hx1|exact E3].
Qed.

(* the end of ~modeBuffer_t and ~modeMemoryPool_t up to the kill: the slices are destroyed, the bytes go back to
   the device, the object leaves the device's ring *)
Lemma buf_tail f X W D T G s o k :
  inv X W (o :: D) T G s -> alive s o = true -> tagof s o = TO k -> k = KBuf \/ k = KPool -> ~ In o D -> In o W ->
  (forall x, In x D -> ~ In x (G o SMem)) -> G o SH = [] ->
  (forall p, alive s p = true -> ~ In p W -> oinner s p <> Some o) ->
  (forall b, oinner s o = Some b -> alive s b = false) ->
  measure s + 3 <= f ->
  exists G' s',
    (exec f (TChildren o);;;
     d <- rd odev o;;
     match d with
     | None => ret tt
     | Some d => sz <- rd osize o;; bt <- rd obytes d;; wr_obytes d (bt - sz)%Z;;; ring_removeRef d SBuf o
     end) s = Some (tt, s') /\
    inv X W D T G' (set_alive s' (upd (alive s') o false)) /\ shrink s s' /\ alive s' o = true /\
    (forall x, alive s x = true -> alive s' x = false -> In x (G o SMem)).
Proof.
  intros Hi Ho Ht Hk Hd Hw HD Hring Hinn Hio Hf.
  destruct (children_spec f X W (o :: D) T G s o Hf Hi Ho Hw) as (G2 & s2 & Hex2 & Hi2 & Hnil2 & Ho2 & Hsh2 & Hk2).
  { intros x [<-|Hx] Hx2; [|exact (HD x Hx Hx2)].
    destruct (i_own Hi _ _ _ Hx2) as [_ Hfit]. apply fits_SMem in Hfit as [Hc _]. destruct Hk as [-> | ->]; congruence. }
  pose proof Hsh2 as (_ & Etag & Eal & _ & _ & _ & _ & _ & _ & _ & _ & _ & Eoin & _).
  assert (Ht2 : tagof s2 o = TO k) by (rewrite Etag; exact Ht).
  destruct (i_dev Hi2 o k Ho2 Ht2) as (d & Hd1 & Hd2 & Hd3); [destruct Hk as [-> | ->]; discriminate..|].
  assert (Hod : o <> d) by (intros ->; destruct Hk as [-> | ->]; congruence).
  set (s3 := set_obytes s2 (upd (obytes s2) d (obytes s2 d - osize s2 o)%Z)).
  assert (Hi3 : inv X W (o :: D) T G2 s3) by (apply inv_set_obytes; exact Hi2).
  assert (Hhome : home s3 o = Some (d, SBuf) \/ home s3 o = None).
  { unfold home, s3. simpl_st. rewrite Ht2, Hd1. destruct Hk as [-> | ->]; [destruct (ginner s2 o)|]; auto. }
  destruct (detach_dev X W (o :: D) T G2 s3 o d SBuf Hi3) as (s4 & G4 & Hrun4 & Hsame4 & Hi4 & HG4);
    try assumption; try discriminate.
  pose proof Hsame4 as (_ & S2 & S3 & _ & _ & _ & _ & S8 & _).
  assert (Ht4 : tagof s4 o = TO k) by (rewrite S2; exact Ht2).
  exists G4, s4. split; [|split; [|split; [|split]]].
  - erewrite bind_run by exact Hex2. erewrite bind_run by (apply rd_run; exact Ho2). rewrite Hd1.
    erewrite bind_run by (apply rd_run; exact Ho2). erewrite bind_run by (apply rd_run; exact Hd2).
    erewrite bind_run by (apply need_modify_run; exact Hd2). exact Hrun4.
  - eapply kill_obj; try exact Hi4.
    + now right.
    + exists k. exact Ht4.
    + exact Hd.
    + eapply exempt_free; [exact Hi4|now left].
    + intros sl. rewrite HG4. destruct sl; [|exact Hnil2|..];
        try (apply (ring_nil Hi2); rewrite Ht2; destruct Hk as [-> | ->]; reflexivity).
      eapply ring_nil_preserved; [exact Hi|exact Hi2|exact Hsh2|apply incl_refl|exact Hring].
    + intros p Hap Hpw E. rewrite S3 in Hap. rewrite S8 in E.
      apply (Hinn p); [apply Eal; exact Hap|exact Hpw|]. rewrite <- Eoin. exact E.
    + intros x k' Hax Hxb Htx Hk1' Hk2' E.
      destruct (i_dev Hi4 x k' Hax Htx Hk1' Hk2') as (d' & Hd1' & _ & Hd3').
      rewrite E in Hd1'. injection Hd1' as <-. rewrite Ht4 in Hd3'. destruct Hk as [-> | ->]; discriminate.
    + intros E. rewrite Ht4 in E. destruct Hk as [-> | ->]; discriminate.
    + intros b E Hab _. exfalso. rewrite S8 in E. rewrite S3 in Hab. apply Eal in Hab.
      rewrite (Hio b) in Hab; [discriminate|]. rewrite <- Eoin. exact E.
  - eapply shrink_trans; [exact Hsh2|]. eapply shrink_trans; [apply shrink_obytes|apply same_obj_shrink; exact Hsame4].
  - rewrite S3. exact Ho2.
  - intros x H1 H2. rewrite S3 in H2. now apply Hk2.
Qed.

(* ~modeBuffer_t (plain or pool-internal buffer) *)
Lemma delete_buf f X W D T G s b :
  inv X W D T G s -> alive s b = true -> tagof s b = TO KBuf -> ~ In b D -> In b W ->
  (forall x, In x D -> ~ In x (G b SMem)) ->
  (forall p, alive s p = true -> ~ In p W -> oinner s p <> Some b) ->
  measure s + 4 <= f ->
  deletes X W D T f s b (fun x => x = b \/ In x (G b SMem)).
Proof.
  intros Hi Hb Ht Hd Hw HD Hinn Hf.
  destruct f as [|f]; [lia|].
  destruct (delete_enter X W D T G s b KBuf Hi Hb Ht Hd) as (Hi1 & Hent).
  destruct (buf_tail f X W D T G _ b KBuf Hi1 Hb Ht (or_introl eq_refl) Hd Hw HD)
    as (G' & s' & Hex' & Hi' & Hsh' & Hb' & Hk').
  - apply (ring_nil Hi1). simpl_st. now rewrite Ht.
  - exact Hinn.
  - intros b0 E. pose proof (i_inner_tag Hi b b0 E). congruence.
  - pose proof (shrink_measure _ _ (shrink_dlog s (b :: dlog s))). lia.
  - apply (deletes_kill X W D T G' (S f) s s'); [|exact Hb'| |exact Hi'|now left|].
    + cbn [exec]. rewrite Hent. erewrite bind_run_in by reflexivity. now erewrite bind_run by exact Hex'.
    + eapply shrink_trans; [apply (shrink_dlog s (b :: dlog s))|exact Hsh'].
    + intros x Hx1 Hx2. right. now apply Hk'.
Qed.

(* ~modeMemoryPool_t *)
Lemma delete_pool f X W D T G s p :
  inv X W D T G s -> alive s p = true -> tagof s p = TO KPool -> ~ In p D -> In p W ->
  (forall x, In x D -> tagof s x <> TO KMem /\ tagof s x <> TO KBuf) ->
  inner_ok s p ->
  measure s + 5 <= f ->
  deletes X W D T f s p (fun x => x = p \/ oinner s p = Some x \/ In x (G p SMem)).
Proof.
  intros Hi Hp Ht Hd Hw HD Hib Hf.
  destruct f as [|f]; [lia|].
  destruct (delete_open f X W D T G s p KPool Hi Hp Ht Hd Hw ltac:(lia))
    as (s1 & s2 & Hent & Hex2 & Hi2 & Hsh2 & Hal2 & _ & Hp2 & _).
  set (G2 := upd2 G p SH []) in *.
  pose proof Hsh2 as (_ & Etag & _ & _ & _ & _ & Egin & _ & _ & _ & _ & _ & Hoi2 & _).
  pose proof (shrink_measure _ _ Hsh2) as Hm2.
  assert (Hstep3 : exists G3 s3,
     match oinner s p with Some ib => exec f (TDelete ib) | None => ret tt end s2 = Some (tt, s3) /\
     inv X W (p :: D) T G3 s3 /\ shrink s2 s3 /\ alive s3 p = true /\
     (forall x, alive s2 x = true -> alive s3 x = false -> oinner s p = Some x) /\
     (forall b, oinner s p = Some b -> alive s3 b = false)).
  { unfold inner_ok in Hib. destruct (oinner s p) as [ib|] eqn:Eib.
    - destruct (Hib ib eq_refl) as (Ha & Htb & Hg).
      assert (Hg2 : ginner s2 ib = true) by (rewrite Egin; exact Hg).
      assert (Hpib : p <> ib) by (intros ->; congruence).
      pose proof (proj2 (i_ginner Hi2 ib Hg2)) as Hnil.
      destruct (delete_buf f X (ib :: W) (p :: D) T G2 s2 ib) as (G3 & s3 & Hex3 & Hi3 & Hd3 & Hsh3 & Hk3).
      + apply inv_weaken_W. exact Hi2.
      + rewrite Hal2. exact Ha.
      + rewrite Etag. exact Htb.
      + intros [E|H]; [congruence|]. destruct (HD ib H) as [_ Hn]. congruence.
      + now left.
      + intros x Hx Hx2. rewrite Hnil in Hx2. destruct Hx2.
      + intros p' Hap' Hw' E. apply Hw'. right.
        assert (p' = p); [|subst; exact Hw].
        apply (i_inner_inj Hi2 p' p ib Hap' Hp2 E). rewrite Hoi2. exact Eib.
      + lia.
      + exists G3, s3. split; [exact Hex3|].
        assert (Honly : forall x, alive s2 x = true -> alive s3 x = false -> x = ib).
        { intros x H1 H2. destruct (Hk3 x H1 H2) as [E2|E2]; [exact E2|]. rewrite Hnil in E2. destruct E2. }
        split; [eapply inv_unW_dead; eassumption|]. split; [exact Hsh3|]. split; [|split].
        * destruct (alive s3 p) eqn:E; [reflexivity|]. exfalso. apply Hpib. now apply Honly.
        * intros x H1 H2. f_equal. symmetry. now apply Honly.
        * intros b Eb. injection Eb as <-. exact Hd3.
    - exists G2, s2. split; [reflexivity|]. split; [exact Hi2|]. split; [apply shrink_refl|]. split; [exact Hp2|].
      split; [intros x H1 H2; congruence|]. intros b Hb. discriminate. }
  destruct Hstep3 as (G3 & s3 & Hex3 & Hi3 & Hsh3 & Hp3 & Hk3 & Hibdead).
  set (s4 := set_osize s3 (upd (osize s3) p 0%Z)).
  assert (Hi4 : inv X W (p :: D) T G3 s4) by (apply inv_set_osize; exact Hi3).
  assert (Hsh24 : shrink s2 s4) by (eapply shrink_trans; [exact Hsh3|apply shrink_osize]).
  pose proof (shrink_trans _ _ _ Hsh2 Hsh24) as Hsh04.
  pose proof Hsh04 as (_ & Ftag & _ & _ & _ & _ & _ & _ & _ & _ & _ & _ & Foin & _).
  destruct (buf_tail f X W D T G3 s4 p KPool Hi4 Hp3) as (G' & s' & Hex' & Hi' & Hsh' & Hp' & Hk'); try assumption.
  - rewrite Ftag. exact Ht.
  - now right.
  - intros x Hx Hx2. destruct (i_own Hi4 _ _ _ Hx2) as [_ Hfit]. apply fits_SMem in Hfit as [Hc _].
    rewrite Ftag in Hc. destruct (HD x Hx). congruence.
  - eapply ring_nil_preserved; [exact Hi2|exact Hi4|exact Hsh24|apply incl_refl|apply upd2_same].
  - intros p' Hap' Hpw E. destruct (i_inner Hi4 p' p Hap' Hpw E) as (_ & _ & Hc & _). rewrite Ftag in Hc. congruence.
  - intros b0 E. rewrite Foin in E. exact (Hibdead b0 E).
  - pose proof (shrink_measure _ _ Hsh04). lia.
  - apply (deletes_kill X W D T G' (S f) s s'); [|exact Hp'| |exact Hi'|now left|].
    + cbn [exec]. rewrite Hent. cbv beta iota.
      rewrite <- bind_assoc. erewrite bind_run_in by exact Hex2. erewrite bind_run_in by (apply rd_run; exact Hp2).
      rewrite Hoi2. erewrite bind_run_in by exact Hex3. erewrite bind_run by (apply need_modify_run; exact Hp3).
      now erewrite bind_run by exact Hex'.
    + eapply shrink_trans; eassumption.
    + intros x Hx1 Hx2. right. destruct (alive s4 x) eqn:E4.
      * right. eapply ring_subset; [exact Hi|exact Hi4|exact Hsh04|apply incl_refl|]. now apply Hk'.
      * left. apply Hk3; [rewrite Hal2; exact Hx1|exact E4].
Qed.

(* modeBuffer->removeModeMemoryRef(this); if (modeBuffer->needsFree()) delete modeBuffer; — F, g: what follows *)
Lemma drop_child f X W D T G s b m :
  inv X W D T G s -> In m (G b SMem) -> ~ In b W -> ~ In b D -> measure s + 4 <= f ->
  exists G' s',
    (forall A B (F : M A) (g : A -> M B),
       bind (buf_removeModeMemoryRef b m;;; nf <- buf_needsFree b;; (if nf then exec f (TDelete b) else ret tt);;; F) g s
       = bind F g s') /\
    inv (m :: X) W D T G' s' /\ shrink s s' /\ (forall x, alive s x = true -> alive s' x = false -> x = b).
Proof.
  intros Hi Hin Hbw Hbd Hf.
  destruct (member_facts Hi Hin) as (Ham & Hab & Hhome & Hnx & Hfit).
  destruct (fits_SMem _ _ Hfit) as (Htm & Htb).
  destruct (ring_removeRef_in s G b SMem m (i_heap Hi) Hab Hin) as (s1 & Hrun & Hsame & Hk1).
  set (G' := upd2 G b SMem (ring_remove m (G b SMem))) in *.
  pose proof Hsame as (_ & S2 & S3 & _ & S5 & _ & _ & S8 & _ & _ & _ & S12 & S13 & _ & S15 & _).
  assert (Hab1 : alive s1 b = true) by (rewrite S3; exact Hab).
  destruct Htb as [Htb|Htb].
  - assert (Hrm : buf_removeModeMemoryRef b m s = Some (tt, s1)).
    { unfold buf_removeModeMemoryRef. erewrite bind_run by (apply need_run; exact Hab).
      erewrite bind_run by apply get_run. unfold kind_of. rewrite Htb. erewrite bind_run by exact Hrun. reflexivity. }
    assert (Hnf : buf_needsFree b s1 = Some (match G' b SMem with [] => true | _ => false end, s1)).
    { unfold buf_needsFree. erewrite bind_run by (apply need_run; exact Hab1).
      erewrite bind_run by apply get_run. unfold kind_of. rewrite S2, Htb.
      erewrite bind_run by (eapply rd_head_run; [exact Hk1|exact Hab1]). destruct (G' b SMem); reflexivity. }
    destruct (G' b SMem) as [|y t] eqn:EG.
    + assert (Hi1 : inv (m :: X) (b :: W) D T G' s1).
      { eapply inv_unlink; try eassumption; [apply incl_tl, incl_refl|]. intros Hn. exfalso. apply Hn. now left. }
      assert (Hgb : ginner s1 b = false).
      { rewrite S15. destruct (ginner s b) eqn:Eg; [|reflexivity].
        rewrite (proj2 (i_ginner Hi b Eg)) in Hin. destruct Hin. }
      destruct (delete_buf f (m :: X) (b :: W) D T G' s1 b) as (G4 & s4 & Hex4 & Hi4 & Hd4 & Hsh4 & Hk4).
      * exact Hi1.
      * exact Hab1.
      * rewrite S2. exact Htb.
      * exact Hbd.
      * now left.
      * intros x _ Hx. rewrite EG in Hx. destruct Hx.
      * intros p Hap Hpw E. destruct (i_inner Hi1 p b Hap Hpw E) as (_ & _ & _ & Hg & _). congruence.
      * pose proof (shrink_measure _ _ (same_obj_shrink _ _ Hsame)). lia.
      * exists G4, s4. split; [|split; [|split]].
        -- intros A B F g. erewrite bind_run_in by exact Hrm. erewrite bind_run_in by exact Hnf.
           now erewrite bind_run_in by exact Hex4.
        -- eapply inv_unW_dead; eassumption.
        -- eapply shrink_trans; [apply same_obj_shrink; exact Hsame|exact Hsh4].
        -- intros x H1 H2. rewrite <- S3 in H1. destruct (Hk4 x H1 H2) as [E|E]; [exact E|]. rewrite EG in E. destruct E.
    + exists G', s1. split; [|split; [|split]].
      * intros A B F g. erewrite bind_run_in by exact Hrm. now erewrite bind_run_in by exact Hnf.
      * eapply inv_unlink; try eassumption; [apply incl_refl|]. intros _ k Hk. rewrite Htb in Hk. injection Hk as <-.
        intros _. fold G'. rewrite EG. discriminate.
      * apply same_obj_shrink. exact Hsame.
      * intros x H1 H2. rewrite S3 in H2. congruence.
  - assert (Hpres : In m (pres s b)) by (apply (i_pres Hi b m Hab Htb Hbw Hin)).
    set (s2 := set_pres s1 (upd (pres s1) b (remove_nat m (pres s1 b)))).
    assert (Hrm : buf_removeModeMemoryRef b m s = Some (tt, s2)).
    { unfold buf_removeModeMemoryRef. erewrite bind_run by (apply need_run; exact Hab).
      erewrite bind_run by apply get_run. unfold kind_of. rewrite Htb. erewrite bind_run by exact Hrun.
      erewrite bind_run by (apply rd_run; exact Hab1). rewrite S12.
      rewrite (existsb_eqb_true m (pres s b) Hpres). rewrite <- S12. apply need_modify_run. exact Hab1. }
    assert (Hlive : ouse s b = true -> G b SH <> []) by (apply (i_live Hi b KPool Hab Htb Hbw)).
    assert (Hi1 : inv (m :: X) W D T G' s1).
    { eapply inv_unlink; try eassumption; [apply incl_refl|]. intros _ k Hk. rewrite Htb in Hk. injection Hk as <-.
      intros Hu. fold G'. unfold G'. rewrite upd2_other by (right; discriminate). now apply Hlive. }
    assert (Hi2 : inv (m :: X) W D T G' s2).
    { apply inv_set_pres; [exact Hi1|exact Hab1| |].
      2:{ intros _ Hw' Hc. rewrite S8. apply (i_pool_buf Hi b Hab Htb Hw').
          destruct Hc as [Hc|Hc]; [left|right; rewrite <- S13; exact Hc].
          intros E. apply Hc. rewrite S12, E. reflexivity. }
      intros m' Hm'. unfold G' in Hm'. rewrite upd2_same in Hm'.
      apply ring_remove_In in Hm'; [|apply (hk_nd _ _ (i_heap Hi))]. destruct Hm' as [Hm1 Hm2].
      rewrite S12. apply remove_nat_In_ne; [|exact Hm2]. apply (i_pres Hi b m' Hab Htb Hbw Hm1). }
    assert (Hnf : buf_needsFree b s2 = Some (false, s2)).
    { unfold buf_needsFree. erewrite bind_run by (apply need_run; exact Hab1).
      assert (Hk2 : kind_of s2 b = KPool) by (unfold kind_of, s2; simpl_st; rewrite S2, Htb; reflexivity).
      erewrite bind_run by apply get_run. rewrite Hk2.
      rewrite (needsFree_run _ G' b (i_heap Hi2) Hab1).
      assert (Hu2 : ouse s2 b = ouse s b) by (unfold s2; simpl_st; now rewrite S5). rewrite Hu2.
      unfold G'. rewrite upd2_other by (right; discriminate).
      destruct (ouse s b) eqn:Eu; [|reflexivity]. destruct (G b SH) eqn:EG; [exfalso; now apply Hlive|reflexivity]. }
    exists G', s2. split; [|split; [exact Hi2|split]].
    + intros A B F g. erewrite bind_run_in by exact Hrm. now erewrite bind_run_in by exact Hnf.
    + eapply shrink_trans; [apply same_obj_shrink; exact Hsame|apply shrink_pres].
    + intros x H1 H2. unfold s2 in H2. simpl_st. rewrite S3 in H2. congruence.
Qed.

(* ~modeMemory_t of a memory that is still entered in its buffer *)
Lemma delete_mem f X W D T G s m :
  inv X W D T G s -> alive s m = true -> tagof s m = TO KMem -> ~ In m D -> In m W -> ~ In m X ->
  (forall b, obuf s m = Some b -> ~ In b W /\ ~ In b D) ->
  measure s + 5 <= f ->
  deletes X W D T f s m (fun x => x = m \/ obuf s m = Some x).
Proof.
  intros Hi Hm Ht Hd Hw Hnx Hbw Hf.
  destruct f as [|f]; [lia|].
  destruct (delete_open f X W D T G s m KMem Hi Hm Ht Hd Hw ltac:(lia))
    as (s1 & s2 & Hent & Hex2 & Hi2 & Hsh2 & Hal2 & Hob2 & Hm2 & Ht2).
  set (G2 := upd2 G m SH []) in *.
  pose proof (shrink_measure _ _ Hsh2) as Hms2.
  destruct (obuf s m) as [b|] eqn:Eb; [|exfalso; exact (i_buf Hi m Hm Ht Hnx Eb)].
  destruct (Hbw b eq_refl) as [Hbw1 Hbd1].
  assert (Hin : In m (G2 b SMem)).
  { apply (i_mem2 Hi2); try assumption. unfold home. now rewrite Ht2, Hob2, Eb. }
  destruct (member_facts Hi2 Hin) as (_ & _ & _ & _ & Hfit).
  destruct (fits_SMem _ _ Hfit) as (_ & Htb2).
  assert (Hbm : b <> m) by (intros ->; rewrite Ht2 in Htb2; destruct Htb2; discriminate).
  destruct (drop_child f X W (m :: D) T G2 s2 b m Hi2 Hin Hbw1) as (G4 & s4 & Hrun4 & Hi4 & Hsh4 & Hk4);
    [intros [E|H]; [congruence|contradiction]|lia|].
  assert (Hm4 : alive s4 m = true).
  { destruct (alive s4 m) eqn:E; [reflexivity|]. exfalso. apply Hbm. symmetry. now apply Hk4. }
  set (s5 := set_obuf s4 (upd (obuf s4) m None)).
  pose proof (shrink_trans _ _ _ Hsh2 Hsh4) as Hsh04.
  assert (Ht4 : tagof s4 m = TO KMem) by (rewrite (shrink_tag _ _ Hsh04); exact Ht).
  assert (Hi5 : inv (m :: X) W (m :: D) T G4 s5) by (apply inv_set_obuf; [exact Hi4|now left|exact Ht4]).
  apply (deletes_kill X W D T G4 (S f) s s5); [|exact Hm4| | |now left|].
  - cbn [exec]. rewrite Hent.
    erewrite bind_run_in by exact Hex2. erewrite bind_run_in by (apply rd_run; exact Hm2). rewrite Hob2, Eb, Hrun4.
    now erewrite bind_run by (apply need_modify_run; exact Hm4).
  - eapply shrink_trans; [exact Hsh04|apply shrink_obuf].
  - eapply kill_simple; try exact Hi5.
    + now right.
    + exact Ht4.
    + now right.
    + exact Hd.
    + eapply exempt_free; [exact Hi5|now left].
    + eapply ring_nil_preserved; [exact Hi2|exact Hi4|exact Hsh4|apply incl_tl, incl_refl|apply upd2_same].
  - intros x Hx1 Hx2. right. f_equal. symmetry. apply Hk4; [|exact Hx2]. rewrite Hal2. exact Hx1.
Qed.

End E.
