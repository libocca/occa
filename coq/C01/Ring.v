(* C01 — doubly linked cyclic lists over left/right pointer functions: the facts about
   ringEntry_t::removeRef / ring_t::addRef / ring_t::removeRef that everything else uses; before
   them `upd` and list facts, after them `remove_nat` (the reservation list of a pool). *)
From Coq Require Import List Arith Bool Lia Permutation.
From OV.C01 Require Import Model.
Import ListNotations.

Lemma upd_same {A} (f : nat -> A) k v : upd f k v k = v.
Proof. unfold upd. now rewrite Nat.eqb_refl. Qed.
Lemma upd_other {A} (f : nat -> A) k v x : x <> k -> upd f k v x = f x.
Proof. unfold upd. intros H. destruct (Nat.eqb_spec x k); congruence. Qed.
Lemma upd_some {A} (f : nat -> option A) k v x b :
  upd f k (Some v) x = Some b -> (x = k /\ b = v) \/ (x <> k /\ f x = Some b).
Proof. unfold upd. destruct (Nat.eqb_spec x k); [intros [= <-]|]; auto. Qed.

Lemma last_cons_cons {A} (a b : A) l d : last (a :: b :: l) d = last (b :: l) d.
Proof. reflexivity. Qed.

Lemma last_nonempty_default {A} (l : list A) d d' : l <> [] -> last l d = last l d'.
Proof.
  induction l as [|a l IH]; [congruence|]. intros _.
  destruct l; [reflexivity|]. rewrite !last_cons_cons. apply IH. discriminate.
Qed.

Lemma last_cons_In {A} (a : A) l : In (last (a :: l) a) (a :: l).
Proof.
  revert a. induction l as [|b l IH]; intros a; [now left|].
  right. rewrite last_cons_cons. rewrite (last_nonempty_default (b :: l) a b) by discriminate. apply IH.
Qed.

Lemma last_app_nonempty {A} (l1 l2 : list A) d : l2 <> [] -> last (l1 ++ l2) d = last l2 d.
Proof.
  intros H. induction l1 as [|a l1 IH]; [reflexivity|].
  cbn [app]. destruct (l1 ++ l2) eqn:E.
  - destruct l1; cbn in E; [congruence|discriminate].
  - rewrite last_cons_cons. exact IH.
Qed.

Lemma removelast_cons_In {A} (a : A) l x : In x (removelast (a :: l)) -> In x (a :: l).
Proof.
  revert a. induction l as [|b l IH]; intros a H; [destruct H|].
  cbn [removelast] in H. destruct H as [->|H]; [now left|]. right. apply IH. exact H.
Qed.

Lemma NoDup_last_not_removelast (a : nat) l :
  NoDup (a :: l) -> ~ In (last (a :: l) a) (removelast (a :: l)).
Proof.
  revert a. induction l as [|b l IH]; intros a Hnd H; [destruct H|].
  rewrite last_cons_cons in H. cbn [removelast] in H.
  rewrite (last_nonempty_default (b :: l) a b) in H by discriminate.
  inversion Hnd as [|? ? Ha Hnd']; subst.
  destruct H as [H|H].
  - apply Ha. rewrite H. apply last_cons_In.
  - exact (IH b Hnd' H).
Qed.

Section Cyc.
Variables L R : nat -> nat.

Definition lnk (a b : nat) : Prop := R a = b /\ L b = a.

Fixpoint path (a : nat) (l : list nat) : Prop :=
  match l with
  | [] => True
  | b :: t => lnk a b /\ path b t
  end.

(* the cycle a -> t1 -> ... -> tn -> a *)
Definition cyc (l : list nat) : Prop :=
  match l with
  | [] => True
  | a :: t => path a (t ++ [a])
  end.

Lemma path_app a l1 l2 : path a (l1 ++ l2) <-> path a l1 /\ path (last l1 a) l2.
Proof.
  revert a. induction l1 as [|b l1 IH]; intros a; cbn [app path].
  - cbn. tauto.
  - rewrite IH.
    assert (last (b :: l1) a = last l1 b) as ->.
    { destruct l1; [reflexivity|]. rewrite last_cons_cons. apply last_nonempty_default. discriminate. }
    now split.
Qed.

Lemma cyc_rot l1 l2 : cyc (l1 ++ l2) -> cyc (l2 ++ l1).
Proof.
  destruct l2 as [|b l2]; [now rewrite app_nil_r|].
  destruct l1 as [|a l1]; [now rewrite app_nil_r|].
  cbn [cyc app]. intros H.
  replace (l1 ++ b :: l2) with ((l1 ++ [b]) ++ l2) in H by (now rewrite <- app_assoc).
  rewrite <- app_assoc in H. apply path_app in H. destruct H as [H1 H2].
  rewrite last_last in H2.
  replace (l2 ++ a :: l1) with ((l2 ++ [a]) ++ l1) by (now rewrite <- app_assoc).
  rewrite <- app_assoc. apply path_app. split; [exact H2|].
  rewrite last_last. exact H1.
Qed.

Lemma cyc_single a : cyc [a] <-> (R a = a /\ L a = a).
Proof. cbn. unfold lnk. now split. Qed.

Lemma cyc_head_left a t : cyc (a :: t) -> L a = last (a :: t) a.
Proof.
  cbn [cyc]. intros H. apply path_app in H. destruct H as [_ H]. cbn in H.
  destruct H as [[_ H] _]. rewrite H. destruct t; [reflexivity|].
  rewrite last_cons_cons. reflexivity.
Qed.

Lemma cyc_head_right a b t : cyc (a :: b :: t) -> R a = b.
Proof. cbn. unfold lnk. tauto. Qed.

End Cyc.

(* R is read at all but the last vertex of the path, L at all but the first *)
Lemma path_ext L R L' R' a l :
  (forall x, In x (removelast (a :: l)) -> R' x = R x) ->
  (forall x, In x l -> L' x = L x) ->
  path L R a l -> path L' R' a l.
Proof.
  revert a. induction l as [|b l IH]; intros a HR HL; [exact (fun _ => I)|].
  cbn [path]. intros [[H1 H2] H3]. split.
  - unfold lnk. rewrite HR by (cbn; now left). rewrite HL by now left. tauto.
  - apply IH; [| |exact H3].
    + intros x Hx. apply HR. cbn [removelast]. now right.
    + intros x Hx. apply HL. now right.
Qed.

Lemma cyc_ext L R L' R' l :
  (forall x, In x l -> L' x = L x /\ R' x = R x) -> cyc L R l -> cyc L' R' l.
Proof.
  destruct l as [|a t]; [tauto|]. cbn [cyc]. intros He. apply path_ext.
  - intros x Hx. apply He.
    apply removelast_cons_In in Hx. destruct Hx as [->|Hx]; [now left|].
    apply in_app_or in Hx. destruct Hx as [Hx|[<-|[]]]; [now right|now left].
  - intros x Hx. apply He. apply in_app_or in Hx. destruct Hx as [Hx|[<-|[]]]; [now right|now left].
Qed.

(* ringEntry_t::removeRef on the first element of a cycle of length >= 2 *)
Lemma unlink_head L R e b t :
  NoDup (e :: b :: t) -> cyc L R (e :: b :: t) ->
  L e = last (b :: t) b /\ R e = b /\
  cyc (upd (upd L (R e) (L e)) e e) (upd (upd R (L e) (R e)) e e) (b :: t).
Proof.
  intros Hnd Hc.
  assert (HLe : L e = last (b :: t) b).
  { rewrite (cyc_head_left _ _ _ _ Hc). rewrite last_cons_cons. apply last_nonempty_default. discriminate. }
  assert (HRe : R e = b) by (eapply cyc_head_right; exact Hc).
  split; [exact HLe|]. split; [exact HRe|].
  rewrite HLe, HRe. set (z := last (b :: t) b) in *.
  pose proof Hnd as Hnd0. apply NoDup_cons_iff in Hnd0 as [He Hnd'].
  assert (Hze : z <> e) by (intros E; apply He; rewrite <- E; apply last_cons_In).
  assert (Hbe : b <> e) by (intros ->; apply He; now left).
  cbn [cyc] in *. cbn [app path] in Hc. destruct Hc as [_ Hc].
  apply path_app in Hc. destruct Hc as [Hp Hl]. fold z in Hl. cbn in Hl. destruct Hl as [[Hl1 Hl2] _].
  apply path_app. fold z. split.
  - eapply path_ext; [| |exact Hp].
    + intros x Hx. rewrite !upd_other; [reflexivity| |].
      * intros ->. exact (NoDup_last_not_removelast _ _ Hnd' Hx).
      * intros ->. apply He. apply removelast_cons_In. exact Hx.
    + intros x Hx. rewrite !upd_other; [reflexivity| |].
      * intros ->. apply NoDup_cons_iff in Hnd' as [Hb _]. contradiction.
      * intros ->. apply He. now right.
  - cbn [path]. split; [|exact I]. unfold lnk.
    assert (Hzt : last t b = z) by (unfold z; destruct t; reflexivity). rewrite Hzt.
    rewrite (upd_other _ e e z Hze), upd_same.
    rewrite (upd_other _ e e b Hbe), upd_same. tauto.
Qed.

(* ringEntry_t::removeRef on any element of a cycle of length >= 2 *)
Lemma unlink_any L R l1 e l2 :
  NoDup (l1 ++ e :: l2) -> cyc L R (l1 ++ e :: l2) -> l1 ++ l2 <> [] ->
  L e <> e /\
  cyc (upd (upd L (R e) (L e)) e e) (upd (upd R (L e) (R e)) e e) (l1 ++ l2).
Proof.
  intros Hnd Hc Hne.
  apply cyc_rot in Hc. cbn [app] in Hc.
  assert (Hnd2 : NoDup (e :: l2 ++ l1)).
  { apply NoDup_cons.
    - intros H. apply NoDup_remove_2 in Hnd. apply Hnd. apply in_or_app. apply in_app_or in H. tauto.
    - apply NoDup_remove_1 in Hnd. eapply Permutation_NoDup; [apply Permutation_app_comm|exact Hnd]. }
  destruct (l2 ++ l1) as [|b t] eqn:E.
  - exfalso. apply Hne. destruct l2; [|discriminate]. destruct l1; [reflexivity|discriminate].
  - destruct (unlink_head L R e b t Hnd2 Hc) as (HL & HR & Hc').
    split.
    + rewrite HL. intros H. apply NoDup_cons_iff in Hnd2 as [Hn _]. apply Hn. rewrite <- H at 1. apply last_cons_In.
    + rewrite <- E in Hc'. apply cyc_rot in Hc'. exact Hc'.
Qed.

(* ring_t::addRef: insertion of e between the tail and the head *)
Lemma link_tail L R h t e :
  NoDup (h :: t) -> ~ In e (h :: t) -> cyc L R (h :: t) ->
  let z := L h in
  cyc (upd (upd L e z) h e) (upd (upd R z e) e h) (h :: t ++ [e]).
Proof.
  intros Hnd Hne Hc z.
  assert (Hz : z = last (h :: t) h) by (eapply cyc_head_left; exact Hc).
  assert (Hzin : In z (h :: t)) by (rewrite Hz; apply last_cons_In).
  assert (Hze : z <> e) by (intros ->; contradiction).
  assert (Hhe : h <> e) by (intros ->; apply Hne; now left).
  cbn [cyc] in *. apply path_app in Hc. destruct Hc as [Hp Hl].
  assert (Hzt : last t h = z) by (rewrite Hz; destruct t; reflexivity).
  rewrite Hzt in Hl. cbn in Hl. destruct Hl as [[Hl1 Hl2] _].
  rewrite <- app_assoc. apply path_app. rewrite Hzt. split.
  - eapply path_ext; [| |exact Hp].
    + intros x Hx. rewrite !upd_other; [reflexivity| |].
      * intros ->. rewrite Hz in Hx. exact (NoDup_last_not_removelast _ _ Hnd Hx).
      * intros ->. apply Hne. apply removelast_cons_In. exact Hx.
    + intros x Hx. rewrite !upd_other; [reflexivity| |].
      * intros ->. apply Hne. now right.
      * intros ->. apply NoDup_cons_iff in Hnd as [Hh _]. contradiction.
  - cbn. unfold lnk. split; [|split; [|exact I]].
    + rewrite (upd_other _ e h z Hze), upd_same.
      rewrite (upd_other _ h e e (not_eq_sym Hhe)), upd_same. tauto.
    + rewrite !upd_same. tauto.
Qed.

Lemma cyc_neighbours L R l1 e l2 :
  cyc L R (l1 ++ e :: l2) -> In (L e) (l1 ++ e :: l2) /\ In (R e) (l1 ++ e :: l2).
Proof.
  intros Hc. apply cyc_rot in Hc. cbn [app] in Hc.
  assert (Hperm : forall x, In x (e :: l2 ++ l1) -> In x (l1 ++ e :: l2)).
  { intros x [->|Hx]; [apply in_or_app; right; now left|].
    apply in_app_or in Hx. apply in_or_app. destruct Hx; [right; now right|now left]. }
  split; apply Hperm.
  - rewrite (cyc_head_left _ _ _ _ Hc). apply last_cons_In.
  - destruct (l2 ++ l1) as [|b t] eqn:E.
    + apply cyc_single in Hc. destruct Hc as [-> _]. now left.
    + rewrite (cyc_head_right _ _ _ _ _ Hc). right. now left.
Qed.

Lemma remove_nat_split e t1 t2 : ~ In e t1 -> remove_nat e (t1 ++ e :: t2) = t1 ++ t2.
Proof.
  induction t1 as [|a t1 IH]; cbn; intros H.
  - now rewrite Nat.eqb_refl.
  - destruct (Nat.eqb_spec e a) as [->|_]; [tauto|]. f_equal. apply IH. tauto.
Qed.

Lemma remove_nat_In e l x : In x (remove_nat e l) -> In x l.
Proof.
  induction l as [|a l IH]; cbn; [tauto|].
  destruct (Nat.eqb_spec e a); [tauto|]. intros [->|H]; [tauto|]. right. now apply IH.
Qed.

Lemma remove_nat_In_ne e l x : In x l -> x <> e -> In x (remove_nat e l).
Proof.
  induction l as [|a l IH]; cbn; [tauto|].
  destruct (Nat.eqb_spec e a) as [->|Hn]; intros [->|H] Hx; try tauto; try (now left).
  right. now apply IH.
Qed.

Lemma remove_nat_NoDup e l : NoDup l -> NoDup (remove_nat e l) /\ ~ In e (remove_nat e l).
Proof.
  induction l as [|a l IH]; cbn; intros H; [split; [constructor|tauto]|].
  apply NoDup_cons_iff in H as [Ha Hl].
  destruct (Nat.eqb_spec e a) as [->|Hn]; [tauto|].
  destruct (IH Hl) as [H1 H2]. split.
  - constructor; [|exact H1]. intros Hin. apply Ha. eapply remove_nat_In. exact Hin.
  - intros [E|Hin]; [congruence|tauto].
Qed.
