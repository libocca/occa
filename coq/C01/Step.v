(* C01 — every history operation keeps the heap well formed and never reaches UB (fixed code). *)
From Coq Require Import List Arith Bool ZArith Lia Permutation.
From OV.C01 Require Import Model Ring Heap Inv InvPrim2 ExecBase Exec Exec6 Alloc Ops Create.
Import ListNotations.

Section S.
Variable vkind : nat -> kind.
Notation inv := (inv vkind).

Definition dus_ok (s : st) : Prop :=
  forall o, In o (dus s) -> (exists k, tagof s o = TO k /\ k <> KBuf) /\ o < nxt s.

Definition WF (s : st) : Prop := (exists G, inv [] [] [] [] G s) /\ dus_ok s.

(* what dus_ok asks of each o in dus s *)
Definition keptprop (s : st) (o : nat) : Prop := (exists k, tagof s o = TO k /\ k <> KBuf) /\ o < nxt s.

Lemma keptprop_grow s s' o : keptprop s o -> grow s s' -> keptprop s' o.
Proof.
  intros [(k & Hk1 & Hk2) Hlt] (G1 & G2 & _). split; [exists k; split; [rewrite G2 by exact Hlt; exact Hk1|exact Hk2]|lia].
Qed.

Lemma WF_grow G s s' : dus_ok s -> grow s s' -> dus s' = dus s -> inv [] [] [] [] G s' -> WF s'.
Proof.
  intros Hd Hg E Hi. split; [now exists G|]. intros o Ho. rewrite E in Ho. exact (keptprop_grow s s' o (Hd o Ho) Hg).
Qed.

Lemma var_ptr_some s v h : vars s v = Some h -> alive s h = true ->
  var_ptr v s = Some (Some (h, hptr s h), s).
Proof.
  intros Hv Ha. unfold var_ptr. erewrite bind_run by apply get_run. rewrite Hv.
  erewrite bind_run by (apply rd_run; exact Ha). reflexivity.
Qed.

Lemma var_ptr_none s v : vars s v = None -> var_ptr v s = Some (None, s).
Proof. intros Hv. unfold var_ptr. erewrite bind_run by apply get_run. rewrite Hv. reflexivity. Qed.

Lemma WF_same s : WF s -> exists s', Some (Skip, s) = Some (Skip, s') /\ WF s'.
Proof. intros H. now exists s. Qed.

Definition ok (m : M status) (s : st) : Prop := exists r s', m s = Some (r, s') /\ WF s'.

Lemma ok_ret (r : status) s : WF s -> ok (ret r) s.
Proof. intros H. now exists r, s. Qed.

Lemma kind_eqb_true a b : kind_eqb a b = true -> a = b.
Proof. destruct (kind_eqb_spec a b); [auto|discriminate]. Qed.

Lemma kind_eqb2 a b c d : kind_eqb a b && kind_eqb c d = true -> a = b /\ c = d.
Proof. intros [H1 H2]%andb_true_iff. split; now apply kind_eqb_true. Qed.

Lemma ok_guard (b : bool) m s : WF s -> (b = true -> ok m s) -> ok (if negb b then ret Skip else m) s.
Proof. intros HW H. destruct b; [now apply H|exact (ok_ret Skip s HW)]. Qed.

(* `x <- var_ptr pv; match x with ...`: an empty variable skips, an uninitialised wrapper raises,
   otherwise the call goes on with the object the wrapper points to *)
Lemma ok_through_var s pv k (f : nat -> M status) :
  WF s -> vkind pv = k ->
  (forall o, alive s o = true -> tagof s o = TO k -> ok (f o) s) ->
  ok (x <- var_ptr pv;;
      match x with
      | None => ret Skip
      | Some (_, None) => ret Err
      | Some (_, Some o) => f o
      end) s.
Proof.
  intros HW Hk Hf. pose proof HW as [[G Hi] _]. unfold ok.
  destruct (vars s pv) as [h|] eqn:Ev.
  2:{ rewrite (bind_run _ _ _ _ _ (var_ptr_none s pv Ev)). exact (ok_ret Skip s HW). }
  destruct (var_handle vkind [] G s pv h Hi Ev) as (_ & Ha & Ht). rewrite Hk in Ht.
  rewrite (bind_run _ _ _ _ _ (var_ptr_some s pv h Ev Ha)).
  destruct (hptr s h) as [o|] eqn:Ep; [|exact (ok_ret Err s HW)].
  destruct (target_facts vkind [] G s h o k Hi Ha Ht Ep) as (_ & A1 & A2 & _). now apply Hf.
Qed.

Lemma ok_store G s0 s v t :
  dus_ok s0 -> grow s0 s -> dus s = dus s0 -> inv [] [] [] [t] G s -> tagof s t = TH (vkind v) ->
  ok (store fixed v t;;; ret Done) s.
Proof.
  intros Hd Hg E Hi Ht. destruct (store_spec vkind G s v t Hi Ht) as (G1 & s1 & R1 & Hi1 & Hg1 & Hd1).
  unfold ok. erewrite bind_run by exact R1.
  apply ok_ret, (WF_grow G1 s0); [exact Hd|eapply grow_trans; eassumption|congruence|exact Hi1].
Qed.

(* the end of a creating call: the new object o gets its first wrapper, which goes into v *)
Lemma ok_wrap_store G s0 s o v :
  dus_ok s0 -> grow s0 s -> dus s = dus s0 ->
  inv [] [o] [] [] G s -> alive s o = true -> tagof s o = TO (vkind v) -> vkind v <> KBuf -> vkind v <> KDev ->
  (vkind v = KPool -> oinner s o = None /\ G o SMem = [] /\ pres s o = [] /\ pslots s o = 0) ->
  ok (t <- h_new fixed (vkind v) (Some o);; store fixed v t;;; ret Done) s.
Proof.
  intros Hd Hg Hdu Hi Ha Ht Hkb Hkd Hp.
  assert (Hoi : oinner s o = None).
  { destruct (oinner s o) as [b|] eqn:E; [|reflexivity].
    pose proof (i_inner_tag Hi o b E) as Hc. rewrite Ht in Hc. injection Hc as Hc.
    destruct (Hp Hc) as (N & _). congruence. }
  destruct (h_new_obj vkind [] G s o (vkind v) Hi Ha Ht Hkb Hkd Hoi (fun E => proj2 (Hp E))) as
      (G2 & s2 & R2 & Hi2 & _ & Ht2 & Hg2 & _ & Hd2 & _).
  unfold ok. erewrite bind_run by exact R2.
  apply (ok_store G2 s0); [exact Hd|eapply grow_trans; eassumption|congruence|exact Hi2|exact Ht2].
Qed.

Lemma step_copy s v w : WF s -> ok (step fixed vkind (OCopy v w)) s.
Proof.
  intros HW. pose proof HW as [[G Hi] Hd]. unfold step.
  apply ok_guard; [exact HW|intros Ek%kind_eqb_true]. unfold ok.
  do 2 erewrite bind_run by apply get_run.
  destruct (vars s v) as [hv|] eqn:Ev; [exact (ok_ret Skip s HW)|].
  destruct (vars s w) as [hw|] eqn:Ew; [|exact (ok_ret Skip s HW)].
  destruct (var_handle vkind [] G s w hw Hi Ew) as (_ & Haw & Htw).
  destruct (h_copy_spec vkind [] G s hw (vkind w) Hi Haw Htw) as (G1 & s1 & R1 & Hi1 & _ & Ht1 & Hg1 & _ & Hd1 & _).
  erewrite bind_run by exact R1.
  apply (ok_store G1 s); try assumption. now rewrite Ek.
Qed.

Lemma step_assign s v w : WF s -> ok (step fixed vkind (OAssign v w)) s.
Proof.
  intros HW. pose proof HW as [[G Hi] Hd]. unfold step.
  apply ok_guard; [exact HW|intros Ek%kind_eqb_true]. unfold ok.
  do 2 erewrite bind_run by apply get_run.
  destruct (vars s v) as [hv|] eqn:Ev; [|exact (ok_ret Skip s HW)].
  destruct (vars s w) as [hw|] eqn:Ew; [|exact (ok_ret Skip s HW)].
  destruct (var_handle vkind [] G s w hw Hi Ew) as (_ & Haw & Htw).
  destruct (var_handle vkind [] G s v hv Hi Ev) as (Huv & _ & Htv).
  destruct (h_assign_spec vkind [] G s hv hw (vkind v) Hi Huv Htv Haw ltac:(now rewrite Ek)) as
      (G1 & s1 & R1 & Hi1 & _ & Hg1 & _ & Hd1).
  erewrite bind_run by exact R1. exact (ok_ret Done s1 (WF_grow G1 s s1 Hd Hg1 Hd1 Hi1)).
Qed.

Lemma step_swap s v w : WF s -> ok (step fixed vkind (OSwap v w)) s.
Proof.
  intros HW. pose proof HW as [[G Hi] Hd]. unfold step.
  apply ok_guard; [exact HW|intros [Ek%kind_eqb_true _]%andb_true_iff]. unfold ok.
  do 2 erewrite bind_run by apply get_run.
  destruct (vars s v) as [hv|] eqn:Ev; [|exact (ok_ret Skip s HW)].
  destruct (vars s w) as [hw|] eqn:Ew; [|exact (ok_ret Skip s HW)].
  destruct (var_handle vkind [] G s w hw Hi Ew) as (Huw & _ & Htw).
  destruct (var_handle vkind [] G s v hv Hi Ev) as (Huv & _ & Htv).
  destruct (h_swap_spec vkind G s hv hw (vkind v) Hi Huv Huw Htv ltac:(now rewrite Ek)) as
      (G1 & s1 & R1 & Hi1 & Hg1 & _ & Hd1).
  erewrite bind_run by exact R1. exact (ok_ret Done s1 (WF_grow G1 s s1 Hd Hg1 Hd1 Hi1)).
Qed.

Lemma step_free s v : WF s -> ok (step fixed vkind (OFree v)) s.
Proof.
  intros HW. pose proof HW as [[G Hi] Hd]. unfold step, ok.
  erewrite bind_run by apply get_run.
  destruct (vars s v) as [hv|] eqn:Ev; [|exact (ok_ret Skip s HW)].
  destruct (var_handle vkind [] G s v hv Hi Ev) as (Huv & _ & Htv).
  destruct (h_free_spec vkind [] G s hv (vkind v) Hi Huv Htv) as (G1 & s1 & R1 & Hi1 & Hg1 & _ & Hd1 & _).
  erewrite bind_run by exact R1. exact (ok_ret Done s1 (WF_grow G1 s s1 Hd Hg1 Hd1 Hi1)).
Qed.

Lemma step_drop s v : WF s -> ok (step fixed vkind (ODrop v)) s.
Proof.
  intros HW. pose proof HW as [[G Hi] Hd]. unfold step, ok.
  erewrite bind_run by apply get_run.
  destruct (vars s v) as [hv|] eqn:Ev; [|exact (ok_ret Skip s HW)].
  destruct (drop_var_spec vkind G s v hv Hi Ev) as (G1 & s1 & R1 & Hi1 & Hg1 & _ & Hd1).
  erewrite bind_run by exact R1. exact (ok_ret Done s1 (WF_grow G1 s s1 Hd Hg1 Hd1 Hi1)).
Qed.

Lemma step_dontUseRefs s v : WF s -> ok (step fixed vkind (ODontUseRefs v)) s.
Proof.
  intros HW. pose proof HW as [[G Hi] Hd]. unfold step, ok.
  erewrite bind_run by apply get_run.
  destruct (vars s v) as [hv|] eqn:Ev; [|exact (ok_ret Skip s HW)].
  destruct (var_handle vkind [] G s v hv Hi Ev) as (Huv & Hav & Htv).
  destruct (h_dontUseRefs_spec vkind [] G s hv Hi Huv) as (s1 & R1 & Hi1 & Hg1 & _ & Hdu).
  erewrite bind_run by exact R1. apply ok_ret.
  destruct Hdu as [E|(o & Ho & E)]; [exact (WF_grow G s s1 Hd Hg1 E Hi1)|].
  split; [now exists G|]. intros x Hx. rewrite E in Hx.
  destruct Hx as [<-|Hx]; [|exact (keptprop_grow s s1 x (Hd x Hx) Hg1)].
  destruct (target_facts vkind [] G s hv o (vkind v) Hi Hav Htv Ho) as (_ & Hao & Hto & Hkb & _).
  apply (keptprop_grow s); [|exact Hg1]. split; [now exists (vkind v)|eapply inv_lt; eassumption].
Qed.

Lemma step_newdev s v : WF s -> ok (step fixed vkind (ONewDev v)) s.
Proof.
  intros HW. pose proof HW as [[G Hi] Hd]. unfold step.
  apply ok_guard; [exact HW|intros Ek%kind_eqb_true]. unfold ok.
  destruct (new_device_spec vkind G s Hi) as (G1 & s1 & R1 & Hi1 & Ht1 & Hg1 & _ & Hd1).
  erewrite bind_run by exact R1.
  apply (ok_store G1 s); try assumption. now rewrite Ek.
Qed.

Lemma step_leaf s k v dv : WF s -> ok (step fixed vkind (OLeaf k v dv)) s.
Proof.
  intros HW. pose proof HW as [[G Hi] Hd]. unfold step.
  apply ok_guard; [exact HW|intros [[Ek1 Ek2]%kind_eqb2 Ek3]%andb_true_iff].
  assert (Hlk : leaf_kind k) by (unfold leaf_kind; destruct k; try discriminate Ek3; tauto).
  apply (ok_through_var s dv _ _ HW Ek2). intros d Had Htd. unfold ok.
  destruct (new_leaf_spec vkind [] G s k d Hi Hlk Had Htd) as (G1 & s1 & R1 & Hi1 & Hao & Hto & Hfr1 & _).
  erewrite bind_run by exact R1.
  destruct Hfr1 as (F1 & _ & F3 & _).
  subst k.
  assert (Hn : vkind v <> KBuf /\ vkind v <> KDev /\ vkind v <> KPool)
    by (destruct Hlk as [E | [E | E]]; rewrite E; repeat split; discriminate).
  apply (ok_wrap_store G1 s s1 (nxt s) v Hd F1 F3 Hi1 Hao Hto); try apply Hn.
  intros E. now destruct Hn as (_ & _ & N).
Qed.

Lemma step_pool s v dv : WF s -> ok (step fixed vkind (OPool v dv)) s.
Proof.
  intros HW. pose proof HW as [[G Hi] Hd]. unfold step.
  apply ok_guard; [exact HW|intros [Ek1 Ek2]%kind_eqb2].
  apply (ok_through_var s dv _ _ HW Ek2). intros d Had Htd. unfold ok.
  erewrite bind_run by (apply need_run; exact Had).
  destruct (new_buffer_spec vkind [] [] G s KPool d 0%Z Hi (or_intror eq_refl) Had Htd) as
      (s1 & R1 & Hi1 & Hao & Hto & Hgo & Hfr1 & _).
  erewrite bind_run by exact R1.
  destruct Hfr1 as (F1 & _ & F3 & _ & F6 & _ & F9 & F10 & _).
  assert (Hpd : nxt s <> d) by (intros E; destruct (i_fresh Hi (nxt s) (le_n _)) as (F & _); rewrite E in F; congruence).
  rewrite <- Ek1 in *. eapply (ok_wrap_store _ s s1 (nxt s) v Hd F1 F3 Hi1 Hao Hto); try (rewrite Ek1; discriminate).
  intros _. rewrite upd2_other by (left; exact Hpd). rewrite F6, F9, F10.
  destruct (i_fresh Hi (nxt s) (le_n _)) as (Fa & _ & _ & _ & _ & _ & Fo & Fp & Fs & _).
  split; [exact Fo|]. split; [apply (i_dead Hi); exact Fa|]. tauto.
Qed.

Lemma step_reserve s v pv : WF s -> ok (step fixed vkind (OReserve v pv)) s.
Proof.
  intros HW. pose proof HW as [[G Hi] Hd]. unfold step.
  apply ok_guard; [exact HW|intros [Ek1 Ek2]%kind_eqb2].
  apply (ok_through_var s pv _ _ HW Ek2). intros p Hap Htp. unfold ok.
  erewrite bind_run by (apply need_run; exact Hap).
  destruct (pool_reserve_spec vkind [] G s p Hi Hap Htp) as (m & G1 & s1 & R1 & Hi1 & Ham & Htm & Hg1 & Hd1).
  erewrite bind_run by exact R1.
  rewrite <- Ek1 in *. apply (ok_wrap_store G1 s s1 m v Hd Hg1 Hd1 Hi1 Ham Htm); rewrite Ek1; discriminate.
Qed.

Lemma step_getstream s v dv : WF s -> ok (step fixed vkind (OGetStream v dv)) s.
Proof.
  intros HW. pose proof HW as [[G Hi] Hd]. unfold step.
  apply ok_guard; [exact HW|intros [Ek1 Ek2]%kind_eqb2].
  apply (ok_through_var s dv _ _ HW Ek2). intros d Had Htd. unfold ok.
  erewrite bind_run by (apply rd_run; exact Had).
  destruct (i_cur Hi d Had Htd ltac:(intros [])) as (C1 & C2 & _).
  destruct (h_copy_spec vkind [] G s (ocur s d) KStr Hi C1 C2) as (G1 & s1 & R1 & Hi1 & _ & Ht1 & Hg1 & _ & Hd1 & _).
  erewrite bind_run by exact R1.
  apply (ok_store G1 s); try assumption. now rewrite Ek1.
Qed.

Lemma step_malloc s v dv bytes : WF s -> ok (step fixed vkind (OMalloc v dv bytes)) s.
Proof.
  intros HW. pose proof HW as [[G Hi] Hd]. unfold step.
  apply ok_guard; [exact HW|intros [Ek1 Ek2]%kind_eqb2].
  apply (ok_through_var s dv _ _ HW Ek2). intros d Had Htd. unfold ok.
  erewrite bind_run by (apply need_run; exact Had).
  destruct (new_buffer_spec vkind [] [] G s KBuf d bytes Hi (or_introl eq_refl) Had Htd) as
      (s1 & R1 & Hi1 & Hab & Htb & Hgb & Hfr1 & _).
  erewrite bind_run by exact R1.
  set (b := nxt s) in *. set (G1 := upd2 G d SBuf (G d SBuf ++ [b])) in *.
  destruct Hfr1 as (F1 & _ & F3 & F4 & _ & _ & _ & _ & F11).
  destruct (new_memory_spec vkind [b] [] G1 s1 b Hi1 Hab Htb Hgb) as (s2 & R2 & Hi2 & Ham & Htm & Hfr2).
  erewrite bind_run by exact R2.
  set (m := nxt s1) in *. set (G2 := upd2 G1 b SMem (G1 b SMem ++ [m])) in *.
  destruct Hfr2 as (E1 & _ & E3 & E4 & E6 & _ & _ & _ & E11).
  assert (Hbm : b <> m) by lia.
  destruct (E11 b Hbm) as (_ & B2 & B3 & _).
  assert (Hi2' : inv [] [m] [] [] G2 s2).
  { apply (inv_unW_buf vkind [] [m] [] [] G2 s2 b).
    - apply inv_incl_W with (W := [m; b]); [exact Hi2|]. intros x [<-|[<-|[]]]; [right; now left|now left].
    - congruence.
    - rewrite B3, Hgb. unfold G2. rewrite upd2_same. destruct (G1 b SMem); discriminate. }
  destruct (h_new_obj vkind [] G2 s2 m KMem Hi2' Ham Htm ltac:(discriminate) ltac:(discriminate)) as
      (G3 & s3 & R3 & Hi3 & _ & Ht3 & Hg3 & _ & Hd3 & _ & Hfr3).
  { rewrite E6. apply (i_fresh Hi1 (nxt s1) (le_n _)). }
  { discriminate. }
  erewrite bind_run by exact R3.
  set (t := nxt s2) in *.
  assert (Had3 : alive s3 d = true).
  { pose proof (inv_lt Hi Had) as Hlt. fold b in Hlt.
    rewrite (Hfr3 d ltac:(lia)), (proj1 (E11 d ltac:(lia))), (proj1 (F11 d ltac:(lia))). exact Had. }
  erewrite bind_run by (apply rd_run; exact Had3).
  erewrite bind_run by (apply need_modify_run; exact Had3).
  set (s4 := set_obytes s3 (upd (obytes s3) d (obytes s3 d + bytes)%Z)).
  assert (Hi4 : inv [] [] [] [t] G3 s4) by (apply inv_set_obytes; exact Hi3).
  apply (ok_store G3 s _ v t Hd); [|unfold s4; simpl_st; congruence|exact Hi4|unfold s4; simpl_st; now rewrite Ek1].
  eapply grow_trans; [exact F1|]. eapply grow_trans; [exact E1|exact Hg3].
Qed.

Lemma step_slice s v mv : WF s -> ok (step fixed vkind (OSlice v mv)) s.
Proof.
  intros HW. pose proof HW as [[G Hi] Hd]. unfold step.
  apply ok_guard; [exact HW|intros [Ek1 Ek2]%kind_eqb2].
  apply (ok_through_var s mv _ _ HW Ek2). intros m Ham Htm. unfold ok.
  erewrite bind_run by (apply rd_run; exact Ham).
  destruct (obuf s m) as [b|] eqn:Eb; [|exact (ok_ret Err s HW)].
  assert (Hin : In m (G b SMem)).
  { apply (i_mem2 Hi); [exact Ham|intros []|]. unfold home. now rewrite Htm, Eb. }
  destruct (member_facts Hi Hin) as (_ & Hab & _ & _ & Hfit).
  destruct (fits_SMem _ _ Hfit) as (_ & Htb).
  erewrite bind_run by (apply need_run; exact Hab).
  erewrite bind_run by apply get_run. unfold kind_of.
  destruct Htb as [Htb|Htb]; rewrite Htb; [|exact (ok_ret Skip s HW)].
  assert (Hgb : ginner s b = false).
  { destruct (ginner s b) eqn:E; [|reflexivity]. rewrite (proj2 (i_ginner Hi b E)) in Hin. destruct Hin. }
  destruct (new_memory_spec vkind [] [] G s b Hi Hab Htb Hgb) as (s1 & R1 & Hi1 & Ham' & Htm' & Hfr1).
  erewrite bind_run by exact R1.
  destruct Hfr1 as (F1 & _ & F3 & _).
  rewrite <- Ek1 in *. eapply (ok_wrap_store _ s s1 (nxt s) v Hd F1 F3 Hi1 Ham' Htm'); rewrite Ek1; discriminate.
Qed.

Lemma drop_all vs : forall s, WF s -> exists s', mapM_ (drop_var fixed) vs s = Some (tt, s') /\ WF s'.
Proof.
  induction vs as [|v vs IH]; intros s Hw; [now exists s|].
  cbn [mapM_]. pose proof Hw as [[G Hi] Hd].
  destruct (vars s v) as [h|] eqn:Ev.
  - destruct (drop_var_spec vkind G s v h Hi Ev) as (G1 & s1 & R1 & Hi1 & Hg1 & _ & Hd1).
    erewrite bind_run by exact R1. exact (IH s1 (WF_grow G1 s s1 Hd Hg1 Hd1 Hi1)).
  - assert (R1 : drop_var fixed v s = Some (tt, s)).
    { unfold drop_var. erewrite bind_run by apply get_run. rewrite Ev. reflexivity. }
    erewrite bind_run by exact R1. exact (IH s Hw).
Qed.

Lemma free_kept_spec s o : WF s -> keptprop s o ->
  exists s', free_kept fixed o s = Some (tt, s') /\ WF s' /\ grow s s'.
Proof.
  intros [[G Hi] Hd] [(k & Hk1 & Hk2) Hlt]. unfold free_kept.
  erewrite bind_run by apply get_run.
  destruct (alive s o) eqn:Ea; cbn [negb].
  2:{ exists s. split; [reflexivity|]. split; [split; [now exists G|exact Hd]|apply grow_refl]. }
  erewrite bind_run by apply get_run. unfold kind_of at 1. rewrite Hk1.
  destruct (h_new_spec vkind [] G s k (Some o) Hi) as (G1 & s1 & R1 & Hi1 & _ & Ht1 & Hg1 & _ & Hd1 & _).
  { intros x E. injection E as <-. repeat split; assumption. }
  erewrite bind_run by exact R1.
  destruct (h_free_spec vkind [nxt s] G1 s1 (nxt s) k Hi1 ltac:(right; now left) Ht1) as
      (G2 & s2 & R2 & Hi2 & Hg2 & _ & Hd2 & _).
  erewrite bind_run by exact R2.
  destruct (h_dtor_temp vkind [] G2 s2 (nxt s) Hi2) as (G3 & s3 & R3 & Hi3 & Hg3 & _ & Hd3).
  exists s3. split; [exact R3|].
  assert (Hg : grow s s3) by (eapply grow_trans; [exact Hg1|eapply grow_trans; eassumption]).
  split; [apply (WF_grow G3 s); [exact Hd|exact Hg|congruence|exact Hi3]|exact Hg].
Qed.

Lemma free_all L : forall s, WF s -> (forall o, In o L -> keptprop s o) ->
  exists s', mapM_ (free_kept fixed) L s = Some (tt, s') /\ WF s'.
Proof.
  induction L as [|o L IH]; intros s Hw HL.
  - exists s. split; [reflexivity|exact Hw].
  - cbn [mapM_]. destruct (free_kept_spec s o Hw (HL o (or_introl eq_refl))) as (s1 & R1 & Hw1 & Hg1).
    erewrite bind_run by exact R1. apply IH; [exact Hw1|].
    intros x Hx. eapply keptprop_grow; [apply HL; now right|exact Hg1].
Qed.

Lemma step_end s vs : WF s -> ok (step fixed vkind (OEnd vs)) s.
Proof.
  intros Hw. unfold step, ok.
  destruct (drop_all vs s Hw) as (s1 & R1 & Hw1).
  erewrite bind_run by exact R1. erewrite bind_run by apply get_run.
  destruct (free_all (rev (dus s1)) s1 Hw1) as (s2 & R2 & Hw2).
  { intros o Ho. apply in_rev in Ho. destruct Hw1 as [_ Hdk]. exact (Hdk o Ho). }
  erewrite bind_run by exact R2.
  exists Done, s2. split; [reflexivity|exact Hw2].
Qed.

Theorem step_ok o s : WF s -> exists r s', step fixed vkind o s = Some (r, s') /\ WF s'.
Proof.
  intros Hw. destruct o;
    [apply step_newdev|apply step_malloc|apply step_pool|apply step_reserve|apply step_slice|apply step_leaf|
     apply step_getstream|apply step_copy|apply step_assign|apply step_swap|apply step_free|apply step_drop|
     apply step_dontUseRefs|apply step_end]; exact Hw.
Qed.

End S.
