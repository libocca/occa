(* C01 — how the invariant moves: the exempt and waiver lists change (`inv_lists`), an entry leaves
   or enters a ring, a pointer field or a variable is written, a cell is killed or logged, a field
   the invariant does not read changes. *)
From Coq Require Import List Arith Bool ZArith Lia Permutation.
From OV.C01 Require Import Model Ring Heap Inv.
Import ListNotations.

Lemma in_remove_iff (l : list nat) x y : In x (remove Nat.eq_dec y l) <-> In x l /\ x <> y.
Proof.
  split; [apply in_remove|]. intros [H1 H2]. now apply in_in_remove.
Qed.

Lemma NoDup_remove_eq (l : list nat) y : NoDup l -> NoDup (remove Nat.eq_dec y l).
Proof.
  induction l as [|a l IH]; cbn; [constructor|]. intros H. apply NoDup_cons_iff in H as [Ha Hl].
  destruct (Nat.eq_dec y a); [now apply IH|]. constructor; [|now apply IH].
  intros Hin. apply in_remove in Hin. tauto.
Qed.

(* the clauses of [inv], under fixed names in the order of the record *)
Ltac inv_clauses H :=
  destruct H as [Aheap Amem1 Amem2 Aown Afresh Atag Adead Ainner Aitag Ainj Aiown Agin Apres Adev Abuf Acur Acurinj
                 Ahand Avars Avinj AT ATnd Alive Alognd Alog AD Acs Apb].

Section P.
Variable vkind : nat -> kind.
Notation inv := (inv vkind).

Lemma home_same s s' : same_obj s s' -> forall e, home s' e = home s e.
Proof.
  intros (H1 & H2 & H3 & H4 & H5 & H6 & H7 & H8 & H9 & H10 & H11 & H12 & H13 & H14 & H15 & H16 & H17 & H18) e.
  unfold home. now rewrite H2, H4, H6, H7, H15.
Qed.

Lemma tagged_lt X W D T G s e : inv X W D T G s -> tagof s e <> TFree -> e < nxt s.
Proof.
  intros Hi Ht. destruct (Nat.lt_ge_cases e (nxt s)) as [H|H]; [exact H|].
  destruct (i_fresh Hi e H) as (_ & Hf & _). contradiction.
Qed.

Lemma inv_lt X W D T G s e : inv X W D T G s -> alive s e = true -> e < nxt s.
Proof. intros Hi Ha. eapply tagged_lt; [exact Hi|now apply (i_tag Hi)]. Qed.

Definition live_ok (G : GH) (s : st) (o : nat) : Prop :=
  forall k, tagof s o = TO k ->
    match k with
    | KBuf => ginner s o = false -> G o SMem <> []
    | _ => ouse s o = true -> G o SH <> []
    end.

(* the embedded currentStream wrapper of device d is an ordinary live wrapper that is neither a
   variable nor a temporary, and the stream it points to is a stream of d *)
Definition cur_ok (X T : list nat) (s : st) (d : nat) : Prop :=
  alive s (ocur s d) = true /\ tagof s (ocur s d) = TH KStr /\ ~ In (ocur s d) T /\ ~ In (ocur s d) X /\
  (forall v, vars s v <> Some (ocur s d)) /\ (forall st, hptr s (ocur s d) = Some st -> odev s st = Some d).

(* the buffer a pool made for itself *)
Definition inner_ok (s : st) (p : nat) : Prop :=
  forall ib, oinner s p = Some ib -> alive s ib = true /\ tagof s ib = TO KBuf /\ ginner s ib = true.

(* what the waiver W excuses an object from *)
Definition settled (T : list nat) (G : GH) (s : st) (o : nat) : Prop :=
  (forall b, oinner s o = Some b ->
     tagof s o = TO KPool /\ alive s b = true /\ tagof s b = TO KBuf /\ ginner s b = true /\ odev s b = odev s o) /\
  (tagof s o = TO KBuf -> ginner s o = true -> exists p, alive s p = true /\ oinner s p = Some o) /\
  (tagof s o = TO KPool -> forall m, In m (G o SMem) -> In m (pres s o)) /\
  (tagof s o = TO KDev ->
     alive s (ocur s o) = true /\ tagof s (ocur s o) = TH KStr /\ ~ In (ocur s o) T /\
     (forall v, vars s v <> Some (ocur s o)) /\ (forall st, hptr s (ocur s o) = Some st -> odev s st = Some o)) /\
  live_ok G s o /\
  (tagof s o = TO KPool -> (pres s o <> [] \/ pslots s o <> 0) -> oinner s o <> None).

(* X and W change, the state does not: a cell in no ring may become exempt; a live cell whose
   pointer field is empty, and a settled object, need no exemption *)
Lemma inv_lists X X' W W' D T G s :
  inv X W D T G s ->
  (forall e, In e X' -> In e X \/ free_of G e) ->
  (forall e, In e X -> In e X' \/
     ((alive s e = true -> home s e = None /\ tagof s e <> TO KMem) /\
      (forall v, vars s v = Some e -> alive s e = true))) ->
  (forall o, In o W -> In o W' \/ (alive s o = true -> settled T G s o)) ->
  inv X' W' D T G s.
Proof.
  intros Hi HX' HX HW.
  assert (EX : forall e, ~ In e X' -> alive s e = true ->
                 ~ In e X \/ (home s e = None /\ tagof s e <> TO KMem)).
  { intros e Hn Ha. destruct (in_dec Nat.eq_dec e X) as [H|H]; [|now left].
    destruct (HX e H) as [H'|[H' _]]; [contradiction|right; now apply H']. }
  assert (EW : forall o, ~ In o W' -> alive s o = true -> ~ In o W \/ settled T G s o).
  { intros o Hn Ha. destruct (in_dec Nat.eq_dec o W) as [H|H]; [|now left].
    destruct (HW o H) as [H'|H']; [contradiction|right; now apply H']. }
  inv_clauses Hi.
  constructor; try assumption.
  - intros x o sl Hx. destruct (Amem1 _ _ _ Hx) as [H1 H2]. split; [exact H1|].
    intros H. destruct (HX' x H) as [H'|H']; [contradiction|exact (H' _ _ Hx)].
  - intros x o sl Ha Hx Hh. destruct (EX x Hx Ha) as [H|[H _]]; [now apply Amem2|congruence].
  - intros p b Ha Hw Hb. destruct (EW p Hw Ha) as [H|(H & _)]; [now apply Ainner|now apply H].
  - intros b Ha Ht Hg Hw. destruct (EW b Hw Ha) as [H|(_ & H & _)]; [now apply Aiown|now apply H].
  - intros p m Ha Ht Hw. destruct (EW p Hw Ha) as [H|(_ & _ & H & _)]; [now apply Apres|now apply H].
  - intros m Ha Ht Hx. destruct (EX m Hx Ha) as [H|[_ H]]; [now apply Abuf|contradiction].
  - intros d Ha Ht Hw. destruct (EW d Hw Ha) as [H|(_ & _ & _ & H & _)]; [now apply Acur|].
    destruct (H Ht) as (C1 & C2 & C3 & C4 & _). auto.
  - intros v h Hv. destruct (Avars v h Hv) as (V1 & V2 & V3). split; [exact V1|]. split; [exact V2|].
    intros Hx. destruct (in_dec Nat.eq_dec h X) as [H|H]; [|now apply V3].
    destruct (HX h H) as [H'|[_ H']]; [contradiction|now apply (H' v)].
  - intros o k Ha Ht Hw. destruct (EW o Hw Ha) as [H|(_ & _ & _ & _ & H & _)]; [now apply Alive|now apply H].
  - intros d st Ha Ht Hw. destruct (EW d Hw Ha) as [H|(_ & _ & _ & H & _)]; [now apply Acs|].
    destruct (H Ht) as (_ & _ & _ & _ & C5). apply C5.
  - intros p Ha Ht Hw. destruct (EW p Hw Ha) as [H|(_ & _ & _ & _ & _ & H)]; [now apply Apb|now apply H].
Qed.

Lemma inv_weaken_X X W D T G s e :
  inv X W D T G s -> free_of G e -> inv (e :: X) W D T G s.
Proof.
  intros Hi Hf. apply (inv_lists X (e :: X) W W D T G s Hi); [|intros x H; left; now right|now left].
  intros x [<-|H]; [now right|now left].
Qed.

Lemma inv_incl_W X W W' D T G s : inv X W D T G s -> incl W W' -> inv X W' D T G s.
Proof. intros Hi HW. apply (inv_lists X X W W' D T G s Hi); [now left|now left|]. intros o H. left. now apply HW. Qed.

Lemma inv_weaken_W X W D T G s o :
  inv X W D T G s -> inv X (o :: W) D T G s.
Proof. intros Hi. apply (inv_incl_W X W _ D T G s Hi), incl_tl, incl_refl. Qed.

Lemma inv_unW_dead X W D T G s o :
  inv X (o :: W) D T G s -> alive s o = false -> inv X W D T G s.
Proof.
  intros Hi Hd. apply (inv_lists X X (o :: W) W D T G s Hi); [now left|now left|].
  intros x [<-|H]; [right; congruence|now left].
Qed.

Lemma inv_drop_X X W D T G s e :
  inv (e :: X) W D T G s ->
  (alive s e = true -> home s e = None /\ tagof s e <> TO KMem) ->
  (forall v, vars s v = Some e -> alive s e = true) ->
  inv X W D T G s.
Proof.
  intros Hi Hh Hv. apply (inv_lists (e :: X) X W W D T G s Hi); [left; now right| |now left].
  intros x [<-|H]; [right; now split|now left].
Qed.

Lemma inv_unX_dead X W D T G s e :
  inv (e :: X) W D T G s -> alive s e = false -> is_obj_tag (tagof s e) -> inv X W D T G s.
Proof.
  intros Hi Hd [k Hk]. apply (inv_lists (e :: X) X W W D T G s Hi); [left; now right| |now left].
  intros x [<-|H]; [right|now left]. split; [congruence|].
  intros v Hv. destruct (i_vars Hi v e Hv) as (Ht & _). congruence.
Qed.

(* the object part of the state is the same and only the ring heap changes: the premises are the
   clauses of `inv` that mention G or that X guards (mem1, mem2, own, dead, ginner, pres, buf, vars,
   live, in this order), to be shown for G' and X' *)
Lemma inv_transfer X X' W W' D T G G' s s' :
  inv X W D T G s -> same_obj s s' -> heap_ok s' G' -> incl W W' ->
  (forall e o sl, In e (G' o sl) -> home s e = Some (o, sl) /\ ~ In e X') ->
  (forall e o sl, alive s e = true -> ~ In e X' -> home s e = Some (o, sl) -> In e (G' o sl)) ->
  (forall e o sl, In e (G' o sl) -> alive s o = true /\ fits (tagof s e) (tagof s o) sl = true) ->
  (forall o sl, alive s o = false -> G' o sl = []) ->
  (forall b, ginner s b = true -> G' b SMem = []) ->
  (forall p m, alive s p = true -> tagof s p = TO KPool -> ~ In p W' -> In m (G' p SMem) -> In m (pres s p)) ->
  (forall m, alive s m = true -> tagof s m = TO KMem -> ~ In m X' -> obuf s m <> None) ->
  (forall v h, vars s v = Some h -> ~ In h X' -> alive s h = true) ->
  (forall o, alive s o = true -> ~ In o W' -> live_ok G' s o) ->
  inv X' W' D T G' s'.
Proof.
  intros Hi Hs Hk HW M1 M2 OW DD GI PR BF VR LV.
  apply (inv_incl_W X W W') in Hi; [|exact HW].
  pose proof (home_same _ _ Hs) as Hh.
  destruct Hs as (H1 & H2 & H3 & H4 & H5 & H6 & H7 & H8 & H9 & H10 & H11 & H12 & H13 & H14 & H15 & H16 & H17 & H18).
  inv_clauses Hi.
  constructor; rewrite ?H1, ?H2, ?H3, ?H4, ?H5, ?H6, ?H7, ?H8, ?H9, ?H10, ?H11, ?H12, ?H13, ?H14, ?H15, ?H16, ?H17, ?H18.
  - exact Hk.
  - intros e o sl. rewrite Hh. apply M1.
  - intros e o sl. rewrite Hh. apply M2.
  - exact OW.
  - exact Afresh.
  - exact Atag.
  - exact DD.
  - exact Ainner.
  - exact Aitag.
  - exact Ainj.
  - exact Aiown.
  - intros b Hb. split; [apply (Agin b Hb)|]. now apply GI.
  - exact PR.
  - exact Adev.
  - exact BF.
  - exact Acur.
  - exact Acurinj.
  - exact Ahand.
  - intros v h Hv. destruct (Avars v h Hv) as (A1 & A2 & A3). repeat split; try assumption. intros Hx. now apply (VR v h).
  - exact Avinj.
  - exact AT.
  - exact ATnd.
  - intros o k Ha Ht Hw. exact (LV o Ha Hw k Ht).
  - exact Alognd.
  - exact Alog.
  - exact AD.
  - exact Acs.
  - exact Apb.
Qed.

Lemma inv_same_obj X W D T G s s' :
  inv X W D T G s -> same_obj s s' -> heap_ok s' G -> inv X W D T G s'.
Proof.
  intros Hi Hs Hk. apply (inv_transfer X X W W D T G G s s' Hi Hs Hk (incl_refl W)).
  - apply (i_mem1 Hi).
  - apply (i_mem2 Hi).
  - apply (i_own Hi).
  - apply (i_dead Hi).
  - intros b Hb. apply (i_ginner Hi b Hb).
  - apply (i_pres Hi).
  - apply (i_buf Hi).
  - intros v h Hv. apply (i_vars Hi v h Hv).
  - intros o Ha Hw k Ht. apply (i_live Hi o k Ha Ht Hw).
Qed.

Lemma member_facts X W D T G s e o sl :
  inv X W D T G s -> In e (G o sl) ->
  alive s e = true /\ alive s o = true /\ home s e = Some (o, sl) /\ ~ In e X /\
  fits (tagof s e) (tagof s o) sl = true.
Proof.
  intros Hi Hin.
  destruct (i_mem1 Hi _ _ _ Hin). destruct (i_own Hi _ _ _ Hin).
  pose proof (hk_alive _ _ (i_heap Hi) _ _ _ Hin). repeat split; assumption.
Qed.

Lemma exempt_free X W D T G s e : inv X W D T G s -> In e X -> free_of G e.
Proof. intros Hi Hx o sl Hin. destruct (i_mem1 Hi _ _ _ Hin). contradiction. Qed.

Lemma ring_nil X W D T G s o sl : inv X W D T G s -> owns (tagof s o) sl = false -> G o sl = [].
Proof.
  intros Hi Ho. destruct (G o sl) as [|e l] eqn:E; [reflexivity|].
  destruct (i_own Hi e o sl) as [_ Hf]; [rewrite E; now left|].
  apply fits_owns in Hf. congruence.
Qed.

Lemma dead_free X W D T G s e : inv X W D T G s -> alive s e = false -> free_of G e.
Proof.
  intros Hi Ha o sl Hin. pose proof (hk_alive _ _ (i_heap Hi) _ _ _ Hin). congruence.
Qed.

(* an entry leaves its ring (ring_removeRef on a member) *)
Lemma inv_unlink X W W' D T G s s1 o sl e :
  inv X W D T G s -> In e (G o sl) -> same_obj s s1 ->
  heap_ok s1 (upd2 G o sl (ring_remove e (G o sl))) -> incl W W' ->
  (~ In o W' -> live_ok (upd2 G o sl (ring_remove e (G o sl))) s o) ->
  inv (e :: X) W' D T (upd2 G o sl (ring_remove e (G o sl))) s1.
Proof.
  intros Hi Hin Hs Hk HW HL.
  pose proof (hk_nd _ _ (i_heap Hi) o sl) as Hnd.
  assert (Hmem : forall x, In x (ring_remove e (G o sl)) <-> In x (G o sl) /\ x <> e)
    by (intros x; apply ring_remove_In; exact Hnd).
  assert (Hsub : forall x o' sl', In x (upd2 G o sl (ring_remove e (G o sl)) o' sl') -> In x (G o' sl') /\ x <> e).
  { intros x o' sl' Hx.
    destruct (upd2_cases G o sl (ring_remove e (G o sl)) o' sl') as [(-> & -> & E)|(Hd & E)]; rewrite E in Hx.
    - now apply Hmem.
    - split; [exact Hx|]. intros ->.
      destruct (hk_disj _ _ (i_heap Hi) _ _ _ _ _ Hx Hin). tauto. }
  eapply inv_transfer; try eassumption.
  - intros x o' sl' Hx. destruct (Hsub _ _ _ Hx) as [Hx1 Hx2].
    destruct (i_mem1 Hi _ _ _ Hx1) as [Hh Hnx]. split; [exact Hh|].
    intros [E|H]; [congruence|contradiction].
  - intros x o' sl' Ha Hx Hh.
    assert (Hx1 : In x (G o' sl')). { apply (i_mem2 Hi); try assumption. intros H. apply Hx. now right. }
    destruct (upd2_cases G o sl (ring_remove e (G o sl)) o' sl') as [(-> & -> & E)|(Hd & E)]; rewrite E; [|exact Hx1].
    apply Hmem. split; [exact Hx1|]. intros ->. apply Hx. now left.
  - intros x o' sl' Hx. destruct (Hsub _ _ _ Hx) as [Hx1 _]. apply (i_own Hi _ _ _ Hx1).
  - intros o' sl' Ha. apply incl_l_nil. intros x Hx. rewrite <- (i_dead Hi o' sl' Ha). now apply Hsub.
  - intros b Hb. apply incl_l_nil. intros x Hx. destruct (i_ginner Hi b Hb) as [_ <-]. now apply Hsub.
  - intros p m Ha Ht Hpw Hm. destruct (Hsub _ _ _ Hm) as [Hm1 _]. apply (i_pres Hi p m Ha Ht); [|exact Hm1].
    intros H. apply Hpw. now apply HW.
  - intros m Ha Ht Hx. apply (i_buf Hi m Ha Ht). intros H. apply Hx. now right.
  - intros v h Hv Hx. apply (i_vars Hi v h Hv). intros H. apply Hx. now right.
  - intros o' Ha Hw. destruct (Nat.eq_dec o' o) as [->|Hne]; [now apply HL|].
    intros k Ht. assert (Hnw : ~ In o' W) by (intros H; apply Hw; now apply HW).
    pose proof (i_live Hi o' k Ha Ht Hnw) as HLo.
    destruct k; rewrite upd2_other by (left; exact Hne); exact HLo.
Qed.

(* an exempt entry enters the ring its pointer names (ring_addRef) *)
Lemma inv_link X W D T G s s1 o sl e :
  inv (e :: X) W D T G s -> ~ In e X -> alive s e = true -> home s e = Some (o, sl) ->
  alive s o = true -> fits (tagof s e) (tagof s o) sl = true ->
  (sl = SMem -> ginner s o = false /\ (tagof s o = TO KPool -> ~ In o W -> In e (pres s o))) ->
  same_obj s s1 -> heap_ok s1 (upd2 G o sl (G o sl ++ [e])) ->
  inv X W D T (upd2 G o sl (G o sl ++ [e])) s1.
Proof.
  intros Hi Hnx Hae Hhome Hao Hfit Hsm Hs Hk.
  assert (Hf : free_of G e) by (eapply exempt_free; [exact Hi|now left]).
  assert (Hsub : forall x o' sl', In x (upd2 G o sl (G o sl ++ [e]) o' sl') ->
                 In x (G o' sl') \/ (x = e /\ o' = o /\ sl' = sl)).
  { intros x o' sl' Hx.
    destruct (upd2_cases G o sl (G o sl ++ [e]) o' sl') as [(-> & -> & E)|(Hd & E)]; rewrite E in Hx.
    - apply in_app_or in Hx. destruct Hx as [Hx|[<-|[]]]; tauto.
    - auto. }
  assert (Hsup : forall x o' sl', In x (G o' sl') -> In x (upd2 G o sl (G o sl ++ [e]) o' sl')).
  { intros x o' sl' Hx.
    destruct (upd2_cases G o sl (G o sl ++ [e]) o' sl') as [(-> & -> & E)|(Hd & E)]; rewrite E; [|exact Hx].
    apply in_or_app. now left. }
  eapply inv_transfer; try eassumption.
  - apply incl_refl.
  - intros x o' sl' Hx. destruct (Hsub _ _ _ Hx) as [Hx1|(-> & -> & ->)].
    + destruct (i_mem1 Hi _ _ _ Hx1) as [Hh Hn]. split; [exact Hh|]. intros H. apply Hn. now right.
    + tauto.
  - intros x o' sl' Ha Hx Hh. destruct (Nat.eq_dec x e) as [->|Hne].
    + assert (o' = o /\ sl' = sl) as [-> ->] by (split; congruence).
      rewrite upd2_same. apply in_or_app. right. now left.
    + apply Hsup. apply (i_mem2 Hi); try assumption. intros [E|H]; [congruence|contradiction].
  - intros x o' sl' Hx. destruct (Hsub _ _ _ Hx) as [Hx1|(-> & -> & ->)].
    + apply (i_own Hi _ _ _ Hx1).
    + tauto.
  - intros o' sl' Ha.
    destruct (upd2_cases G o sl (G o sl ++ [e]) o' sl') as [(-> & -> & E)|(Hd & E)]; rewrite E.
    + congruence.
    + apply (i_dead Hi _ _ Ha).
  - intros b Hb. destruct (i_ginner Hi b Hb) as [_ Hg].
    destruct (upd2_cases G o sl (G o sl ++ [e]) b SMem) as [(Eb & Es & E)|(Hd & E)]; rewrite E; [|exact Hg].
    subst b sl. destruct (Hsm eq_refl). congruence.
  - intros p m Ha Ht Hpw Hm. destruct (Hsub _ _ _ Hm) as [Hm1|(-> & -> & Es)].
    + apply (i_pres Hi p m Ha Ht Hpw Hm1).
    + subst sl. destruct (Hsm eq_refl) as [_ H]. now apply H.
  - intros m Ha Ht Hx. destruct (Nat.eq_dec m e) as [->|Hne].
    + unfold home in Hhome. rewrite Ht in Hhome. destruct (obuf s e); congruence.
    + apply (i_buf Hi m Ha Ht). intros [E|H]; [congruence|contradiction].
  - intros v h Hv Hx. destruct (Nat.eq_dec h e) as [->|Hne]; [exact Hae|].
    apply (i_vars Hi v h Hv). intros [E|H]; [congruence|contradiction].
  - intros o' Ha Hw k Ht.
    pose proof (i_live Hi o' k Ha Ht Hw) as HLo.
    assert (Hmono : forall sl', G o' sl' <> [] -> upd2 G o sl (G o sl ++ [e]) o' sl' <> []).
    { intros sl' Hne E. apply Hne, incl_l_nil. intros y Hy. rewrite <- E. now apply Hsup. }
    destruct k; intros Hc; apply Hmono; now apply HLo.
Qed.

Lemma inv_set_hptr X W D T G s h v :
  inv X W D T G s -> In h X -> is_h_tag (tagof s h) ->
  (forall d st, alive s d = true -> tagof s d = TO KDev -> ~ In d W -> ocur s d = h -> v = Some st ->
                odev s st = Some d) ->
  inv X W D T G (set_hptr s (upd (hptr s) h v)).
Proof.
  intros Hi Hx [k Hk] Hcs.
  assert (Hhome : forall e, ~ In e X -> home (set_hptr s (upd (hptr s) h v)) e = home s e).
  { intros e He. unfold home. simpl_st. rewrite upd_other; [reflexivity|]. intros ->. contradiction. }
  assert (Hlt : h < nxt s) by (eapply tagged_lt; [exact Hi|congruence]).
  inv_clauses Hi.
  constructor; simpl_goal; try assumption.
  - destruct Aheap. constructor; simpl_goal; assumption.
  - intros e o sl Hin. rewrite Hhome; apply (Amem1 e o sl Hin).
  - intros e o sl Ha He. rewrite Hhome by exact He. now apply Amem2.
  - intros e He. rewrite upd_other by lia. exact (Afresh e He).
  - intros d st Ha Ht Hw. unfold upd. destruct (Nat.eqb_spec (ocur s d) h) as [E|E].
    + intros Hv. now apply (Hcs d st).
    + now apply Acs.
Qed.

Lemma null_free X W D T G s h :
  inv X W D T G s -> is_h_tag (tagof s h) -> hptr s h = None -> free_of G h.
Proof.
  intros Hi [k Hk] Hp o sl Hin. destruct (i_mem1 Hi _ _ _ Hin) as [Hm _].
  unfold home in Hm. rewrite Hk, Hp in Hm. discriminate.
Qed.

(* the pointer of an exempt wrapper is set to NULL; the wrapper is in shape again *)
Lemma inv_null X W D T G s h :
  inv (h :: X) W D T G s -> alive s h = true -> is_h_tag (tagof s h) ->
  inv X W D T G (set_hptr s (upd (hptr s) h None)).
Proof.
  intros Hi Ha [k Hk].
  eapply inv_drop_X; [apply inv_set_hptr; [exact Hi|now left|now exists k|]| |].
  - intros d st _ _ _ _ E. discriminate.
  - intros _. unfold home. simpl_st. rewrite Hk, upd_same. split; [reflexivity|discriminate].
  - intros v _. exact Ha.
Qed.

Lemma inv_kill X W D T G s e :
  inv X W D T G s -> free_of G e -> (forall sl, G e sl = []) ->
  (is_obj_tag (tagof s e) -> In e (dlog s)) ->
  (forall v, vars s v = Some e -> In e X) ->
  (forall p, alive s p = true -> ~ In p W -> oinner s p <> Some e) ->
  (forall d, alive s d = true -> tagof s d = TO KDev -> ~ In d W -> ocur s d <> e) ->
  (forall o k, alive s o = true -> o <> e -> tagof s o = TO k -> k <> KDev -> k <> KMem -> odev s o <> Some e) ->
  (tagof s e = TO KDev -> alive s (ocur s e) = false) ->
  (forall b, oinner s e = Some b -> alive s b = true -> ginner s b = true -> In b W) ->
  inv X W (remove Nat.eq_dec e D) (remove Nat.eq_dec e T) G (set_alive s (upd (alive s) e false)).
Proof.
  intros Hi Hf Hr Hlog Hvar Hinn Hcur Hdev Hdc Hio.
  inv_clauses Hi.
  assert (Hal : forall x, upd (alive s) e false x = true -> alive s x = true /\ x <> e).
  { intros x. unfold upd. destruct (Nat.eqb_spec x e); [discriminate|auto]. }
  constructor; simpl_goal; try assumption.
  - destruct Aheap as [B1 B2 B3 B4 B5 B6]. constructor; simpl_goal; try assumption.
    intros o sl x Hx. rewrite upd_other; [eapply B4; exact Hx|]. intros ->. exact (Hf _ _ Hx).
  - intros x o sl Ha. apply Hal in Ha as [Ha _]. now apply Amem2.
  - intros x o sl Hx. destruct (Aown x o sl Hx) as [H1 H2]. split; [|exact H2].
    rewrite upd_other; [exact H1|]. intros ->. rewrite Hr in Hx. destruct Hx.
  - intros x Hx. destruct (Afresh x Hx) as (A1 & A2). split; [|exact A2].
    unfold upd. destruct (Nat.eqb x e); [reflexivity|exact A1].
  - intros x Ha. apply Hal in Ha as [Ha _]. now apply Atag.
  - intros o sl Ha. destruct (Nat.eq_dec o e) as [->|Hne]; [apply Hr|]. rewrite upd_other in Ha by exact Hne. now apply Adead.
  - intros p b Ha Hw Hb. apply Hal in Ha as [Ha Hpe]. destruct (Ainner p b Ha Hw Hb) as (A1 & A2 & A3).
    split; [exact A1|]. split; [|exact A3]. rewrite upd_other; [exact A2|]. intros ->. exact (Hinn p Ha Hw Hb).
  - intros p p' b Ha Ha'. apply Hal in Ha as [Ha _]. apply Hal in Ha' as [Ha' _]. now apply Ainj.
  - intros b Ha Ht Hg Hw. apply Hal in Ha as [Ha Hbe].
    destruct (Aiown b Ha Ht Hg Hw) as (p & Hp1 & Hp2). exists p. split; [|exact Hp2].
    rewrite upd_other; [exact Hp1|]. intros ->. apply Hw. apply Hio; assumption.
  - intros p m Ha. apply Hal in Ha as [Ha _]. now apply Apres.
  - intros o k Ha Ht Hk1 Hk2. apply Hal in Ha as [Ha Hoe].
    destruct (Adev o k Ha Ht Hk1 Hk2) as (d & Hd1 & Hd2 & Hd3). exists d. repeat split; try assumption.
    rewrite upd_other; [exact Hd2|]. intros ->. exact (Hdev o k Ha Hoe Ht Hk1 Hk2 Hd1).
  - intros m Ha. apply Hal in Ha as [Ha _]. now apply Abuf.
  - intros d Ha Ht Hw. apply Hal in Ha as [Ha Hde]. destruct (Acur d Ha Ht Hw) as (A1 & A2 & A3 & A4).
    repeat split; try assumption.
    + rewrite upd_other; [exact A1|]. exact (Hcur d Ha Ht Hw).
    + intros H. apply in_remove in H as [H _]. contradiction.
  - intros d d' Ha Ha'. apply Hal in Ha as [Ha _]. apply Hal in Ha' as [Ha' _]. now apply Acurinj.
  - intros h k Ha Ht. apply Hal in Ha as [Ha Hhe].
    destruct (Ahand h k Ha Ht) as [Hv|[(d & Hd1 & Hd2 & Hd3)|Hin]].
    + now left.
    + right. left. exists d. repeat split; try assumption. rewrite upd_other; [exact Hd1|].
      intros ->. rewrite Hd3 in Hdc. rewrite (Hdc Hd2) in Ha. discriminate.
    + right. right. now apply in_in_remove.
  - intros v h Hv. destruct (Avars v h Hv) as (A1 & A2 & A3). repeat split; try assumption.
    + intros H. apply in_remove in H as [H _]. contradiction.
    + intros Hx. rewrite upd_other; [now apply A3|]. intros ->. apply Hx. now apply (Hvar v).
  - intros h Hin. apply in_remove in Hin as [Hin Hne]. destruct (AT h Hin) as [A1 A2]. split; [|exact A2].
    now rewrite upd_other.
  - now apply NoDup_remove_eq.
  - intros o k Ha. apply Hal in Ha as [Ha _]. now apply Alive.
  - intros o. destruct (Nat.eq_dec o e) as [->|Hne].
    + rewrite upd_same. split; [|intros [Ho _]; now apply Hlog].
      intros H. apply Alog in H as [Ho _]. split; [exact Ho|now left].
    + rewrite Alog, upd_other, in_remove_iff by exact Hne. clear - Hne. tauto.
  - intros o Hin. apply in_remove in Hin as [Hin Hne]. destruct (AD o Hin) as [A1 A2]. split; [|exact A2].
    now rewrite upd_other.
  - intros d st Ha. apply Hal in Ha as [Ha _]. now apply Acs.
  - intros p Ha. apply Hal in Ha as [Ha _]. now apply Apb.
Qed.

(* for a wrapper the premises of [inv_kill] about objects are void *)
Lemma inv_kill_handle X W D T G s h :
  inv X W D T G s -> is_h_tag (tagof s h) -> free_of G h ->
  (forall v, vars s v = Some h -> In h X) ->
  (forall d, alive s d = true -> tagof s d = TO KDev -> ~ In d W -> ocur s d <> h) ->
  inv X W D (remove Nat.eq_dec h T) G (set_alive s (upd (alive s) h false)).
Proof.
  intros Hi [k Hk] Hf Hv Hc.
  rewrite <- (notin_remove Nat.eq_dec D h)
    by (intros H; destruct (i_D Hi h H) as [_ [k' Hk']]; congruence).
  apply inv_kill; try assumption.
  - intros sl. apply (ring_nil _ _ _ _ _ _ _ _ Hi). now rewrite Hk.
  - intros [k' Hk']. congruence.
  - intros p Hap Hpw E. destruct (i_inner Hi p h Hap Hpw E) as (_ & _ & Ht & _). congruence.
  - intros o k' Hao _ Hto Hk1 Hk2 E. destruct (i_dev Hi o k' Hao Hto Hk1 Hk2) as (d & Hd & _ & Ht).
    rewrite E in Hd. injection Hd as <-. congruence.
  - congruence.
  - intros b E. pose proof (i_inner_tag Hi h b E). congruence.
Qed.

Lemma inv_log X W D T G s o :
  inv X W D T G s -> alive s o = true -> is_obj_tag (tagof s o) -> ~ In o D ->
  ~ In o (dlog s) /\ inv X W (o :: D) T G (set_dlog s (o :: dlog s)).
Proof.
  intros Hi Ha Ht Hd.
  assert (Hnl : ~ In o (dlog s)).
  { intros H. apply (i_log Hi) in H as [_ [H|H]]; [congruence|contradiction]. }
  split; [exact Hnl|].
  inv_clauses Hi.
  constructor; simpl_goal; try assumption.
  - destruct Aheap. constructor; simpl_goal; assumption.
  - now constructor.
  - intros x. cbn [In]. rewrite Alog. destruct (Nat.eq_dec o x) as [<-|Hne]; [clear - Ht|clear - Hne]; tauto.
  - intros x [<-|Hin]; [now split|now apply AD].
Qed.

Lemma inv_set_obuf X W D T G s m v :
  inv X W D T G s -> In m X -> tagof s m = TO KMem ->
  inv X W D T G (set_obuf s (upd (obuf s) m v)).
Proof.
  intros Hi Hx Ht.
  assert (Hhome : forall e, ~ In e X -> home (set_obuf s (upd (obuf s) m v)) e = home s e).
  { intros e He. unfold home. simpl_st. rewrite upd_other; [reflexivity|]. intros ->. contradiction. }
  assert (Hlt : m < nxt s) by (eapply tagged_lt; [exact Hi|congruence]).
  inv_clauses Hi.
  constructor; simpl_goal; try assumption.
  - destruct Aheap. constructor; simpl_goal; assumption.
  - intros e o sl Hin. rewrite Hhome; apply (Amem1 e o sl Hin).
  - intros e o sl Ha He. rewrite Hhome by exact He. now apply Amem2.
  - intros e He. rewrite upd_other by lia. exact (Afresh e He).
  - intros x Ha Htx Hnx. rewrite upd_other; [now apply Abuf|]. intros ->. contradiction.
Qed.

Lemma inv_irrelevant X W D T G s s' :
  inv X W D T G s ->
  nxt s' = nxt s -> tagof s' = tagof s -> alive s' = alive s -> lft s' = lft s -> rgt s' = rgt s ->
  hptr s' = hptr s -> ohead s' = ohead s -> ouse s' = ouse s -> odev s' = odev s -> obuf s' = obuf s ->
  oinner s' = oinner s -> ocur s' = ocur s -> pres s' = pres s -> ginner s' = ginner s -> vars s' = vars s ->
  dlog s' = dlog s -> pslots s' = pslots s ->
  inv X W D T G s'.
Proof.
  intros Hi H1 H2 H3 H4 H5 H6 H7 H8 H9 H10 H11 H12 H13 H14 H15 H16 H17.
  assert (Hh : forall e, home s' e = home s e) by (intros e; unfold home; now rewrite H2, H6, H9, H10, H14).
  inv_clauses Hi.
  constructor; rewrite ?H1, ?H2, ?H3, ?H6, ?H8, ?H9, ?H10, ?H11, ?H12, ?H13, ?H14, ?H15, ?H16, ?H17; try assumption.
  - destruct Aheap as [B1 B2 B3 B4 B5 B6]. constructor; rewrite ?H3, ?H4, ?H5, ?H7; assumption.
  - intros e o sl. rewrite Hh. apply Amem1.
  - intros e o sl. rewrite Hh. apply Amem2.
Qed.

Lemma inv_ext_G X W D T G G' s : (forall o sl, G' o sl = G o sl) -> inv X W D T G s -> inv X W D T G' s.
Proof.
  intros E Hi.
  inv_clauses Hi.
  constructor; try assumption.
  - eapply heap_ok_ext; eassumption.
  - intros e o sl. rewrite E. apply Amem1.
  - intros e o sl. rewrite E. apply Amem2.
  - intros e o sl. rewrite E. apply Aown.
  - intros o sl. rewrite E. apply Adead.
  - intros b. rewrite E. apply Agin.
  - intros p m. rewrite E. apply Apres.
  - intros o k Ha Ht Hw. specialize (Alive o k Ha Ht Hw). destruct k; rewrite E; exact Alive.
Qed.

Lemma obj_not_in_T X W D T G s o : inv X W D T G s -> is_obj_tag (tagof s o) -> ~ In o T.
Proof.
  intros Hi [k Hk] Hin. destruct (i_T Hi o Hin) as [_ [k' Hk']]. congruence.
Qed.

Lemma logged_in_D X W D T G s o : inv X W D T G s -> In o D -> In o (dlog s).
Proof.
  intros Hi Hin. apply (i_log Hi). destruct (i_D Hi o Hin) as [_ Ht]. tauto.
Qed.

Lemma inv_set_obytes X W D T G s d v :
  inv X W D T G s -> inv X W D T G (set_obytes s (upd (obytes s) d v)).
Proof.
  intros Hi. eapply inv_irrelevant; try exact Hi; reflexivity.
Qed.

Lemma inv_set_osize X W D T G s d v :
  inv X W D T G s -> inv X W D T G (set_osize s (upd (osize s) d v)).
Proof.
  intros Hi. eapply inv_irrelevant; try exact Hi; reflexivity.
Qed.

Lemma inv_set_pres X W D T G s p l :
  inv X W D T G s -> alive s p = true ->
  (forall m, In m (G p SMem) -> In m l) ->
  (tagof s p = TO KPool -> ~ In p W -> (l <> [] \/ pslots s p <> 0) -> oinner s p <> None) ->
  inv X W D T G (set_pres s (upd (pres s) p l)).
Proof.
  intros Hi Hp Hl Hpbl.
  assert (Hlt : p < nxt s) by (eapply inv_lt; eassumption).
  inv_clauses Hi.
  constructor; simpl_goal; try assumption.
  - destruct Aheap. constructor; simpl_goal; assumption.
  - intros e He. rewrite upd_other by lia. exact (Afresh e He).
  - intros q m Ha Ht Hw Hm. destruct (Nat.eq_dec q p) as [->|Hne].
    + rewrite upd_same. now apply Hl.
    + rewrite upd_other by exact Hne. now apply Apres.
  - intros q Ha Ht Hw. destruct (Nat.eq_dec q p) as [->|Hne].
    + rewrite upd_same. now apply Hpbl.
    + rewrite upd_other by exact Hne. now apply Apb.
Qed.

Lemma dev_not_member X W D T G s d : inv X W D T G s -> tagof s d = TO KDev -> free_of G d.
Proof.
  intros Hi Ht o sl Hin. destruct (i_mem1 Hi _ _ _ Hin) as [Hh _].
  unfold home in Hh. rewrite Ht in Hh. discriminate.
Qed.

Lemma inv_set_ginner X W D T G s b :
  inv X W D T G s -> In b X -> In b W -> tagof s b = TO KBuf -> G b SMem = [] ->
  inv X W D T G (set_ginner s (upd (ginner s) b true)).
Proof.
  intros Hi Hx Hw Ht Hnil.
  assert (Hhome : forall e, ~ In e X -> home (set_ginner s (upd (ginner s) b true)) e = home s e).
  { intros e He. unfold home. simpl_st. rewrite upd_other; [reflexivity|]. intros ->. contradiction. }
  assert (Hlt : b < nxt s) by (eapply tagged_lt; [exact Hi|congruence]).
  inv_clauses Hi.
  constructor; simpl_goal; try assumption.
  - destruct Aheap. constructor; simpl_goal; assumption.
  - intros e o sl Hin. rewrite Hhome; apply (Amem1 e o sl Hin).
  - intros e o sl Ha He. rewrite Hhome by exact He. now apply Amem2.
  - intros e He. rewrite upd_other by lia. exact (Afresh e He).
  - intros p x Ha Hpw Hx'. destruct (Ainner p x Ha Hpw Hx') as (I1 & I2 & I3 & I4 & I5). repeat split; try assumption.
    unfold upd. destruct (Nat.eqb x b); [reflexivity|exact I4].
  - intros x Ha Htx Hg Hxw. apply Aiown; try assumption.
    destruct (Nat.eq_dec x b) as [E|E]; [subst x; contradiction|]. rewrite upd_other in Hg by exact E. exact Hg.
  - intros x Hg. destruct (Nat.eq_dec x b) as [E|E]; [subst x; now split|]. rewrite upd_other in Hg by exact E. now apply Agin.
  - intros x k Ha Htx Hxw. specialize (Alive x k Ha Htx Hxw). destruct k; try exact Alive.
    intros Hg. apply Alive. unfold upd in Hg. destruct (Nat.eqb x b); [discriminate|exact Hg].
Qed.

Lemma inv_pool_attach X W D T G s p nb slots :
  inv X W D T G s -> In p W -> alive s p = true -> tagof s p = TO KPool ->
  (forall q, alive s q = true -> oinner s q <> Some nb) ->
  (forall b, oinner s p = Some b -> alive s b = false) ->
  inv X W D T G (set_pslots (set_oinner s (upd (oinner s) p (Some nb))) (upd (pslots s) p slots)).
Proof.
  intros Hi Hw Hp Ht Hnb Hold.
  assert (Hlt : p < nxt s) by (eapply inv_lt; eassumption).
  inv_clauses Hi.
  assert (Hoi : forall q, q <> p -> upd (oinner s) p (Some nb) q = oinner s q) by (intros; now apply upd_other).
  constructor; simpl_goal; try assumption.
  - destruct Aheap. constructor; simpl_goal; assumption.
  - intros e He. rewrite !upd_other by lia. exact (Afresh e He).
  - intros q b Ha Hqw Hb. assert (q <> p) by (intros ->; contradiction). rewrite Hoi in Hb by assumption. now apply Ainner.
  - intros q b Hb. destruct (Nat.eq_dec q p) as [->|Hne]; [exact Ht|]. rewrite Hoi in Hb by exact Hne. now apply (Aitag q b).
  - intros q q' b Ha Ha' Hb Hb'.
    destruct (upd_some _ _ _ _ _ Hb) as [[-> ->]|[_ Hb0]], (upd_some _ _ _ _ _ Hb') as [[-> E]|[_ Hb0']].
    + reflexivity.
    + destruct (Hnb q' Ha' Hb0').
    + rewrite E in Hb0. destruct (Hnb q Ha Hb0).
    + eapply Ainj; eassumption.
  - intros b Ha Htb Hg Hbw. destruct (Aiown b Ha Htb Hg Hbw) as (q & Hq1 & Hq2).
    exists q. split; [exact Hq1|]. destruct (Nat.eq_dec q p) as [->|Hne].
    + rewrite (Hold b Hq2) in Ha. discriminate.
    + rewrite Hoi by exact Hne. exact Hq2.
  - intros q Ha Htq Hqw. assert (q <> p) by (intros ->; contradiction).
    rewrite Hoi by assumption. rewrite upd_other by assumption. now apply Apb.
Qed.

Lemma inv_unW X W D T G s o :
  inv X (o :: W) D T G s -> (alive s o = true -> settled T G s o) -> inv X W D T G s.
Proof.
  intros Hi Hs. apply (inv_lists X X (o :: W) W D T G s Hi); [now left|now left|].
  intros x [<-|H]; [now right|now left].
Qed.

Lemma inv_clear_var X W D T G s h v :
  inv (h :: X) W D T G s -> alive s h = false -> vars s v = Some h ->
  inv X W D T G (set_vars s (upd (vars s) v None)).
Proof.
  intros Hi Hd Hv.
  inv_clauses Hi.
  assert (Hvv : forall v' x, upd (vars s) v None v' = Some x -> vars s v' = Some x /\ v' <> v).
  { intros v' x. unfold upd. destruct (Nat.eqb_spec v' v); [discriminate|auto]. }
  constructor; simpl_goal; try assumption.
  - destruct Aheap. constructor; simpl_goal; assumption.
  - intros x o sl Hin. destruct (Amem1 x o sl Hin) as [H1 H2]. split; [exact H1|]. intros H. apply H2. now right.
  - intros x o sl Ha Hx. apply Amem2; [exact Ha|]. intros [<-|H]; [congruence|contradiction].
  - intros m Ha Ht Hx. apply Abuf; try assumption. intros [<-|H]; [congruence|contradiction].
  - intros d Ha Ht Hw. destruct (Acur d Ha Ht Hw) as (C1 & C2 & C3 & C4). repeat split; try assumption.
    intros v' Hc. apply Hvv in Hc as [Hc _]. exact (C4 v' Hc).
  - intros x k Ha Ht. destruct (Ahand x k Ha Ht) as [[v' Hv']|H]; [|now right].
    left. exists v'. rewrite upd_other; [exact Hv'|]. intros ->. congruence.
  - intros v' x Hc. apply Hvv in Hc as [Hc Hne]. destruct (Avars v' x Hc) as (A1 & A2 & A3). repeat split; try assumption.
    intros Hx. apply A3. intros [<-|H]; [|contradiction]. apply Hne. eapply Avinj; eassumption.
  - intros v1 v2 x H1 H2. apply Hvv in H1 as [H1 _]. apply Hvv in H2 as [H2 _]. eapply Avinj; eassumption.
Qed.

Lemma inv_bind_var X W D T G s t v :
  inv X W D (t :: T) G s -> vars s v = None -> tagof s t = TH (vkind v) ->
  inv X W D T G (set_vars s (upd (vars s) v (Some t))).
Proof.
  intros Hi Hv Ht.
  inv_clauses Hi.
  assert (HtT : ~ In t T) by (apply NoDup_cons_iff in ATnd; apply ATnd).
  assert (Hat : alive s t = true) by (apply AT; now left).
  assert (Hnv : forall v', vars s v' <> Some t).
  { intros v' Hc. destruct (Avars v' t Hc) as (_ & H & _). apply H. now left. }
  constructor; simpl_goal; try assumption.
  - destruct Aheap. constructor; simpl_goal; assumption.
  - intros d Ha Htd Hw. destruct (Acur d Ha Htd Hw) as (C1 & C2 & C3 & C4). repeat split; try assumption.
    + intros Hc. apply C3. now right.
    + intros v' Hc. destruct (upd_some _ _ _ _ _ Hc) as [[_ E]|[_ Hc']]; [apply C3; now left|exact (C4 v' Hc')].
  - intros x k Ha Hx. destruct (Ahand x k Ha Hx) as [[v' Hv']|[H|[<-|H]]].
    + left. exists v'. rewrite upd_other; [exact Hv'|]. intros ->. congruence.
    + right. now left.
    + left. exists v. apply upd_same.
    + right. now right.
  - intros v' x Hc. destruct (upd_some _ _ _ _ _ Hc) as [[-> ->]|[_ Hc']].
    + repeat split; [exact Ht|exact HtT|]. intros _. exact Hat.
    + destruct (Avars v' x Hc') as (A1 & A2 & A3). repeat split; try assumption. intros H. apply A2. now right.
  - intros v1 v2 x H1 H2.
    destruct (upd_some _ _ _ _ _ H1) as [[-> ->]|[_ H1']], (upd_some _ _ _ _ _ H2) as [[-> E]|[_ H2']].
    + reflexivity.
    + destruct (Hnv v2 H2').
    + rewrite E in H1'. destruct (Hnv v1 H1').
    + eapply Avinj; eassumption.
  - intros x Hin. apply AT. now right.
  - apply NoDup_cons_iff in ATnd. apply ATnd.
Qed.

Lemma inv_ouse_false X W D T G s o l :
  inv X W D T G s -> alive s o = true ->
  inv X W D T G (set_dus (set_ouse s (upd (ouse s) o false)) l).
Proof.
  intros Hi Ha.
  assert (Hlt : o < nxt s) by (eapply inv_lt; eassumption).
  inv_clauses Hi.
  constructor; simpl_goal; try assumption.
  - destruct Aheap. constructor; simpl_goal; assumption.
  - intros e He. rewrite upd_other by lia. exact (Afresh e He).
  - intros x k Hax Htx Hw. specialize (Alive x k Hax Htx Hw). destruct k; try exact Alive;
      (intros Hu; apply Alive; unfold upd in Hu; destruct (Nat.eqb x o); [discriminate|exact Hu]).
Qed.

End P.

Arguments member_facts {vkind X W D T G s e o sl}.
Arguments ring_nil {vkind X W D T G s o sl}.
Arguments inv_lt {vkind X W D T G s e}.
