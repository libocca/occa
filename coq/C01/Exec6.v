(* C01 — delete of an object of any kind and what dies with it; device free (freeRing loops,
   ~modeDevice_t, device::free); delete through a wrapper (free) and wrapper::removeXRef. *)
From Coq Require Import List Arith Bool ZArith Lia Permutation.
From OV.C01 Require Import Model Ring Heap Inv InvPrim2 ExecBase Exec.
Import ListNotations.

Section E.
Variable vkind : nat -> kind.
Notation inv := (inv vkind).
Notation exec := (exec fixed).

(* only backend objects die, never a device ... *)
Definition objkill (s s' : st) : Prop :=
  forall x, alive s x = true -> alive s' x = false -> is_obj_tag (tagof s x) /\ tagof s x <> TO KDev.

(* ... and besides o itself nothing of o's own kind *)
Definition topkill (s s' : st) (o : nat) : Prop :=
  forall x, alive s x = true -> alive s' x = false -> x = o \/ tagof s x <> tagof s o.

Lemma objkill_refl s : objkill s s.
Proof. intros x Ha Hd. congruence. Qed.

Lemma objkill_trans a b c : shrink a b -> objkill a b -> objkill b c -> objkill a c.
Proof.
  intros Hsh H1 H2 x Ha Hc. destruct (alive b x) eqn:Eb.
  - rewrite <- (shrink_tag _ _ Hsh). now apply H2.
  - now apply H1.
Qed.

(* delete of any object but a device: what goes with it (the slices of a buffer or pool, the inner buffer of
   a pool, the buffer of its last memory) is of another kind *)
Lemma delete_obj f X W T G s o k :
  inv X W [] T G s -> alive s o = true -> tagof s o = TO k -> k <> KDev -> In o W ->
  (k = KBuf -> ginner s o = false) ->
  (k = KMem -> ~ In o X /\ forall b, obuf s o = Some b -> ~ In b W) ->
  (k = KPool -> inner_ok s o) ->
  measure s + 5 <= f ->
  deletes vkind X W [] T f s o (fun x => x = o \/ exists k', tagof s x = TO k' /\ k' <> KDev /\ k' <> k).
Proof.
  intros Hi Ho Ht Hkd Hw Hgb Hmem Hib Hf.
  assert (Hslice : forall b x, In x (G b SMem) -> tagof s x = TO KMem /\ (tagof s b = TO KBuf \/ tagof s b = TO KPool)).
  { intros b x Hin. destruct (i_own Hi _ _ _ Hin) as [_ Hfit]. now apply fits_SMem in Hfit. }
  assert (Hleaf : leaf_kind k ->
    deletes vkind X W [] T f s o (fun x => x = o \/ exists k', tagof s x = TO k' /\ k' <> KDev /\ k' <> k)).
  { intros Hlk. apply deletes_mono with (P := eq o); [|intros x _ <-; now left].
    apply (delete_leaf vkind f X W [] T G s o k); try assumption; [intros []|lia]. }
  destruct k; try congruence; try (apply Hleaf; unfold leaf_kind; tauto); clear Hleaf.
  - apply deletes_mono with (P := fun x => x = o \/ In x (G o SMem)).
    + apply delete_buf; try assumption; [intros []|intros x []| |lia].
      intros q Haq Hqw E. destruct (i_inner Hi q o Haq Hqw E) as (_ & _ & _ & Hg & _).
      rewrite (Hgb eq_refl) in Hg. discriminate.
    + intros x _ [->|Hin]; [now left|right].
      exists KMem. split; [apply (Hslice _ _ Hin)|split; discriminate].
  - apply deletes_mono with (P := fun x => x = o \/ oinner s o = Some x \/ In x (G o SMem)).
    + apply delete_pool; try assumption; [intros []|intros x []|now apply Hib].
    + intros x _ [->|[E|Hin]]; [now left|right|right].
      * exists KBuf. split; [apply (Hib eq_refl x E)|split; discriminate].
      * exists KMem. split; [apply (Hslice _ _ Hin)|split; discriminate].
  - destruct (Hmem eq_refl) as [Hox Hbw].
    apply deletes_mono with (P := fun x => x = o \/ obuf s o = Some x).
    + apply (delete_mem vkind f X W [] T G s o); try assumption; [intros []|]. intros b Eb. split; [now apply Hbw|intros []].
    + intros x _ [->|E]; [now left|right].
      assert (Hin : In o (G x SMem)).
      { apply (i_mem2 Hi); try assumption. unfold home. now rewrite Ht, E. }
      destruct (Hslice _ _ Hin) as [_ [Hx|Hx]]; [exists KBuf|exists KPool]; (split; [exact Hx|split; discriminate]).
Qed.

(* freeRing(ring&), as one of several calls made from s0 *)
Lemma freering_spec : forall f X T G s0 s d sl,
  shrink s0 s -> objkill s0 s -> measure s + 6 <= f -> inv X [d] [] T G s -> alive s d = true ->
  tagof s0 d = TO KDev -> sl <> SH -> sl <> SMem ->
  exists G' s', exec f (TFreeRingRef d sl) s = Some (tt, s') /\ inv X [d] [] T G' s' /\
                (forall sl', sl' = sl \/ G d sl' = [] -> G' d sl' = []) /\
                alive s' d = true /\ shrink s0 s' /\ objkill s0 s'.
Proof.
  induction f as [|f IH]; intros X T G s0 s d sl Hsh0 Hk0 Hf Hi Hd Htd0 Hs1 Hs2; [lia|]. cbn [exec].
  assert (Htd : tagof s d = TO KDev) by (rewrite (shrink_tag _ _ Hsh0); exact Htd0).
  erewrite bind_run by (eapply rd_head_run; [apply Hi|exact Hd]).
  destruct (G d sl) as [|p t] eqn:EG; cbn [hd_error].
  - exists G, s. split; [reflexivity|]. split; [exact Hi|]. split; [intros sl' [->|E]; assumption|].
    split; [exact Hd|]. split; [exact Hsh0|exact Hk0].
  - assert (Hin : In p (G d sl)) by (rewrite EG; now left).
    destruct (member_facts Hi Hin) as (Hap & _ & Hhome & Hnx & Hfit).
    destruct (fits_dev _ _ _ Hs1 Hs2 Hfit) as (_ & k & Htp & Hk1 & Hk2 & Hslot).
    assert (Hpd : p <> d) by (intros ->; congruence).
    destruct (detach_dev vkind X [d] [] T G s p d sl Hi Hap Hd Htd Hs1 Hpd (or_introl Hhome))
      as (s1 & G1 & Hrun1 & Hsame1 & Hi1 & HG1).
    erewrite bind_run by exact Hrun1.
    pose proof Hsame1 as (_ & S2 & S3 & _ & _ & _ & _ & S8 & _ & _ & _ & _ & _ & _ & S15 & _).
    pose proof (shrink_measure _ _ (same_obj_shrink _ _ Hsame1)) as Hms1.
    destruct (delete_obj f (p :: X) [p; d] T G1 s1 p k) as (G2 & s2 & Hex2 & Hi2 & Hd2 & Hsh2 & Hall).
    + apply inv_weaken_W. exact Hi1.
    + rewrite S3. exact Hap.
    + rewrite S2. exact Htp.
    + exact Hk1.
    + now left.
    + intros ->. rewrite S15. unfold home in Hhome. rewrite Htp in Hhome. destruct (ginner s p); [discriminate|reflexivity].
    + intros ->. congruence.
    + intros -> ib E. rewrite S8 in E.
      assert (Hpw : ~ In p [d]) by (intros [E'|[]]; congruence).
      destruct (i_inner Hi p ib Hap Hpw E) as (_ & A1 & A2 & A3 & _).
      rewrite S3, S2, S15. repeat split; assumption.
    + lia.
    + erewrite bind_run by exact Hex2.
      assert (Htp2 : tagof s2 p = TO k) by (rewrite (shrink_tag _ _ Hsh2), S2; exact Htp).
      assert (Hi2' : inv X [d] [] T G2 s2).
      { eapply inv_unX_dead; [eapply inv_unW_dead; [exact Hi2|exact Hd2]|exact Hd2|]. exists k. exact Htp2. }
      assert (Hsh02 : shrink s s2) by (eapply shrink_trans; [apply same_obj_shrink; exact Hsame1|exact Hsh2]).
      assert (Hk02 : objkill s s2).
      { intros x Ha Hdd. rewrite <- S2. rewrite <- S3 in Ha.
        destruct (Hall x Ha Hdd) as [->|(k' & E & Hn & _)]; [rewrite S2, Htp|rewrite E];
          (split; [eexists; reflexivity|congruence]). }
      assert (Hd2' : alive s2 d = true).
      { destruct (alive s2 d) eqn:E; [reflexivity|]. destruct (Hk02 d Hd E) as [_ Hc]. congruence. }
      assert (Hlt : measure s2 < measure s).
      { eapply shrink_measure_lt with (x := p); [exact Hsh02|eapply inv_lt; eassumption|].
        unfold mcell. rewrite Hd2, Hap. lia. }
      destruct (IH X T G2 s0 s2 d sl) as (G' & s' & Hex' & Hi' & Hnil & Hd' & Hsh' & Hk'); try assumption.
      { eapply shrink_trans; eassumption. }
      { eapply objkill_trans; eassumption. }
      { lia. }
      exists G', s'. split; [exact Hex'|]. split; [exact Hi'|]. split; [|split; [exact Hd'|split; assumption]].
      intros sl' [->|E]; apply Hnil; [now left|right].
      eapply ring_nil_preserved; [exact Hi|exact Hi2'|exact Hsh02|apply incl_refl|exact E].
Qed.

(* what hangs on a device keeps one of its rings non-empty: itself, or (an inner buffer) its pool *)
Lemma dev_child X W D T G s o k d :
  inv X W D T G s -> alive s o = true -> tagof s o = TO k -> k <> KDev -> k <> KMem -> odev s o = Some d ->
  (forall x, In x X -> is_h_tag (tagof s x)) -> (forall x, In x W -> tagof s x = TO KDev) ->
  exists sl, sl <> SH /\ G d sl <> [].
Proof.
  intros Hi Hao Hto Hk1 Hk2 Hod HX HW.
  assert (Hobj : forall x k', tagof s x = TO k' -> ~ In x X).
  { intros x k' Hx Hin. destruct (HX x Hin) as [k'' Hk'']. congruence. }
  assert (Hmem : forall x sl, alive s x = true -> ~ In x X -> home s x = Some (d, sl) -> G d sl <> []).
  { intros x sl Ha Hx Hh E. pose proof (i_mem2 Hi x d sl Ha Hx Hh) as Hin. rewrite E in Hin. destruct Hin. }
  destruct (ginner s o) eqn:Eg.
  - destruct (i_ginner Hi o Eg) as [Htb _].
    assert (How : ~ In o W) by (intros H; apply HW in H; congruence).
    destruct (i_inner_own Hi o Hao Htb Eg How) as (p & Hap & Hop).
    pose proof (i_inner_tag Hi p o Hop) as Htp.
    assert (Hpw : ~ In p W) by (intros H; apply HW in H; congruence).
    destruct (i_inner Hi p o Hap Hpw Hop) as (_ & _ & _ & _ & Hodp).
    exists SBuf. split; [discriminate|]. apply (Hmem p); [exact Hap|eapply Hobj; exact Htp|].
    unfold home. rewrite Htp, <- Hodp, Hod. reflexivity.
  - exists (dev_slot k). split; [destruct k; try congruence; discriminate|].
    apply (Hmem o); [exact Hao|eapply Hobj; exact Hto|].
    unfold home. rewrite Hto, Hod, Eg. destruct k; try congruence; reflexivity.
Qed.

(* ~modeDevice_t (after freeResources) *)
Lemma delete_dev f X T G s d :
  inv X [d] [] T G s -> alive s d = true -> tagof s d = TO KDev ->
  (forall x, In x X -> is_h_tag (tagof s x)) ->
  (forall sl, sl <> SH -> G d sl = []) ->
  cur_ok X T s d ->
  measure s + 3 <= f ->
  deletes vkind X [d] [] T f s d (fun x => x = d \/ x = ocur s d).
Proof.
  intros Hi Hd Ht HX Hrings (Hac & Htc & HcT & HcX & Hcv & Hcs) Hf.
  set (c := ocur s d) in *.
  destruct f as [|f]; [lia|].
  destruct (delete_open vkind f X [d] [] T G s d KDev Hi Hd Ht ltac:(intros []) ltac:(now left) ltac:(lia))
    as (s1 & s2 & Hent & Hex2 & Hi2 & Hsh2 & Hal2 & _ & Hd2 & _).
  set (G2 := upd2 G d SH []) in *.
  pose proof Hsh2 as (_ & Etag & _ & Ehp & Evars & _ & _ & Ecur & _).
  assert (Hc2 : alive s2 c = true) by (rewrite Hal2; exact Hac).
  assert (Hcur2 : ocur s2 d = c) by (rewrite Ecur; reflexivity).
  assert (Htc2 : tagof s2 c = TH KStr) by (rewrite Etag; exact Htc).
  assert (Hd_c : d <> c) by (intros E; rewrite <- E in Htc; congruence).
  (* the stream it pointed to would sit in the device's stream ring, which is empty *)
  assert (Hhc : hptr s2 c = None).
  { destruct (Ehp c) as [E|E]; [rewrite E|exact E].
    destruct (hptr s c) as [st|] eqn:Ehc; [exfalso|reflexivity].
    assert (Hin : In c (G st SH)).
    { apply (i_mem2 Hi); try assumption. unfold home. now rewrite Htc, Ehc. }
    destruct (member_facts Hi Hin) as (_ & Hast & _ & _ & Hfit).
    destruct (fits_SH _ _ Hfit) as (k & Hk1 & Hk2 & _). rewrite Htc in Hk1. injection Hk1 as <-.
    assert (Hin2 : In st (G d SStr)).
    { apply (i_mem2 Hi); try assumption.
      - intros Hx. destruct (HX st Hx) as [k' Hk']. congruence.
      - unfold home. rewrite Hk2, (Hcs st eq_refl). reflexivity. }
    rewrite Hrings in Hin2 by discriminate. destruct Hin2. }
  set (s3 := set_alive s2 (upd (alive s2) c false)).
  assert (Hrel : exec f (TRelease c) s2 = Some (tt, s2)).
  { destruct f as [|f']; [lia|]. cbn [exec]. erewrite bind_run by (apply rd_run; exact Hc2). rewrite Hhc. reflexivity. }
  assert (Hi3 : inv X [d] [d] T G2 s3).
  { rewrite <- (notin_remove Nat.eq_dec T c HcT). apply inv_kill_handle; try assumption.
    - now exists KStr.
    - intros o sl Hin. destruct (i_mem1 Hi2 _ _ _ Hin) as [Hh _].
      unfold home in Hh. rewrite Htc2, Hhc in Hh. discriminate.
    - intros v Hv. exfalso. apply (Hcv v). rewrite Evars in Hv. exact Hv.
    - intros d' Had' Htd' Hdw' E. apply Hdw'. left.
      symmetry. apply (i_cur_inj Hi2 d' d Had' Hd2 Htd'); [rewrite Etag; exact Ht|congruence]. }
  assert (Hd3 : alive s3 d = true) by (unfold s3; simpl_st; rewrite upd_other by exact Hd_c; exact Hd2).
  assert (Ht3 : tagof s3 d = TO KDev) by (unfold s3; simpl_st; rewrite Etag; exact Ht).
  apply (deletes_kill vkind X [d] [] T G2 (S f) s s3); [|exact Hd3| | |now left|].
  - cbn [exec]. rewrite Hent.
    erewrite bind_run_in by exact Hex2. erewrite bind_run_in by (apply rd_run; exact Hd2). rewrite Hcur2.
    erewrite bind_run_in by exact Hrel. now erewrite bind_run by (apply kill_run; exact Hc2).
  - eapply shrink_trans; [exact Hsh2|apply shrink_kill].
  - eapply kill_obj; try exact Hi3.
    + now left.
    + exists KDev. exact Ht3.
    + intros [].
    + eapply dev_not_member; eassumption.
    + intros sl. destruct sl; try (unfold G2; rewrite upd2_other by (right; discriminate); apply Hrings; discriminate).
      apply upd2_same.
    + intros p Hap Hpw E. destruct (i_inner Hi3 p d Hap Hpw E) as (_ & _ & Hc & _). congruence.
    + intros o k Hao Hod Hto Hk1 Hk2 E.
      destruct (dev_child X [d] [d] T G2 s2 o k d Hi2) as (sl & Hsl & Hne); try assumption.
      { unfold s3 in Hao. simpl_st. unfold upd in Hao. destruct (Nat.eqb o c); [discriminate|exact Hao]. }
      { intros x Hx. rewrite Etag. now apply HX. }
      { intros x [<-|[]]. rewrite Etag. exact Ht. }
      apply Hne. unfold G2. rewrite upd2_other by (right; exact Hsl). now apply Hrings.
    + intros _. unfold s3. simpl_st. rewrite Hcur2. apply upd_same.
    + intros b E. pose proof (i_inner_tag Hi3 d b E). congruence.
  - intros x Hx1 Hx2. right. unfold s3 in Hx2. simpl_st.
    destruct (Nat.eq_dec x c) as [->|Hne]; [reflexivity|].
    rewrite upd_other in Hx2 by exact Hne. rewrite Hal2 in Hx2. congruence.
Qed.

(* modeDevice->freeResources(); delete modeDevice — the four rings in the order of freeResources() *)
Lemma freedev_spec f X T G s d :
  inv X [d] [] T G s -> alive s d = true -> tagof s d = TO KDev ->
  (forall x, In x X -> is_h_tag (tagof s x)) ->
  cur_ok X T s d ->
  measure s + 7 <= f ->
  exists G' s', exec f (TFreeDev d) s = Some (tt, s') /\ inv X [d] [] T G' s' /\ alive s' d = false /\
                shrink s s' /\
                (forall x, alive s x = true -> alive s' x = false ->
                   x = d \/ x = ocur s d \/ (is_obj_tag (tagof s x) /\ tagof s x <> TO KDev)).
Proof.
  intros Hi Hd Ht HX (Hac & Htc & HcT & HcX & Hcv & Hcs) Hf.
  destruct f as [|f]; [lia|]. cbn [exec]. cbn [v_byref fixed].
  erewrite bind_run by (apply need_run; exact Hd).
  destruct (freering_spec f X T G s s d SKer (shrink_refl s) (objkill_refl s))
    as (G1 & s1 & Hex1 & Hi1 & Hn1 & Hd1 & Hsh1 & Hk1); try assumption; try discriminate; [lia|].
  pose proof (shrink_measure _ _ Hsh1) as Hm1.
  destruct (freering_spec f X T G1 s s1 d SBuf Hsh1 Hk1)
    as (G2 & s2 & Hex2 & Hi2 & Hn2 & Hd2 & Hsh2 & Hk2); try assumption; try discriminate; [lia|].
  pose proof (shrink_measure _ _ Hsh2) as Hm2.
  destruct (freering_spec f X T G2 s s2 d SStr Hsh2 Hk2)
    as (G3 & s3 & Hex3 & Hi3 & Hn3 & Hd3 & Hsh3 & Hk3); try assumption; try discriminate; [lia|].
  pose proof (shrink_measure _ _ Hsh3) as Hm3.
  destruct (freering_spec f X T G3 s s3 d STag Hsh3 Hk3)
    as (G4 & s4 & Hex4 & Hi4 & Hn4 & Hd4 & Hsh04 & Hk04); try assumption; try discriminate; [lia|].
  pose proof (shrink_measure _ _ Hsh04) as Hm4.
  pose proof Hsh04 as (_ & Etag & _ & Ehp & Evars & Eodev & _ & Ecur & _).
  assert (Hc4 : alive s4 (ocur s d) = true).
  { destruct (alive s4 (ocur s d)) eqn:E; [reflexivity|]. destruct (Hk04 _ Hac E) as [[k Hk] _]. congruence. }
  destruct (delete_dev f X T G4 s4 d) as (G5 & s5 & Hex5 & Hi5 & Hd5 & Hsh5 & Hk5); try assumption.
  - rewrite Etag. exact Ht.
  - intros x Hx. rewrite Etag. now apply HX.
  - intros sl Hsl. destruct sl; try congruence.
    + apply (ring_nil Hi4). rewrite Etag, Ht. reflexivity.
    + apply Hn4; right. apply Hn3; right. apply Hn2. now left.
    + apply Hn4; right. apply Hn3; right. apply Hn2; right. apply Hn1. now left.
    + apply Hn4; right. apply Hn3. now left.
    + apply Hn4. now left.
  - unfold cur_ok. rewrite Ecur, Etag, Evars, Eodev. repeat split; try assumption.
    intros st Hst. apply Hcs. destruct (Ehp (ocur s d)) as [E|E]; congruence.
  - lia.
  - exists G5, s5. split.
    { erewrite bind_run_in by exact Hex1. erewrite bind_run_in by exact Hex2.
      erewrite bind_run_in by exact Hex3. erewrite bind_run by exact Hex4. exact Hex5. }
    split; [exact Hi5|]. split; [exact Hd5|]. split; [eapply shrink_trans; eassumption|].
    intros x Hx1 Hx2. destruct (alive s4 x) eqn:E4.
    + destruct (Hk5 x E4 Hx2) as [->|E]; [now left|]. right. left. rewrite Ecur in E. exact E.
    + right. right. now apply Hk04.
Qed.

Definition handle_kind (k : kind) : Prop := k <> KBuf.

(* what free() / the last removeRef runs on the object a wrapper points to *)
Lemma delete_top f X T G s o k :
  inv X [o] [] T G s -> alive s o = true -> tagof s o = TO k -> k <> KBuf ->
  (forall x, In x X -> is_h_tag (tagof s x)) ->
  (k = KDev -> cur_ok X T s o) ->
  (k = KPool -> inner_ok s o) ->
  measure s + 7 <= f ->
  exists G' s', (match k with KDev => exec f (TFreeDev o) | _ => exec f (TDelete o) end) s = Some (tt, s') /\
                inv X [o] [] T G' s' /\ alive s' o = false /\ shrink s s' /\ topkill s s' o /\
                (forall x, is_h_tag (tagof s x) -> alive s x = true -> alive s' x = false ->
                           k = KDev /\ x = ocur s o).
Proof.
  intros Hi Ho Ht Hkb HX Hcur Hib Hf.
  assert (HoX : ~ In o X) by (intros H; destruct (HX o H) as [k' Hk']; congruence).
  destruct (kind_eqb_spec k KDev) as [->|Hkd].
  - pose proof (Hcur eq_refl) as (_ & C2 & _).
    destruct (freedev_spec f X T G s o) as (G' & s' & Hex & Hi' & Hd' & Hsh & Hk); auto.
    exists G', s'. split; [exact Hex|]. split; [exact Hi'|]. split; [exact Hd'|]. split; [exact Hsh|]. split.
    + intros x H1 H2. destruct (Hk x H1 H2) as [->|[->|[_ Hn]]]; [now left| |].
      * right. rewrite C2, Ht. discriminate.
      * right. rewrite Ht. exact Hn.
    + intros x [k' Hk'] H1 H2. split; [reflexivity|].
      destruct (Hk x H1 H2) as [->|[->|[[k'' Hk''] _]]]; [congruence|reflexivity|congruence].
  - destruct (delete_obj f X [o] T G s o k Hi Ho Ht Hkd (or_introl eq_refl)) as (G' & s' & Hex & Hi' & Hd' & Hsh & Hall);
      [congruence| |exact Hib|lia|].
    { (* a memory is not its own buffer *)
      intros ->. split; [exact HoX|]. intros b Eb [<-|[]].
      assert (Hin : In o (G o SMem)) by (apply (i_mem2 Hi); try assumption; unfold home; now rewrite Ht, Eb).
      destruct (i_own Hi _ _ _ Hin) as [_ Hfit]. rewrite Ht in Hfit. discriminate. }
    exists G', s'. split; [destruct k; congruence || exact Hex|]. split; [exact Hi'|]. split; [exact Hd'|].
    split; [exact Hsh|]. split.
    + intros x H1 H2. destruct (Hall x H1 H2) as [->|(k' & E & _ & Hn)]; [now left|right; congruence].
    + intros x [k' Hk'] H1 H2. destruct (Hall x H1 H2) as [->|(k'' & E & _)]; congruence.
Qed.

(* to be read off the invariant before anything is unlinked *)
Lemma target_facts T G s h o k :
  inv [] [] [] T G s -> alive s h = true -> tagof s h = TH k -> hptr s h = Some o ->
  In h (G o SH) /\ alive s o = true /\ tagof s o = TO k /\ k <> KBuf /\
  (k = KDev -> cur_ok [h] T s o) /\
  (k = KPool -> inner_ok s o).
Proof.
  intros Hi Hh Hth Hp.
  assert (Hin : In h (G o SH)).
  { apply (i_mem2 Hi); [exact Hh|intros []|]. unfold home. now rewrite Hth, Hp. }
  destruct (member_facts Hi Hin) as (_ & Hao & _ & _ & Hfit).
  destruct (fits_SH _ _ Hfit) as (k' & Hk1 & Hk2 & Hk3). rewrite Hth in Hk1. injection Hk1 as <-.
  split; [exact Hin|]. split; [exact Hao|]. split; [exact Hk2|]. split; [exact Hk3|]. split.
  - intros ->. destruct (i_cur Hi o Hao Hk2 ltac:(intros [])) as (C1 & C2 & C3 & C4).
    repeat split; try assumption.
    + intros [E|[]]. rewrite <- E in C2. congruence.
    + intros st. apply (i_cur_str Hi o st Hao Hk2). intros [].
  - intros -> ib E. destruct (i_inner Hi o ib Hao ltac:(intros []) E) as (_ & A1 & A2 & A3 & _). tauto.
Qed.

(* wrapper::removeXRef() *)
Lemma release_spec f T G s h k :
  inv [] [] [] T G s -> alive s h = true -> tagof s h = TH k -> measure s + 8 <= f ->
  exists G' s', exec f (TRelease h) s = Some (tt, s') /\ inv [h] [] [] T G' s' /\ shrink s s' /\
    alive s' h = true /\
    (hptr s' h = None \/ (exists o, hptr s' h = Some o /\ hptr s h = Some o /\ alive s' o = true)) /\
    (forall x, alive s x = true -> alive s' x = false ->
               exists o, hptr s h = Some o /\ (x = o \/ tagof s x <> tagof s o)).
Proof.
  intros Hi Hh Hth Hf.
  destruct f as [|f]; [lia|]. cbn [exec].
  erewrite bind_run by (apply rd_run; exact Hh).
  destruct (hptr s h) as [o|] eqn:Ep.
  2:{ exists G, s. split; [reflexivity|]. split.
      { apply inv_weaken_X; [exact Hi|]. intros o sl Hin. destruct (i_mem1 Hi _ _ _ Hin) as [Hm _].
        unfold home in Hm. rewrite Hth, Ep in Hm. discriminate. }
      split; [apply shrink_refl|]. split; [exact Hh|]. split; [now left|]. intros x H1 H2. congruence. }
  destruct (target_facts T G s h o k Hi Hh Hth Ep) as (Hin & Hao & Hto & Hkb & Hcur & Hib).
  destruct (ring_removeRef_in s G o SH h (i_heap Hi) Hao Hin) as (s1 & Hrun & Hsame & Hk1).
  erewrite bind_run by exact Hrun.
  set (G1 := upd2 G o SH (ring_remove h (G o SH))) in *.
  pose proof Hsame as (_ & S2 & S3 & S4 & S5 & S6 & _ & S8 & S9 & _ & _ & _ & _ & _ & S15 & S16 & _).
  assert (Hao1 : alive s1 o = true) by (rewrite S3; exact Hao).
  assert (Hh1 : alive s1 h = true) by (rewrite S3; exact Hh).
  rewrite (bind_run _ _ _ _ _ (needsFree_run s1 G1 o Hk1 Hao1)).
  destruct (ouse s1 o && match G1 o SH with [] => true | _ :: _ => false end) eqn:Enf.
  - apply andb_true_iff in Enf as [Eu Enil].
    assert (Hi1 : inv [h] [o] [] T G1 s1).
    { eapply inv_unlink; try eassumption; [apply incl_tl, incl_refl|]. intros Hn. exfalso. apply Hn. now left. }
    erewrite bind_run by apply get_run.
    assert (Hkh : kind_of s1 h = k) by (unfold kind_of; rewrite S2, Hth; reflexivity). rewrite Hkh.
    destruct (delete_top f [h] T G1 s1 o k) as (G2 & s2 & Hex2 & Hi2 & Hd2 & Hsh2 & Hk2 & Hhk2).
    + exact Hi1.
    + exact Hao1.
    + rewrite S2. exact Hto.
    + exact Hkb.
    + intros x [<-|[]]. rewrite S2. exists k. exact Hth.
    + unfold cur_ok. rewrite S2, S3, S4, S6, S9, S16. exact Hcur.
    + unfold inner_ok. rewrite S2, S3, S8, S15. exact Hib.
    + pose proof (shrink_measure _ _ (same_obj_shrink _ _ Hsame)). lia.
    + assert (Hh2 : alive s2 h = true).
      { destruct (alive s2 h) eqn:E; [reflexivity|]. exfalso.
        destruct (Hhk2 h ltac:(rewrite S2; exists k; exact Hth) Hh1 E) as [-> E2].
        destruct (Hcur eq_refl) as (_ & C2 & _). rewrite S9 in E2. rewrite <- E2 in C2. congruence. }
      set (s3 := set_hptr s2 (upd (hptr s2) h None)).
      assert (Hi3 : inv [h] [] [] T G2 s3).
      { apply inv_set_hptr.
        - eapply inv_unW_dead; eassumption.
        - now left.
        - rewrite (shrink_tag _ _ Hsh2), S2. exists k. exact Hth.
        - intros d st _ _ _ _ E. discriminate. }
      exists G2, s3. split.
      { erewrite bind_run by exact Hex2. apply need_modify_run. exact Hh2. }
      split; [exact Hi3|]. split.
      { eapply shrink_trans; [apply same_obj_shrink; exact Hsame|].
        eapply shrink_trans; [exact Hsh2|apply shrink_hptr_none]. }
      split; [unfold s3; simpl_st; exact Hh2|]. split; [left; unfold s3; simpl_st; apply upd_same|].
      intros x H1 H2. unfold s3 in H2. simpl_st. exists o. split; [reflexivity|].
      rewrite <- S2. apply Hk2; [rewrite S3; exact H1|exact H2].
  - assert (Hi1 : inv [h] [] [] T G1 s1).
    { eapply inv_unlink; try eassumption; [apply incl_refl|]. intros _ k' Hk'.
      rewrite Hto in Hk'. injection Hk' as <-.
      assert (Hgoal : ouse s o = true -> G1 o SH <> []).
      { intros Hu. rewrite S5, Hu in Enf. cbn in Enf. destruct (G1 o SH); [discriminate|discriminate]. }
      destruct k; try congruence; exact Hgoal. }
    exists G1, s1. split; [reflexivity|]. split; [exact Hi1|]. split; [apply same_obj_shrink; exact Hsame|].
    split; [exact Hh1|]. split.
    + right. exists o. rewrite S4. repeat split; assumption.
    + intros x H1 H2. rewrite S3 in H2. congruence.
Qed.

End E.
