(* C01 — the well-formedness invariant of the handle/object heap (fixed code), parameterised by
   what is temporarily out of shape in the middle of a library call:
     X  entries (wrappers or objects) that are unlinked while their pointer field still says
        where they were (or where they are about to go)
     W  objects currently allowed to be alive without anything keeping them
     D  objects whose destructor is running (logged, still alive)
     T  wrappers that are temporaries of the running call (alive, not variables) *)
From Coq Require Import List Arith Bool ZArith Lia Permutation.
From OV.C01 Require Import Model Ring Heap.
Import ListNotations.

Definition home (s : st) (e : nat) : option (nat * slot) :=
  match tagof s e with
  | TFree => None
  | TH _ => match hptr s e with Some o => Some (o, SH) | None => None end
  | TO KDev => None
  | TO KMem => match obuf s e with Some b => Some (b, SMem) | None => None end
  | TO KBuf => if ginner s e then None
               else match odev s e with Some d => Some (d, SBuf) | None => None end
  | TO k => match odev s e with Some d => Some (d, dev_slot k) | None => None end
  end.

(* entry of tag te may sit in ring sl of an owner of tag tw *)
Definition fits (te tw : tag) (sl : slot) : bool :=
  match sl, te, tw with
  | SH, TH k, TO k' => kind_eqb k k' && negb (kind_eqb k KBuf)
  | SMem, TO KMem, TO KBuf => true
  | SMem, TO KMem, TO KPool => true
  | SBuf, TO KBuf, TO KDev => true
  | SBuf, TO KPool, TO KDev => true
  | SKer, TO KKer, TO KDev => true
  | SStr, TO KStr, TO KDev => true
  | STag, TO KTag, TO KDev => true
  | _, _, _ => false
  end.

Lemma kind_eqb_spec a b : reflect (a = b) (kind_eqb a b).
Proof. destruct a, b; cbn; constructor; congruence. Qed.

Lemma fits_SH te tw : fits te tw SH = true -> exists k, te = TH k /\ tw = TO k /\ k <> KBuf.
Proof.
  unfold fits. destruct te as [|k|k]; try discriminate. destruct tw as [|k'|k']; try discriminate.
  intros H. apply andb_true_iff in H as [H1 H2]. destruct (kind_eqb_spec k k') as [->|]; [|discriminate].
  exists k'. repeat split. intros ->. discriminate.
Qed.

Lemma fits_SH_intro k : k <> KBuf -> fits (TH k) (TO k) SH = true.
Proof. intros H. unfold fits. destruct k; try reflexivity. congruence. Qed.

Lemma fits_SMem te tw : fits te tw SMem = true -> te = TO KMem /\ (tw = TO KBuf \/ tw = TO KPool).
Proof.
  unfold fits. destruct te as [|k|k]; try discriminate. destruct k; try discriminate.
  destruct tw as [|k'|k']; try discriminate. destruct k'; try discriminate; auto.
Qed.

Lemma fits_dev te tw sl : sl <> SH -> sl <> SMem -> fits te tw sl = true ->
  tw = TO KDev /\ exists k, te = TO k /\ k <> KDev /\ k <> KMem /\ dev_slot k = sl.
Proof.
  intros H1 H2. unfold fits. destruct sl; try congruence; destruct te as [|k|k]; try discriminate;
    destruct k; try discriminate; destruct tw as [|k'|k']; try discriminate; destruct k'; try discriminate;
    intros _; (split; [reflexivity|]); eexists; repeat split; try reflexivity; discriminate.
Qed.

(* the rings an object of tag tw has *)
Definition owns (tw : tag) (sl : slot) : bool :=
  match tw, sl with
  | TO KBuf, SMem | TO KPool, SMem => true
  | TO KDev, SMem => false
  | TO KDev, _ => true
  | TO KBuf, SH => false
  | TO _, SH => true
  | _, _ => false
  end.

Lemma fits_owns te tw sl : fits te tw sl = true -> owns tw sl = true.
Proof.
  intros H. destruct (slot_eqb_spec sl SH) as [->|H1]; [|destruct (slot_eqb_spec sl SMem) as [->|H2]].
  - destruct (fits_SH _ _ H) as (k & _ & -> & Hk). destruct k; congruence || reflexivity.
  - destruct (fits_SMem _ _ H) as (_ & [-> | ->]); reflexivity.
  - destruct (fits_dev _ _ _ H1 H2 H) as (-> & _). destruct sl; congruence || reflexivity.
Qed.

Definition is_obj_tag (t : tag) : Prop := exists k, t = TO k.
Definition is_h_tag (t : tag) : Prop := exists k, t = TH k.

(* The clauses.  i_heap … i_dead tie the ghost rings to the pointer fields: G lists exactly the live
   cells, by `home`, that are not exempt (i_mem1, i_mem2), in rings of live owners of a fitting tag.
   i_inner*, i_ginner, i_pres, i_pool_buf: a pool, its reservations and the buffer it made for itself.
   i_dev, i_buf: every object has its device, every memory its buffer.  i_cur*: the currentStream
   wrapper embedded in a device.  i_handles, i_vars*, i_T*: every live wrapper is a variable, a
   currentStream or a temporary.  i_live: what keeps an object alive.  i_log*, i_D: the destructor log.
   X suspends i_mem2, i_buf and the liveness of variables; W suspends i_inner, i_inner_own, i_pres,
   i_cur, i_live, i_cur_str and i_pool_buf. *)
Section WithVkind.
Variable vkind : nat -> kind.

Record inv (X W D T : list nat) (G : GH) (s : st) : Prop := {
  i_heap  : heap_ok s G;
  i_mem1  : forall e o sl, In e (G o sl) -> home s e = Some (o, sl) /\ ~ In e X;
  i_mem2  : forall e o sl, alive s e = true -> ~ In e X -> home s e = Some (o, sl) -> In e (G o sl);
  i_own   : forall e o sl, In e (G o sl) -> alive s o = true /\ fits (tagof s e) (tagof s o) sl = true;
  i_fresh : forall e, nxt s <= e ->
              alive s e = false /\ tagof s e = TFree /\ hptr s e = None /\ ouse s e = true /\
              odev s e = None /\ obuf s e = None /\ oinner s e = None /\ pres s e = [] /\
              pslots s e = 0 /\ ginner s e = false;
  i_tag   : forall e, alive s e = true -> tagof s e <> TFree;
  i_dead  : forall o sl, alive s o = false -> G o sl = [];
  i_inner : forall p b, alive s p = true -> ~ In p W -> oinner s p = Some b ->
              tagof s p = TO KPool /\ alive s b = true /\ tagof s b = TO KBuf /\ ginner s b = true /\
              odev s b = odev s p;
  i_inner_tag : forall p b, oinner s p = Some b -> tagof s p = TO KPool;
  i_inner_inj : forall p p' b, alive s p = true -> alive s p' = true ->
              oinner s p = Some b -> oinner s p' = Some b -> p = p';
  i_inner_own : forall b, alive s b = true -> tagof s b = TO KBuf -> ginner s b = true -> ~ In b W ->
              exists p, alive s p = true /\ oinner s p = Some b;
  i_ginner : forall b, ginner s b = true -> tagof s b = TO KBuf /\ G b SMem = [];
  i_pres  : forall p m, alive s p = true -> tagof s p = TO KPool -> ~ In p W -> In m (G p SMem) -> In m (pres s p);
  i_dev   : forall o k, alive s o = true -> tagof s o = TO k -> k <> KDev -> k <> KMem ->
              exists d, odev s o = Some d /\ alive s d = true /\ tagof s d = TO KDev;
  i_buf   : forall m, alive s m = true -> tagof s m = TO KMem -> ~ In m X -> obuf s m <> None;
  i_cur   : forall d, alive s d = true -> tagof s d = TO KDev -> ~ In d W ->
              alive s (ocur s d) = true /\ tagof s (ocur s d) = TH KStr /\
              ~ In (ocur s d) T /\ forall v, vars s v <> Some (ocur s d);
  i_cur_inj : forall d d', alive s d = true -> alive s d' = true -> tagof s d = TO KDev ->
              tagof s d' = TO KDev -> ocur s d = ocur s d' -> d = d';
  i_handles : forall h k, alive s h = true -> tagof s h = TH k ->
              (exists v, vars s v = Some h) \/
              (exists d, alive s d = true /\ tagof s d = TO KDev /\ ocur s d = h) \/ In h T;
  i_vars  : forall v h, vars s v = Some h ->
              tagof s h = TH (vkind v) /\ ~ In h T /\ (~ In h X -> alive s h = true);
  i_vars_inj : forall v v' h, vars s v = Some h -> vars s v' = Some h -> v = v';
  i_T     : forall h, In h T -> alive s h = true /\ is_h_tag (tagof s h);
  i_T_nd  : NoDup T;
  i_live  : forall o k, alive s o = true -> tagof s o = TO k -> ~ In o W ->
              match k with
              | KBuf => ginner s o = false -> G o SMem <> []
              | _ => ouse s o = true -> G o SH <> []
              end;
  i_log_nd : NoDup (dlog s);
  i_log   : forall o, In o (dlog s) <-> (is_obj_tag (tagof s o) /\ (alive s o = false \/ In o D));
  i_D     : forall o, In o D -> alive s o = true /\ is_obj_tag (tagof s o);
  i_cur_str : forall d st, alive s d = true -> tagof s d = TO KDev -> ~ In d W ->
              hptr s (ocur s d) = Some st -> odev s st = Some d;
  i_pool_buf : forall p, alive s p = true -> tagof s p = TO KPool -> ~ In p W ->
              (pres s p <> [] \/ pslots s p <> 0) -> oinner s p <> None
}.

End WithVkind.

Arguments i_heap {vkind X W D T G s}.
Arguments i_mem1 {vkind X W D T G s}.
Arguments i_mem2 {vkind X W D T G s}.
Arguments i_own {vkind X W D T G s}.
Arguments i_fresh {vkind X W D T G s}.
Arguments i_tag {vkind X W D T G s}.
Arguments i_dead {vkind X W D T G s}.
Arguments i_inner {vkind X W D T G s}.
Arguments i_inner_tag {vkind X W D T G s}.
Arguments i_inner_inj {vkind X W D T G s}.
Arguments i_inner_own {vkind X W D T G s}.
Arguments i_ginner {vkind X W D T G s}.
Arguments i_pres {vkind X W D T G s}.
Arguments i_dev {vkind X W D T G s}.
Arguments i_buf {vkind X W D T G s}.
Arguments i_cur {vkind X W D T G s}.
Arguments i_cur_inj {vkind X W D T G s}.
Arguments i_handles {vkind X W D T G s}.
Arguments i_vars {vkind X W D T G s}.
Arguments i_vars_inj {vkind X W D T G s}.
Arguments i_T {vkind X W D T G s}.
Arguments i_T_nd {vkind X W D T G s}.
Arguments i_live {vkind X W D T G s}.
Arguments i_log_nd {vkind X W D T G s}.
Arguments i_log {vkind X W D T G s}.
Arguments i_D {vkind X W D T G s}.
Arguments i_cur_str {vkind X W D T G s}.
Arguments i_pool_buf {vkind X W D T G s}.

(* monotone facts every library call satisfies *)
Definition ext (s s' : st) : Prop :=
  nxt s <= nxt s' /\ (forall e, e < nxt s -> tagof s' e = tagof s e) /\
  (forall e, e < nxt s -> alive s' e = true -> alive s e = true).

Lemma ext_refl s : ext s s.
Proof. unfold ext. auto. Qed.

Lemma ext_trans a b c : ext a b -> ext b c -> ext a c.
Proof.
  intros (H1 & H2 & H3) (H4 & H5 & H6). split; [lia|]. split.
  - intros e He. rewrite H5 by lia. now apply H2.
  - intros e He Ha. apply H3; [exact He|]. apply H6; [lia|exact Ha].
Qed.

Lemma same_obj_ext s s' : same_obj s s' -> ext s s'.
Proof.
  intros (H1 & H2 & H3 & _). unfold ext. rewrite H1, H2, H3. auto.
Qed.
