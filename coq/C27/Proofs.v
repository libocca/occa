(* C27 — proofs.  The only table checked by enumeration is that of the sixteen hexadecimal digits
   (digit_table); nibbles, bytes, words, strings, hash values and histories are handled by arithmetic and
   induction. *)
From Coq Require Import List ZArith Bool Lia ZifyBool.
From OV.C27 Require Import Syntax Model Spec Statements.
Import ListNotations.
Local Open Scope Z_scope.

(* from here on, and in every file that imports this one, `lia` also knows div and mod *)
Ltac Zify.zify_post_hook ::= Z.div_mod_to_equations.

Definition char_rng (c : Z) : Prop := -128 <= c < 128.

Lemma to_char_rng z : char_rng (to_char z).
Proof. unfold char_rng, to_char. lia. Qed.

Lemma to_char_mod b : 0 <= b < 256 -> to_char b mod 256 = b.
Proof. unfold to_char. lia. Qed.

Lemma to_char_id c : char_rng c -> to_char c = c.
Proof. unfold char_rng, to_char. lia. Qed.

Lemma digit_table d : 0 <= d < 16 -> toHexChar (to_char d) = digit d /\ fromHexChar (digit d) = d.
Proof.
  intros H.
  assert (T : forallb (fun d => (toHexChar (to_char d) =? digit d) && (fromHexChar (digit d) =? d))
                      (map Z.of_nat (seq 0 16)) = true) by (vm_compute; reflexivity).
  rewrite forallb_forall in T. specialize (T d). rewrite andb_true_iff, !Z.eqb_eq in T. apply T.
  apply in_map_iff. exists (Z.to_nat d). split; [lia | apply in_seq; lia].
Qed.

Lemma hex_pair_digits ci : hex_pair ci = [digit ((ci / 16) mod 16); digit (ci mod 16)].
Proof.
  unfold hex_pair. change 15 with (Z.ones 4). rewrite !Z.land_ones, Z.shiftr_div_pow2 by lia.
  change (2 ^ 4) with 16.
  rewrite !(fun d H => proj1 (digit_table d H)) by (apply Z.mod_pos_bound; reflexivity). reflexivity.
Qed.

Lemma hex_pair_spec b : 0 <= b < 256 -> hex_pair (to_char b) = byte_hex b.
Proof.
  intros H. rewrite hex_pair_digits. unfold byte_hex, to_char. do 2 f_equal; [| f_equal]; lia.
Qed.

(* `(c1 << 4) | c2` on two nibbles *)
Lemma lor_nibbles x y : 0 <= y < 16 -> Z.lor (x * 16) y = x * 16 + y.
Proof.
  intros H. assert (L : Z.land (x * 16) y = 0).
  { apply Z.bits_inj'. intros n Hn. rewrite Z.land_spec, Z.bits_0.
    change 16 with (2 ^ 4). rewrite <- Z.shiftl_mul_pow2 by lia.
    destruct (Z.lt_ge_cases n 4).
    - rewrite Z.shiftl_spec_low by assumption. reflexivity.
    - rewrite <- (Z.mod_small y (2 ^ 4)) by (change (2 ^ 4) with 16; lia).
      rewrite Z.mod_pow2_bits_high by lia. apply andb_false_r. }
  rewrite Z.add_nocarry_lxor, Z.lxor_lor by exact L. reflexivity.
Qed.

Lemma fromHexChar_hex c : is_hex c = true -> fromHexChar c = digit_val c /\ 0 <= digit_val c < 16.
Proof.
  unfold is_hex, fromHexChar, digit_val, to_char. intros H.
  destruct ((48 <=? c) && (c <=? 57)) eqn:E1; [lia |].
  destruct ((97 <=? c) && (c <=? 122)) eqn:E2; destruct ((97 <=? c) && (c <=? 102)) eqn:E3; try lia.
  destruct ((65 <=? c) && (c <=? 90)) eqn:E4; destruct ((65 <=? c) && (c <=? 70)) eqn:E5; lia.
Qed.

Lemma par_hex a b : is_hex a = true -> is_hex b = true ->
  to_char (Z.lor (fromHexChar a * 16) (fromHexChar b)) mod 256 = 16 * digit_val a + digit_val b.
Proof.
  intros [-> Ha]%fromHexChar_hex [-> Hb]%fromHexChar_hex. rewrite lor_nibbles, to_char_mod by lia. lia.
Qed.

Lemma i32_bounds w : i32 w <-> -2147483648 <= w <= 2147483647.
Proof. unfold i32, in_i32. lia. Qed.

Lemma to_i32_i32 z : i32 (to_i32 z).
Proof. apply i32_bounds. unfold to_i32. lia. Qed.

Lemma to_i32_to_u32 w : i32 w -> to_i32 (to_u32 w) = w.
Proof. rewrite i32_bounds. unfold to_i32, to_u32. lia. Qed.

Lemma to_u32_rng z : 0 <= to_u32 z < 4294967296.
Proof. unfold to_u32. lia. Qed.

Lemma to_u32_to_i32 u : 0 <= u < 4294967296 -> to_u32 (to_i32 u) = u.
Proof. unfold to_i32, to_u32. lia. Qed.

Lemma to_u32_small u : 0 <= u < 4294967296 -> to_u32 u = u.
Proof. unfold to_u32. lia. Qed.

Lemma signed_to_u32 w : i32 w -> s_signed (to_u32 w) = w.
Proof.
  rewrite i32_bounds. unfold s_signed, to_u32. intros H.
  destruct (w mod 4294967296 <? 2147483648) eqn:E; lia.
Qed.

Lemma signed_to_u32_map h : Forall i32 h -> map s_signed (map to_u32 h) = h.
Proof.
  induction 1 as [|w h Hw _ IH]; cbn [map]; [reflexivity |]. rewrite signed_to_u32, IH by assumption. reflexivity.
Qed.

(* a byte of w is a byte of w mod 2^32; by hand, since `lia` takes ten times as long on each of the four *)
Lemma byte_u32 w k c : 4294967296 = c * 256 * k ->
  (w / k) mod 256 = ((w mod 4294967296) / k) mod 256.
Proof.
  intros Hc. rewrite (Z.div_mod w 4294967296) at 1 by discriminate.
  rewrite Hc at 1. replace (c * 256 * k * (w / 4294967296) + w mod 4294967296)
    with (w mod 4294967296 + c * (w / 4294967296) * 256 * k) by ring.
  rewrite Z.div_add by lia. apply Z.mod_add. discriminate.
Qed.

Lemma byte0 w : w mod 256 = (w mod 4294967296) mod 256.
Proof. rewrite <- (Z.div_1_r w) at 1. rewrite <- (Z.div_1_r (w mod _)). apply (byte_u32 w 1 16777216); reflexivity. Qed.
Lemma byte1 w : (w / 256) mod 256 = ((w mod 4294967296) / 256) mod 256.
Proof. apply (byte_u32 w 256 65536); reflexivity. Qed.
Lemma byte2 w : (w / 65536) mod 256 = ((w mod 4294967296) / 65536) mod 256.
Proof. apply (byte_u32 w 65536 256); reflexivity. Qed.
Lemma byte3 w : (w / 16777216) mod 256 = ((w mod 4294967296) / 16777216) mod 256.
Proof. apply (byte_u32 w 16777216 1); reflexivity. Qed.

Lemma int_chars_bytes w : int_chars w = map to_char (word_bytes (to_u32 w)).
Proof.
  unfold int_chars, word_bytes, to_u32. cbn [map].
  rewrite <- byte0, <- byte1, <- byte2, <- byte3. reflexivity.
Qed.

Lemma word_bytes_rng u : Forall (fun b => 0 <= b < 256) (word_bytes u).
Proof. unfold word_bytes. repeat constructor; apply Z.mod_pos_bound; reflexivity. Qed.

Lemma word_sum u : 0 <= u < 4294967296 ->
  u mod 256 + 256 * ((u / 256) mod 256) + 65536 * ((u / 65536) mod 256)
  + 16777216 * ((u / 16777216) mod 256) = u.
Proof. intros H. lia. Qed.

Lemma flat_map_hex_pair bs : Forall (fun b => 0 <= b < 256) bs ->
  flat_map hex_pair (map to_char bs) = flat_map byte_hex bs.
Proof.
  induction 1 as [|b bs Hb _ IH]; [reflexivity|].
  cbn [map flat_map]. rewrite hex_pair_spec by exact Hb. rewrite IH. reflexivity.
Qed.

Lemma toHex_int_spec w : toHex_int w = flat_map byte_hex (word_bytes (to_u32 w)).
Proof.
  unfold toHex_int. rewrite int_chars_bytes. apply flat_map_hex_pair, word_bytes_rng.
Qed.

Lemma full_spec h : getFullString h = s_full (map to_u32 h).
Proof.
  unfold getFullString, s_full. induction h as [|w h IH]; [reflexivity|].
  cbn [map flat_map]. rewrite toHex_int_spec, IH. reflexivity.
Qed.

Lemma toHex_int_length w : length (toHex_int w) = 8%nat.
Proof. reflexivity. Qed.

Lemma full_length h : length (getFullString h) = (8 * length h)%nat.
Proof.
  unfold getFullString. induction h as [|w h IH]; [reflexivity|].
  cbn [flat_map]. rewrite app_length, IH, toHex_int_length. cbn [length]. lia.
Qed.

Lemma fromHex_loop_S n a b s :
  fromHex_loop (S n) (a :: b :: s) =
  if fromHexChar a <? 0 then None
  else match fromHex_loop n s with
       | Some r => Some (to_char (Z.lor (fromHexChar a * 16) (fromHexChar b)) :: r)
       | None => None
       end.
Proof. reflexivity. Qed.

Lemma nibbles_char c : char_rng c -> to_char ((c / 16) mod 16 * 16 + c mod 16) = c.
Proof. unfold char_rng, to_char. lia. Qed.

Lemma loop_enc cs : forall rest, Forall char_rng cs ->
  fromHex_loop (length cs) (flat_map hex_pair cs ++ rest) = Some cs.
Proof.
  induction cs as [|c cs IH]; intros rest H; [reflexivity|].
  inversion H as [|c' cs' Hc Hcs]; subst.
  cbn [length flat_map]. rewrite hex_pair_digits. cbn [app]. rewrite fromHex_loop_S.
  rewrite !(fun d H => proj2 (digit_table d H)), lor_nibbles by (apply Z.mod_pos_bound; reflexivity).
  rewrite (proj2 (Z.ltb_ge _ 0)), IH, nibbles_char by (assumption || apply Z.mod_pos_bound; reflexivity). reflexivity.
Qed.

Lemma int_chars_rng w : Forall char_rng (int_chars w).
Proof. unfold int_chars. repeat constructor; apply to_char_rng. Qed.

Lemma flat_int_chars_rng h : Forall char_rng (flat_map int_chars h).
Proof.
  induction h as [|w h IH]; [constructor|]. cbn [flat_map]. apply Forall_app. split; [apply int_chars_rng | exact IH].
Qed.

Lemma flat_int_chars_length h : length (flat_map int_chars h) = (4 * length h)%nat.
Proof.
  induction h as [|w h IH]; [reflexivity|]. cbn [flat_map]. rewrite app_length, IH. cbn [length int_chars]. lia.
Qed.

Lemma full_as_chars h : getFullString h = flat_map hex_pair (flat_map int_chars h).
Proof.
  unfold getFullString, toHex_int. induction h as [|w h IH]; [reflexivity|].
  cbn [flat_map]. rewrite flat_map_app, IH. reflexivity.
Qed.

Lemma ints_of_int_chars w : i32 w ->
  to_i32 (to_char (w mod 256) mod 256 + 256 * (to_char ((w / 256) mod 256) mod 256)
          + 65536 * (to_char ((w / 65536) mod 256) mod 256)
          + 16777216 * (to_char ((w / 16777216) mod 256) mod 256)) = w.
Proof.
  intros H. rewrite !to_char_mod by (apply Z.mod_pos_bound; reflexivity).
  rewrite byte0, byte1, byte2, byte3. rewrite word_sum by lia. apply (to_i32_to_u32 w H).
Qed.

Lemma ints_of_chars_enc h : Forall i32 h ->
  ints_of_chars (length h) (flat_map int_chars h) = h.
Proof.
  induction 1 as [|w h Hw _ IH]; [reflexivity|].
  cbn [length flat_map]. unfold int_chars at 1. cbn [app ints_of_chars].
  rewrite ints_of_int_chars by exact Hw. rewrite IH. reflexivity.
Qed.

Lemma fromHex_full h : length h = 8%nat ->
  fromHex (getFullString h) 32 = Some (flat_map int_chars h).
Proof.
  (* 64 characters are exactly 2 * 32: the loop runs 32 times and nothing is padded *)
  intros L. unfold fromHex. rewrite full_length, L.
  change (Z.to_nat (if Z.of_nat (8 * 8) >? 2 * 32 then 32 else Z.of_nat (8 * 8) / 2)) with 32%nat.
  rewrite full_as_chars.
  assert (L4 : length (flat_map int_chars h) = 32%nat) by (rewrite flat_int_chars_length, L; reflexivity).
  rewrite <- (app_nil_r (flat_map hex_pair (flat_map int_chars h))).
  rewrite <- L4 at 1. rewrite loop_enc by apply flat_int_chars_rng.
  rewrite L4. cbn [Z.to_nat Pos.to_nat Pos.iter_op Nat.add Nat.sub repeat]. rewrite app_nil_r. reflexivity.
Qed.

Lemma roundtrip_words h : length h = 8%nat -> Forall i32 h ->
  option_map h_h (fromString (getFullString h)) = Some h.
Proof.
  intros L H. unfold fromString. rewrite fromHex_full by exact L. cbn [option_map h_h].
  rewrite <- L. rewrite ints_of_chars_enc by exact H. reflexivity.
Qed.

(* the `unsigned char` value of a `char` *)
Definition b256 (c : Z) : Z := c mod 256.

Lemma fromHexChar_nonneg c : 0 <= c -> 0 <= fromHexChar c.
Proof.
  intros H. unfold fromHexChar, to_char.
  destruct ((48 <=? c) && (c <=? 57)) eqn:E1; [lia |]. destruct ((97 <=? c) && (c <=? 122)) eqn:E2; [lia |].
  destruct ((65 <=? c) && (c <=? 90)) eqn:E3; lia.
Qed.

Lemma is_hex_nonneg c : is_hex c = true -> 0 <= c.
Proof. unfold is_hex. lia. Qed.

(* defined on text without characters >= 0x80; on hexadecimal text the result is the bytes denoted *)
Lemma loop_ascii : forall n s, Forall (fun c => 0 <= c) s ->
  exists out, fromHex_loop n s = Some out /\
    (Forall (fun c => is_hex c = true) s -> map b256 out = firstn n (hex_bytes s)).
Proof.
  induction n as [|n IH]; intros s H.
  - exists []. split; [destruct s; reflexivity | reflexivity].
  - destruct s as [|a [|b s]]; try (exists []; split; reflexivity).
    inversion H as [|? ? Ha H1]; subst. inversion H1 as [|? ? Hb H2]; subst.
    destruct (IH s H2) as (out & E & M). rewrite fromHex_loop_S, E.
    rewrite (proj2 (Z.ltb_ge _ 0) (fromHexChar_nonneg a Ha)). eexists. split; [reflexivity |].
    intros Hx. inversion Hx as [|? ? Xa X1]; subst. inversion X1 as [|? ? Xb X2]; subst.
    cbn [map hex_bytes firstn]. unfold b256 at 1. rewrite (par_hex a b Xa Xb), (M X2). reflexivity.
Qed.

Lemma hex_bytes_length s : length (hex_bytes s) = Nat.div2 (length s).
Proof.
  enough (H : forall n s, (length s <= n)%nat -> length (hex_bytes s) = Nat.div2 (length s)) by (apply (H (length s)); lia).
  clear s. induction n as [|n IH]; intros s H.
  - destruct s; [reflexivity | cbn in H; lia].
  - destruct s as [|a [|b s]]; try reflexivity.
    cbn [hex_bytes length Nat.div2]. f_equal. apply IH. cbn in H. lia.
Qed.

Lemma firstn_repeat_le {A} (x : A) : forall (k m : nat), (k <= m)%nat -> firstn k (repeat x m) = repeat x k.
Proof.
  induction k as [|k IH]; intros m H; [reflexivity|].
  destruct m as [|m]; [lia|]. cbn [repeat firstn]. f_equal. apply IH. lia.
Qed.

Lemma pad_firstn {A} (x : A) (hb : list A) (k : nat) :
  firstn (Nat.min k (length hb)) hb ++ repeat x (k - Nat.min k (length hb)) = firstn k (hb ++ repeat x k).
Proof.
  rewrite firstn_app, firstn_repeat_le by lia. f_equal; [| f_equal; lia].
  destruct (Nat.le_ge_cases k (length hb)) as [H | H].
  - rewrite Nat.min_l by exact H. reflexivity.
  - rewrite Nat.min_r, firstn_all, firstn_all2 by exact H. reflexivity.
Qed.

Lemma map_b256_repeat k : map b256 (repeat 0 k) = repeat 0 k.
Proof. induction k as [|k IH]; [reflexivity|]. cbn [repeat map]. rewrite IH. reflexivity. Qed.

Lemma div2_of_nat n : Z.of_nat (Nat.div2 n) = Z.of_nat n / 2.
Proof. rewrite Nat.div2_div, Nat2Z.inj_div. reflexivity. Qed.

Lemma fromHex_hex s : Forall (fun c => is_hex c = true) s ->
  exists out, fromHex s 32 = Some out /\
              map b256 out = firstn 32 (hex_bytes s ++ repeat 0 32).
Proof.
  intros H. unfold fromHex.
  set (n := Z.to_nat (if Z.of_nat (length s) >? 2 * 32 then 32 else Z.of_nat (length s) / 2)).
  destruct (loop_ascii n s (Forall_impl _ is_hex_nonneg H)) as (out & E & M). specialize (M H). rewrite E.
  exists (out ++ repeat 0 (Z.to_nat 32 - length out)). split; [reflexivity|].
  pose proof (hex_bytes_length s) as Lhb.
  assert (Hn : n = Nat.min 32 (length (hex_bytes s))).
  { unfold n. rewrite Lhb. pose proof (div2_of_nat (length s)). destruct (Z.of_nat (length s) >? 2 * 32) eqn:G; lia. }
  assert (Lout : length out = n).
  { rewrite <- (map_length b256 out), M, firstn_length, Hn. lia. }
  rewrite map_app, M, map_b256_repeat, Lout.
  change (Z.to_nat 32) with 32%nat. rewrite Hn. apply pad_firstn.
Qed.

Lemma ints_of_chars_words : forall n cs,
  map to_u32 (ints_of_chars n cs) = bytes_words n (map b256 cs).
Proof.
  induction n as [|n IH]; intros cs; [reflexivity|].
  destruct cs as [|a [|b [|c [|d r]]]]; try reflexivity.
  cbn [ints_of_chars bytes_words map]. rewrite IH. f_equal.
  unfold b256. apply to_u32_to_i32. lia.
Qed.

Lemma ints_of_chars_i32 : forall n cs, Forall i32 (ints_of_chars n cs).
Proof.
  induction n as [|n IH]; intros cs; [constructor|].
  destruct cs as [|a [|b [|c [|d r]]]]; try constructor. apply to_i32_i32. apply IH.
Qed.

Lemma ints_of_chars_length : forall n cs, (4 * n <= length cs)%nat -> length (ints_of_chars n cs) = n.
Proof.
  induction n as [|n IH]; intros cs H; [reflexivity|].
  destruct cs as [|a [|b [|c [|d r]]]]; cbn [length] in H; try lia.
  cbn [ints_of_chars length]. f_equal. apply IH. lia.
Qed.

Lemma pad_len {A} (x : A) (o : list A) (k : nat) : (k <= length (o ++ repeat x (k - length o)))%nat.
Proof. rewrite app_length, repeat_length. lia. Qed.

Lemma fromHex_length s out : fromHex s 32 = Some out -> (32 <= length out)%nat.
Proof.
  unfold fromHex. destruct (fromHex_loop _ s) as [o|]; [|discriminate].
  intros E. assert (E' : out = o ++ repeat 0 (Z.to_nat 32 - length o)) by congruence.
  rewrite E'. apply (pad_len 0 o 32).
Qed.

Lemma fromString_words s x : fromString s = Some x ->
  length (h_h x) = 8%nat /\ Forall i32 (h_h x) /\ h_sh x = zeros8 /\ h_str x = [].
Proof.
  unfold fromString. destruct (fromHex s 32) as [out|] eqn:E; [|discriminate].
  intros X.
  assert (Ex : x = {| h_init := true; h_h := ints_of_chars 8 out; h_sh := zeros8; h_str := [] |}) by congruence.
  rewrite Ex. cbn [h_h h_sh h_str]. repeat split.
  - apply ints_of_chars_length. apply fromHex_length in E. lia.
  - apply ints_of_chars_i32.
Qed.

Lemma fromString_hex s : Forall (fun c => is_hex c = true) s ->
  exists x, fromString s = Some x /\ map to_u32 (h_h x) = s_parse s.
Proof.
  intros H. destruct (fromHex_hex s H) as [out [E M]]. unfold fromString. rewrite E.
  eexists. split; [reflexivity|]. cbn [h_h]. rewrite ints_of_chars_words, M. reflexivity.
Qed.

(* fromString is free of undefined behaviour on every string without characters >= 0x80 *)
Lemma fromString_ascii s : Forall (fun c => 0 <= c) s -> exists x, fromString s = Some x.
Proof.
  intros H. unfold fromString, fromHex.
  destruct (loop_ascii (Z.to_nat (if Z.of_nat (length s) >? 2 * 32 then 32 else Z.of_nat (length s) / 2)) s H) as (out & E & _).
  rewrite E. eexists. reflexivity.
Qed.

Lemma lxor_u32 a b : 0 <= a < 4294967296 -> 0 <= b < 4294967296 -> 0 <= Z.lxor a b < 4294967296.
Proof.
  intros Ha Hb. change 4294967296 with (2 ^ 32) in *.
  assert (E : Z.lxor a b / 2 ^ 32 = 0).
  { rewrite <- Z.shiftr_div_pow2, Z.shiftr_lxor, !Z.shiftr_div_pow2, !Z.div_small by lia. reflexivity. }
  apply Z.div_small_iff in E; lia.
Qed.

Lemma to_u32_xor_int a b : to_u32 (xor_int a b) = Z.lxor (to_u32 a) (to_u32 b).
Proof. unfold xor_int. apply to_u32_to_i32. apply lxor_u32; apply to_u32_rng. Qed.

Lemma xor_words_spec : forall a b, map to_u32 (xor_words a b) = s_xor (map to_u32 a) (map to_u32 b).
Proof.
  induction a as [|x a IH]; intros [|y b]; try reflexivity.
  cbn [xor_words map s_xor]. rewrite to_u32_xor_int, IH. reflexivity.
Qed.

Lemma xor_words_i32 : forall a b, Forall i32 (xor_words a b).
Proof.
  induction a as [|x a IH]; intros [|y b]; try constructor. apply to_i32_i32. apply IH.
Qed.

Lemma xor_words_length : forall a b, length a = length b -> length (xor_words a b) = length a.
Proof.
  induction a as [|x a IH]; intros [|y b] H; try reflexivity; try discriminate.
  cbn [xor_words length]. f_equal. apply IH. cbn in H. lia.
Qed.

Lemma to_u32_inj a b : i32 a -> i32 b -> to_u32 a = to_u32 b -> a = b.
Proof. rewrite !i32_bounds. unfold to_u32. lia. Qed.

Lemma words_neq_negb : forall a b, words_neq a b = negb (words_eq a b).
Proof.
  induction a as [|x a IH]; intros [|y b]; try reflexivity.
  cbn [words_neq words_eq]. destruct (x =? y); cbn [negb]; [apply IH | reflexivity].
Qed.

Lemma words_eq_spec : forall a b, length a = length b -> Forall i32 a -> Forall i32 b ->
  words_eq a b = s_eq (map to_u32 a) (map to_u32 b).
Proof.
  induction a as [|x a IH]; intros [|y b] L Ha Hb; try reflexivity; try discriminate.
  inversion Ha as [|? ? Hx Ha']; inversion Hb as [|? ? Hy Hb']; subst. cbn [words_eq map s_eq].
  destruct (x =? y) eqn:E.
  - apply Z.eqb_eq in E. subst. rewrite Z.eqb_refl. cbn [negb andb]. apply IH; auto.
  - cbn [negb]. destruct (to_u32 x =? to_u32 y) eqn:E2; [|reflexivity].
    apply Z.eqb_eq in E2. apply to_u32_inj in E2; auto. apply Z.eqb_neq in E. contradiction.
Qed.

Lemma words_eq_true : forall a b, length a = length b -> words_eq a b = true -> a = b.
Proof.
  induction a as [|x a IH]; intros [|y b] L H; try reflexivity; try discriminate.
  cbn [words_eq] in H. destruct (x =? y) eqn:E; cbn [negb] in H; [|discriminate].
  apply Z.eqb_eq in E. subst. f_equal. apply IH; auto.
Qed.

Lemma words_eq_refl : forall a, words_eq a a = true.
Proof. induction a as [|x a IH]; [reflexivity|]. cbn [words_eq]. rewrite Z.eqb_refl. exact IH. Qed.

Lemma words_lt_spec : forall a b, Forall i32 a -> Forall i32 b ->
  words_lt a b = s_lt (map to_u32 a) (map to_u32 b).
Proof.
  induction a as [|x a IH]; intros [|y b] Ha Hb; try reflexivity.
  inversion Ha as [|? ? Hx Ha']; inversion Hb as [|? ? Hy Hb']; subst. cbn [words_lt map s_lt].
  rewrite !signed_to_u32 by assumption.
  destruct (Z.compare_spec x y) as [-> | C | C].
  - rewrite Z.ltb_irrefl, Z.gtb_ltb, Z.ltb_irrefl. apply IH; auto.
  - rewrite (proj2 (Z.ltb_lt x y) C). reflexivity.
  - rewrite Z.gtb_ltb, (proj2 (Z.ltb_ge x y)), (proj2 (Z.ltb_lt y x)) by lia. reflexivity.
Qed.

Definition short_of (h : list Z) : list Z := firstn 16 (getFullString h).

Lemma substr16 (full : list Z) :
  (if Z.of_nat (length full) <? 16 then full else firstn 16 full) = firstn 16 full.
Proof.
  destruct (Z.of_nat (length full) <? 16) eqn:E; [|reflexivity].
  apply Z.ltb_lt in E. symmetry. apply firstn_all2. lia.
Qed.

Lemma short_nonempty h : length h = 8%nat -> short_of h <> [].
Proof.
  intros L E. assert (length (short_of h) = 16%nat).
  { unfold short_of. rewrite firstn_length, full_length, L. reflexivity. }
  rewrite E in H. discriminate.
Qed.

(* object invariant: 8 ints each, and a non-empty cached string is the short string of sh *)
Definition wf_obj (o : hobj) : Prop :=
  length (h_h o) = 8%nat /\ Forall i32 (h_h o) /\ length (h_sh o) = 8%nat /\
  (h_str o = [] \/ h_str o = short_of (h_sh o)).

Lemma getString_fixed o : wf_obj o ->
  fst (getString fixed o) = short_of (h_h o) /\ wf_obj (snd (getString fixed o)) /\
  h_h (snd (getString fixed o)) = h_h o.
Proof.
  intros (L & R & Ls & C). unfold getString. cbn [cache_by_string fixed].
  destruct (is_nil (h_str o) || words_neq (h_h o) (h_sh o)) eqn:E.
  - rewrite substr16. cbn [fst snd h_h]. split; [reflexivity|]. split; [|reflexivity].
    unfold wf_obj. cbn [h_h h_sh h_str]. repeat split; auto.
  - apply orb_false_iff in E. destruct E as [E1 E2]. cbn [fst snd]. split; [|split; [unfold wf_obj; auto | reflexivity]].
    destruct C as [C|C]; [rewrite C in E1; discriminate|].
    rewrite words_neq_negb in E2. apply negb_false_iff in E2.
    apply words_eq_true in E2; [|lia]. rewrite C, E2. reflexivity.
Qed.

Lemma wf_default : wf_obj mk_default.
Proof.
  unfold wf_obj, mk_default. cbn [h_h h_sh h_str]. repeat split; auto.
  repeat constructor.
Qed.

Lemma wf_assign_fixed dst src : length (h_h src) = 8%nat -> Forall i32 (h_h src) -> wf_obj (assign fixed dst src).
Proof.
  intros L R. unfold wf_obj, assign. cbn [h_h h_sh h_str cache_by_string fixed]. repeat split; auto.
Qed.

Lemma mul_fixed a b : mul_int fixed a b = Some (to_i32 (a * b)).
Proof.
  unfold mul_int. cbn [unsigned_mul fixed]. f_equal. unfold to_u32, to_i32.
  rewrite <- Z.mul_mod by lia. rewrite Zplus_mod_idemp_l. reflexivity.
Qed.

Lemma mul_pinned_fixed a b m : mul_int pinned a b = Some m -> mul_int fixed a b = Some m.
Proof.
  unfold mul_int at 1. cbn [unsigned_mul pinned]. destruct (in_i32 (a * b)) eqn:E; [|discriminate].
  intros X. inversion X. subst. rewrite mul_fixed. f_equal.
  assert (I : i32 (a * b)) by exact E. apply i32_bounds in I. set (p := a * b) in *. unfold to_i32. lia.
Qed.

Lemma hash_step_fixed : forall hs ps c, exists r, hash_step fixed hs ps c = Some r /\
  Forall i32 r /\ length r = Nat.min (length hs) (length ps).
Proof.
  induction hs as [|h hs IH]; intros ps c.
  - exists []. repeat split. constructor.
  - destruct ps as [|p ps].
    + exists []. repeat split. constructor.
    + destruct (IH ps c) as [r [E [R L]]]. cbn [hash_step]. rewrite mul_fixed, E.
      eexists. split; [reflexivity|]. split.
      * constructor; [apply to_i32_i32 | exact R].
      * cbn [length Nat.min]. rewrite L. reflexivity.
Qed.

Lemma hash_loop_fixed : forall bs hs, length hs = 8%nat ->
  exists r, hash_loop fixed hs bs = Some r /\ length r = 8%nat /\ (Forall i32 hs -> Forall i32 r).
Proof.
  induction bs as [|c bs IH]; intros hs L.
  - exists hs. repeat split; auto.
  - destruct (hash_step_fixed hs primes c) as [r [E [R Lr]]]. cbn [hash_loop]. rewrite E.
    assert (L8 : length r = 8%nat) by (rewrite Lr, L; reflexivity).
    destruct (IH r L8) as [r' [E' [L' R']]]. exists r'. repeat split; auto.
Qed.

Lemma hash_words_defined bs : exists h, hash_words fixed bs = Some h /\ length h = 8%nat /\ Forall i32 h.
Proof.
  destruct (hash_loop_fixed bs default_h eq_refl) as [r [E [L I]]].
  exists r. repeat split; auto. apply I. repeat constructor.
Qed.

Lemma hash_step_pinned_fixed : forall hs ps c r,
  hash_step pinned hs ps c = Some r -> hash_step fixed hs ps c = Some r.
Proof.
  induction hs as [|h hs IH]; intros ps c r H; [exact H|].
  destruct ps as [|p ps]; [exact H|]. cbn [hash_step] in *.
  destruct (mul_int pinned h p) as [m|] eqn:M; [|discriminate].
  rewrite (mul_pinned_fixed _ _ _ M).
  destruct (hash_step pinned hs ps c) as [r'|] eqn:S; [|discriminate].
  rewrite (IH _ _ _ S). exact H.
Qed.

Lemma hash_loop_pinned_fixed : forall bs hs r,
  hash_loop pinned hs bs = Some r -> hash_loop fixed hs bs = Some r.
Proof.
  induction bs as [|c bs IH]; intros hs r H; [exact H|]. cbn [hash_loop] in *.
  destruct (hash_step pinned hs primes c) as [hs'|] eqn:S; [|discriminate].
  rewrite (hash_step_pinned_fixed _ _ _ _ S). apply IH. exact H.
Qed.

Lemma read_mem_ext mem1 p1 mem2 p2 n :
  (forall i, (i < n)%nat -> mem1 (p1 + Z.of_nat i) = mem2 (p2 + Z.of_nat i)) ->
  read_mem mem1 p1 n = read_mem mem2 p2 n.
Proof.
  intros H. unfold read_mem. apply map_ext_in. intros i Hi. apply in_seq in Hi. apply H. lia.
Qed.

Definition robj (o : hobj) (x : sval) : Prop := wf_obj o /\ map to_u32 (h_h o) = x.

Lemma robj_default : robj mk_default s_default.
Proof. split; [apply wf_default | reflexivity]. Qed.

Lemma robj_get : forall rs ss i, Forall2 robj rs ss -> robj (getr rs i) (s_get ss i).
Proof.
  intros rs ss i H. revert i. induction H as [|o x rs ss Hox _ IH]; intros i.
  - destruct i; apply robj_default.
  - destruct i as [|i]; [exact Hox | apply IH].
Qed.

Lemma robj_set : forall rs ss i o x, Forall2 robj rs ss -> robj o x ->
  Forall2 robj (setr rs i o) (s_set ss i x).
Proof.
  intros rs ss i o x H Hox. revert i. induction H as [|o' x' rs ss Hox' Hr IH]; intros i.
  - destruct i; constructor.
  - destruct i as [|i]; cbn [setr s_set]; constructor; auto.
Qed.

Lemma s_set_same : forall ss i, s_set ss i (s_get ss i) = ss.
Proof. induction ss as [|x ss IH]; intros [|i]; cbn [s_set]; try reflexivity. unfold s_get; cbn [nth]. f_equal. apply IH. Qed.

Lemma robj_set_same rs ss i o : Forall2 robj rs ss -> robj o (s_get ss i) -> Forall2 robj (setr rs i o) ss.
Proof. intros H Hox. rewrite <- (s_set_same ss i) at 1. apply robj_set; assumption. Qed.

Lemma sim_set rs ss i src x : Forall2 robj rs ss -> length (h_h src) = 8%nat -> Forall i32 (h_h src) ->
  map to_u32 (h_h src) = x -> Forall2 robj (setr rs i (assign fixed (getr rs i) src)) (s_set ss i x).
Proof. intros R L I M. apply robj_set; [exact R |]. split; [apply wf_assign_fixed; assumption | exact M]. Qed.

Lemma default_u32 : map to_u32 default_h = s_default.
Proof. reflexivity. Qed.

Lemma step_sim rs ss o : Forall2 robj rs ss -> wf_op o ->
  match m_step fixed rs o with
  | Some (rs', out) => Forall2 robj rs' (fst (s_step ss o)) /\ map mask out = snd (s_step ss o)
  | None => False
  end.
Proof.
  intros R W. destruct o as [i ws|i s|i j|i j|i|i|i|i|i j|i|bs|s]; cbn [m_step s_step fst snd].
  - (* OInts *) destruct W as [L I]. split; [apply sim_set; auto | reflexivity].
  - (* OFrom *) destruct (fromString_hex s W) as [x [E M]]. rewrite E.
    destruct (fromString_words s x E) as (L & I & _ & _). split; [apply sim_set; auto | reflexivity].
  - (* OAssign *) destruct (robj_get rs ss j R) as ((L & I & _) & M). split; [apply sim_set; auto | reflexivity].
  - (* OXor *) destruct (robj_get rs ss i R) as ((Li & Ii & _) & Mi).
    destruct (robj_get rs ss j R) as ((Lj & Ij & _) & Mj).
    split; [| reflexivity]. unfold hxor_assign. apply sim_set; [exact R | | |]; cbn [hxor h_h copy assign].
    + rewrite xor_words_length; lia.
    + apply xor_words_i32.
    + rewrite xor_words_spec, Mi, Mj. reflexivity.
  - (* OClear *) split; [| reflexivity]. apply sim_set; [exact R | reflexivity | apply wf_default | reflexivity].
  - (* OShort *) destruct (robj_get rs ss i R) as (Wi & Mi).
    destruct (getString_fixed _ Wi) as (S1 & S2 & S3).
    destruct (getString fixed (getr rs i)) as [s x] eqn:G. cbn [fst snd] in *. split.
    + (* the specification keeps the value; the model only updated the cache *)
      apply robj_set_same; auto. split; [exact S2 | rewrite S3; exact Mi].
    + cbn [map mask]. rewrite S1. unfold short_of, s_short. rewrite full_spec, Mi. reflexivity.
  - (* OFull *) destruct (robj_get rs ss i R) as (Wi & Mi). split; [exact R |].
    cbn [map mask]. rewrite full_spec, Mi. reflexivity.
  - (* ORound *) destruct (robj_get rs ss i R) as ((Li & Ii & _) & Mi).
    pose proof (roundtrip_words _ Li Ii) as RT.
    destruct (fromString (getFullString (h_h (getr rs i)))) as [d|]; [|discriminate].
    cbn [option_map] in RT. inversion RT as [RT']. split; [exact R |].
    cbn [map mask]. rewrite RT', words_eq_refl, <- Mi, signed_to_u32_map by exact Ii. reflexivity.
  - (* OCmp *) destruct (robj_get rs ss i R) as ((Li & Ii & _) & Mi).
    destruct (robj_get rs ss j R) as ((Lj & Ij & _) & Mj). split; [exact R |].
    cbn [map mask]. rewrite words_neq_negb, <- Mi, <- Mj.
    rewrite <- words_eq_spec by (auto; lia). rewrite <- words_lt_spec by auto. reflexivity.
  - (* OInt *) destruct (robj_get rs ss i R) as ((Li & Ii & _) & Mi). split; [exact R |].
    cbn [map mask]. rewrite <- Mi.
    destruct (h_h (getr rs i)) as [|w r]; [discriminate|]. cbn [map nth].
    inversion Ii; subst. rewrite signed_to_u32 by assumption. reflexivity.
  - (* OHash *) unfold hash_bytes. destruct (hash_words_defined bs) as [r [E _]]. rewrite E. split; [exact R | reflexivity].
  - (* OParse *) destruct (fromString_ascii s W) as [x E]. rewrite E. split; [exact R | reflexivity].
Qed.

Lemma run_sim : forall ops rs ss, Forall2 robj rs ss -> Forall wf_op ops ->
  exists rs' out, m_run_from fixed rs ops = Some (rs', out) /\
                  (exists ss', Forall2 robj rs' ss') /\ map mask out = s_run_from ss ops.
Proof.
  induction ops as [|o ops IH]; intros rs ss R W.
  - exists rs, []. split; [reflexivity|]. split; [exists ss; exact R | reflexivity].
  - inversion W as [|? ? Wo Wops]; subst.
    pose proof (step_sim rs ss o R Wo) as S. cbn [m_run_from s_run_from].
    destruct (m_step fixed rs o) as [[rs1 out1] |]; [| contradiction].
    destruct (s_step ss o) as [ss1 sout1]. destruct S as (R1 & M1). cbn [fst snd] in *.
    destruct (IH rs1 ss1 R1 Wops) as (rs2 & out2 & E2 & W2 & M2). rewrite E2.
    eexists _, _. split; [reflexivity|]. split; [exact W2|].
    rewrite map_app, M1, M2. reflexivity.
Qed.

Lemma init_rel : Forall2 robj init_regs s_init.
Proof. unfold init_regs, s_init, NREG. repeat constructor; apply robj_default. Qed.
