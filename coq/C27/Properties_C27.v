(* C27 — hash_t strings are faithful and hashing has no undefined behaviour.
   Vocabulary: Model.v (the code of src/utils/hash.cpp + string.hpp as it is after fixes/C27-1 and
   fixes/C27-2; `pinned` = the code before them), Spec.v (hash values as 8 unsigned words, full string
   = hexadecimal text of the 32 bytes, short string = its first 16 characters), Statements.v. *)
From Coq Require Import List ZArith Bool.
From OV.C27 Require Import Syntax Model Spec Statements Proofs.
Import ListNotations.
Local Open Scope Z_scope.

(* Reading back the full string of any hash value gives the same hash (no UB on the way). *)
Theorem from_full_roundtrip : forall h : list Z,
  length h = 8%nat -> Forall i32 h ->
  option_map h_h (fromString (getFullString h)) = Some h.
Proof. exact Proofs.roundtrip_words. Qed.
Print Assumptions from_full_roundtrip.

(* the full string is the lower-case hexadecimal text of the value's bytes, for every value *)
Theorem full_string_is_hex_text : forall h : list Z,
  getFullString h = s_full (map to_u32 h).
Proof. exact Proofs.full_spec. Qed.
Print Assumptions full_string_is_hex_text.

(* After every history of constructions, assignments, fromString, ^=, clear and getString calls
   over hash_t variables, getString of every variable is the first 16 characters of its full
   string (this includes all-zero and other combined values, and cached strings). *)
Theorem short_is_prefix16 : forall (ops : list op) (rs : regs) (out : list obs) (i : nat),
  Forall wf_op ops -> m_run fixed ops = Some (rs, out) ->
  fst (getString fixed (getr rs i)) = firstn 16 (getFullString (h_h (getr rs i))).
Proof.
  intros ops rs out i W E. destruct (run_sim ops init_regs s_init init_rel W) as (rs' & out' & E' & (ss' & R') & _).
  unfold m_run in E. rewrite E' in E. assert (rs' = rs) by congruence. subst rs'.
  apply getString_fixed, (robj_get rs ss' i R').
Qed.
Print Assumptions short_is_prefix16.

(* ... and of the object returned by hash(ptr, bytes) *)
Theorem short_is_prefix16_of_hash : forall (bs : list Z) (x : hobj),
  hash_bytes fixed bs = Some x ->
  fst (getString fixed x) = firstn 16 (getFullString (h_h x)).
Proof.
  intros bs x E. unfold hash_bytes in E. destruct (hash_words_defined bs) as [r [Er [L I]]]. rewrite Er in E.
  assert (Ex : x = {| h_init := true; h_h := r; h_sh := zeros8; h_str := [] |}) by congruence.
  apply getString_fixed. rewrite Ex. unfold wf_obj. cbn [h_h h_sh h_str]. repeat split; auto.
Qed.
Print Assumptions short_is_prefix16_of_hash.

(* Every history runs without undefined behaviour, and everything it observes (short strings, full
   strings, fromString(getFullString) and its comparison with the original, ==, !=, <, getInt) is what the
   specification says; hash(bytes) and fromString of non-hexadecimal ASCII text are defined (their values
   are masked: the property does not fix them). *)
Theorem history_refines_spec : forall ops : list op,
  Forall wf_op ops ->
  exists out, run_now ops = Some out /\ map mask out = s_run ops.
Proof.
  intros ops W. destruct (run_sim ops init_regs s_init init_rel W) as (rs & out & E & _ & M).
  exists out. unfold run_now, m_run. rewrite E. split; [reflexivity | exact M].
Qed.
Print Assumptions history_refines_spec.

(* Hashing any byte string performs no undefined behaviour and yields 8 ints. *)
Theorem hash_no_ub : forall bs : list Z,
  exists h, hash_words fixed bs = Some h /\ length h = 8%nat /\ Forall i32 h.
Proof. exact Proofs.hash_words_defined. Qed.
Print Assumptions hash_no_ub.

(* the repaired multiplication is the wrapped signed product *)
Theorem hash_mul_is_wrapped_product : forall a b : Z,
  mul_int fixed a b = Some (to_i32 (a * b)).
Proof. exact Proofs.mul_fixed. Qed.
Print Assumptions hash_mul_is_wrapped_product.

(* so wherever the pinned code was defined the value is the same (and on two's complement hardware it is the
   value the pinned code produced) *)
Theorem hash_agrees_with_pinned_where_defined : forall (bs h : list Z),
  hash_words pinned bs = Some h -> hash_words fixed bs = Some h.
Proof.
  intros bs h. apply hash_loop_pinned_fixed.
Qed.
Print Assumptions hash_agrees_with_pinned_where_defined.

(* combining hashes: ints stay ints, and the result is the word-wise exclusive or *)
Theorem combine_no_ub : forall a b : list Z,
  length a = 8%nat -> length b = 8%nat ->
  length (xor_words a b) = 8%nat /\ Forall i32 (xor_words a b) /\
  map to_u32 (xor_words a b) = s_xor (map to_u32 a) (map to_u32 b).
Proof.
  intros a b La Lb. split; [rewrite xor_words_length; congruence |].
  split; [apply xor_words_i32 | apply xor_words_spec].
Qed.
Print Assumptions combine_no_ub.

(* hash(ptr, n) depends on the n bytes at ptr only: not on the address, not on other memory. *)
Theorem hash_deterministic : forall (v : variant) (mem1 : Z -> Z) (p1 : Z) (mem2 : Z -> Z) (p2 : Z) (n : nat),
  (forall i, (i < n)%nat -> mem1 (p1 + Z.of_nat i) = mem2 (p2 + Z.of_nat i)) ->
  hash_ptr v mem1 p1 n = hash_ptr v mem2 p2 n.
Proof.
  intros v mem1 p1 mem2 p2 n H. unfold hash_ptr. rewrite (read_mem_ext _ _ _ _ _ H). reflexivity.
Qed.
Print Assumptions hash_deterministic.

(* operator== decides equality of the values *)
Theorem eq_decides_equality : forall a b : list Z,
  length a = length b -> (words_eq a b = true <-> a = b).
Proof.
  intros a b L. split; [apply words_eq_true; exact L | intros ->; apply words_eq_refl].
Qed.
Print Assumptions eq_decides_equality.

(* fromString itself: no undefined behaviour on any string without characters >= 0x80 *)
Theorem fromString_no_ub_ascii : forall s : list Z,
  Forall (fun c => 0 <= c) s -> exists x, fromString s = Some x.
Proof. exact Proofs.fromString_ascii. Qed.
Print Assumptions fromString_no_ub_ascii.

(* ---- the pinned code (before the fixes) violates the property ------------------------------- *)

(* the all-zero hash: its short string is empty *)
Theorem zero_hash_short_refuted : exists (ops : list op) (rs : regs) (out : list obs) (i : nat),
  Forall wf_op ops /\ m_run pinned ops = Some (rs, out) /\
  fst (getString pinned (getr rs i)) <> firstn 16 (getFullString (h_h (getr rs i))).
Proof.
  exists [OInts 0 [0;0;0;0;0;0;0;0]], (setr init_regs 0 (assign pinned mk_default (mk_ints [0;0;0;0;0;0;0;0]))), [], 0%nat.
  split; [repeat constructor|]. split; [reflexivity|]. vm_compute. discriminate.
Qed.
Print Assumptions zero_hash_short_refuted.

(* a hash combined with itself after its short string was read: the short string of the OLD value *)
Theorem stale_short_refuted : exists (ops : list op) (s1 s2 : list Z),
  Forall wf_op ops /\
  run_pinned ops = Some [VShort s1; VShort s2] /\
  s_run ops = [VShort s1; VShort (s_short [0;0;0;0;0;0;0;0])] /\
  s2 = s1 /\ s2 <> s_short [0;0;0;0;0;0;0;0].
Proof.
  exists [OInts 0 [1;2;3;4;5;6;7;8]; OShort 0; OXor 0 0; OShort 0].
  eexists. eexists. split; [repeat constructor|].
  split; [vm_compute; reflexivity|]. split; [vm_compute; reflexivity|]. split; [reflexivity|].
  vm_compute. discriminate.
Qed.
Print Assumptions stale_short_refuted.

(* every non-empty input overflows `int` in the very first multiplication (101527 * 102679) *)
Theorem signed_overflow_refuted : forall (c : Z) (bs : list Z), hash_words pinned (c :: bs) = None.
Proof.
  intros c bs. reflexivity.
Qed.
Print Assumptions signed_overflow_refuted.

(* outside the statement of the property, recorded: fromString on a character >= 0x80 shifts a negative
   value left (string.hpp:232), undefined before C++20 *)
Example fromString_non_ascii_is_ub : fromString [-23; -23] = None.
Proof. reflexivity. Qed.

(* ---- non-vacuity --------------------------------------------------------------------------- *)
Definition sample_history : list op :=
  [OInts 0 [1;2;3;4;5;6;7;8]; OShort 0; OXor 0 0; OShort 0; OFull 0; ORound 0; OCmp 0 1;
   OFrom 2 [102;70;48;49]; OFull 2; OHash [97; -23]; OParse [122; 33]].

Example sample_history_wf : Forall wf_op sample_history.
Proof. repeat constructor; cbv; discriminate. Qed.

Example sample_history_runs :
  option_map (map mask) (run_now sample_history) = Some (s_run sample_history)
  /\ nth 1 (s_run sample_history) VHashM = VShort [48;48;48;48;48;48;48;48;48;48;48;48;48;48;48;48].
Proof.
  split; [| vm_compute; reflexivity].
  destruct (history_refines_spec _ sample_history_wf) as (out & -> & <-). reflexivity.
Qed.

Example hash_of_a_byte : hash_words fixed [97] =
  Some [1834756336; 1837400670; 1843697924; 1844312106; 1847387848; 1851058700; 1852287368; 1855560292].
Proof. vm_compute. reflexivity. Qed.

Example roundtrip_extremes :
  option_map h_h (fromString (getFullString [-1; -2147483648; 2147483647; 305419896; -305419896; 255; 256; -256]))
  = Some [-1; -2147483648; 2147483647; 305419896; -305419896; 255; 256; -256].
Proof. apply from_full_roundtrip; [reflexivity | repeat constructor]. Qed.
