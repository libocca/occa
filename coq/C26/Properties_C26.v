(* C26 — mode-specific properties override generic ones only for their mode.

   Vocabulary (Model.v / Spec.v):
     setup vr S U                  device::setup(U) with occa::settings() = S: Ok (mode, properties) | Err
     objectProperties dev o        dev.kernelProperties() / memoryProperties() / streamProperties()
     objectPropertiesWith dev o A  dev.kernelProperties(A) / ...
     fixed / pinned                the code after / before fixes/C26-1.patch and fixes/C26-2.patch
     probe j p                     what the tree j holds at path p: nothing, a leaf value, an object
     spec_device / spec_object / spec_with   the declarative lookup rule (Spec.v): per path, the answer of
                                   settings-layers `Over` user-layers, each  generic `Over` mode-specific
     spec_mode U                   the registered mode named by U["mode"] up to case, else Serial
     wf_setup / wf_with            every layer position holds an object or nothing
     wfT                           no duplicate keys (std::map)
     agree_off m' positions X X'   X and X' differ at most under <position>/modes/<m'>                     *)
From Coq Require Import List ZArith String Ascii Bool.
From OV.C26 Require Import Model Spec Proofs.
Import ListNotations.
Local Open Scope string_scope.
Local Open Scope list_scope.

(* (a) effective_lookup: on every input on which construction is defined, it succeeds with the
   registered mode, and the resulting property tree holds at EVERY path exactly what the
   layering rule says; likewise the three object property sets. *)
Theorem effective_lookup :
  forall (S U : tree),
    wfT S -> wfT U -> wf_setup (spec_mode U) S U = true ->
    exists props,
      setup fixed S U = Ok (spec_mode U, props) /\
      (forall p, probe (Some props) p = spec_device (spec_mode U) S U p) /\
      (forall o, is_object_key o = true ->
         forall p, probe (objectProperties (spec_mode U, props) o) p = spec_object (spec_mode U) o S U p).
Proof.
  intros S U WS WU Hwf. destruct (setup_ok S U WS WU Hwf) as (props & E & Hp).
  exists props. split; [assumption|]. split; [assumption|].
  intros o Ho p. unfold objectProperties. cbn [snd]. rewrite <- probe_cons, Hp.
  unfold spec_device. now rewrite Ho.
Qed.
Print Assumptions effective_lookup.

(* (a') the per-call variants: K overridden by A overridden by A/modes/<mode> *)
Theorem effective_lookup_additional :
  forall (S U : tree) (A : json) (dev : string * tree),
    wfT S -> wfT U -> wfj A -> setup fixed S U = Ok dev -> wf_with (fst dev) A = true ->
    forall o, is_object_key o = true ->
    exists r, objectPropertiesWith dev o A = Ok r /\
              forall p, probe r p = spec_with (fst dev) (objectProperties dev o) A p.
Proof.
  intros S U A dev WS WU WA E Hwf o Ho.
  destruct (setup_result S U dev WS WU E) as (props & -> & _ & Hk). destruct (Hk o Ho) as [kvs HK].
  apply with_ok; [apply single_key_canon | now rewrite HK | assumption | assumption].
Qed.
Print Assumptions effective_lookup_additional.

(* the functions throw exactly when a layer position holds a non-object *)
Theorem setup_defined_iff :
  forall (S U : tree), wfT S -> wfT U ->
    ((exists dev, setup fixed S U = Ok dev) <-> wf_setup (spec_mode U) S U = true).
Proof.
  intros S U WS WU. split.
  - intros [dev E]. exact (setup_defined S U dev E).
  - intros Hs. destruct (setup_ok S U WS WU Hs) as (props & E & _). eauto.
Qed.
Print Assumptions setup_defined_iff.

Theorem additional_defined_iff :
  forall (S U : tree) (A : json) (dev : string * tree) (o : key),
    wfT S -> wfT U -> wfj A -> setup fixed S U = Ok dev -> is_object_key o = true ->
    ((exists r, objectPropertiesWith dev o A = Ok r) <-> wf_with (fst dev) A = true).
Proof.
  intros S U A dev o WS WU WA E Ho. split.
  - intros [r Er]. destruct (setup_result S U dev WS WU E) as (props & -> & _ & Hk).
    destruct (Hk o Ho) as [kvs HK]. exact (with_defined _ _ _ _ _ _ (single_key_canon _) HK Er).
  - intros Hw. destruct (effective_lookup_additional S U A dev WS WU WA E Hw o Ho) as (r & Er & _). eauto.
Qed.
Print Assumptions additional_defined_iff.

(* the rule read as "first defined of ...": the layers in priority order *)
Example device_priority (M : key) (S U : tree) :
  priority (Over (object_layers M "device" S) (mode_layers M (Some U))) =
  [Sub (Some U) ["modes"; M]; Sub (Some U) [];
   Sub (Some S) ["modes"; M; "device"]; Sub (Some S) ["device"; "modes"; M]; Sub (Some S) ["device"]].
Proof. reflexivity. Qed.

Example object_priority (M o : key) (S U : tree) :
  priority (Over (object_layers M o S) (object_layers M o U)) =
  [Sub (Some U) ["modes"; M; o]; Sub (Some U) [o; "modes"; M]; Sub (Some U) [o];
   Sub (Some S) ["modes"; M; o]; Sub (Some S) [o; "modes"; M]; Sub (Some S) [o]].
Proof. reflexivity. Qed.

Theorem first_defined_decides :
  forall (l : lay) (p : path) (i : nat) (x : lay),
    nth_error (priority l) i = Some x ->
    (forall j y, j < i -> nth_error (priority l) j = Some y -> silent (lwalk y p)) ->
    hit (lwalk x p) ->
    lwalk l p = lwalk x p.
Proof. exact first_defined. Qed.
Print Assumptions first_defined_decides.

(* (b) other_modes_inert: whatever is changed under modes/<m'>, kernel/modes/<m'>, ... for a mode m'
   other than the device's, in the user properties, the settings and the additional properties:
   same exceptions, same mode, and every lookup in every result is unchanged. *)
Theorem other_modes_inert :
  forall (m' : key) (S S' U U' : tree) (A A' : json),
    wfT S -> wfT S' -> wfT U -> wfT U' -> wfj A -> wfj A' ->
    m' <> spec_mode U ->
    agree_off m' settings_positions (Some S) (Some S') ->
    agree_off m' user_positions (Some U) (Some U') ->
    agree_off m' additional_positions A A' ->
    match setup fixed S U, setup fixed S' U' with
    | Err, Err => True
    | Ok dev, Ok dev' =>
        fst dev = fst dev' /\
        (forall p, probe (Some (snd dev)) p = probe (Some (snd dev')) p) /\
        (forall o, is_object_key o = true ->
           match objectPropertiesWith dev o A, objectPropertiesWith dev' o A' with
           | Err, Err => True
           | Ok r, Ok r' => forall p, probe r p = probe r' p
           | _, _ => False
           end)
    | _, _ => False
    end.
Proof.
  intros m' S S' U U' A A' WS WS' WU WU' WA WA' Hm HS HU HA.
  pose proof (spec_mode_agree m' U U' HU) as EM.
  set (M := spec_mode U) in *. assert (HM : M <> m') by congruence.
  pose proof (wf_setup_agree M m' HM S S' U U' HS HU) as Ewf.
  destruct (wf_setup M S U) eqn:Hs.
  - destruct (effective_lookup S U WS WU Hs) as (props & E & Hp & Hk).
    assert (Hs' : wf_setup (spec_mode U') S' U' = true) by (rewrite <- EM; congruence).
    destruct (effective_lookup S' U' WS' WU' Hs') as (props' & E' & Hp' & Hk').
    fold M in E, Hp, Hk. rewrite <- EM in E', Hp', Hk'. rewrite E, E'. cbn [fst snd].
    split; [reflexivity|]. split.
    + intros p. rewrite Hp, Hp'. now apply (spec_device_agree M m' HM).
    + intros o Ho.
      assert (HK : forall q, probe (objectProperties (M, props) o) q = probe (objectProperties (M, props') o) q).
      { intros q. rewrite Hk, Hk' by assumption. apply (spec_object_agree M m' HM); auto.
        intros ->. discriminate Ho. }
      pose proof (wf_with_agree M m' HM A A' HA) as Eww.
      pose proof (additional_defined_iff S U A _ o WS WU WA E Ho) as D.
      pose proof (additional_defined_iff S' U' A' _ o WS' WU' WA' E' Ho) as D'. cbn [fst] in D, D'.
      rewrite <- Eww in D'. destruct (wf_with M A) eqn:Hw.
      * destruct (effective_lookup_additional S U A _ WS WU WA E Hw o Ho) as (r & -> & Hr).
        destruct (effective_lookup_additional S' U' A' _ WS' WU' WA' E' (eq_sym Eww) o Ho) as (r' & -> & Hr').
        intros p. rewrite Hr, Hr'. now apply (spec_with_agree M m' HM).
      * destruct (objectPropertiesWith (M, props) o A) as [r|] eqn:Er;
          [discriminate (proj1 D (ex_intro _ r eq_refl))|].
        destruct (objectPropertiesWith (M, props') o A') as [r'|] eqn:Er';
          [discriminate (proj1 D' (ex_intro _ r' eq_refl)) | exact I].
  - destruct (setup fixed S U) as [dev|] eqn:E;
      [pose proof (setup_defined _ _ _ E) as D; fold M in D; congruence|].
    destruct (setup fixed S' U') as [dev'|] eqn:E'; [|exact I].
    pose proof (setup_defined _ _ _ E') as D. rewrite <- EM in D. congruence.
Qed.
Print Assumptions other_modes_inert.

(* (c) no_modes_key_in_result *)
Theorem no_modes_key_in_result :
  forall (S U : tree) (A : json) (dev : string * tree),
    wfT S -> wfT U -> wfj A -> setup fixed S U = Ok dev ->
    probe (Some (snd dev)) ["modes"] = ANone /\
    (forall o, is_object_key o = true ->
       probe (objectProperties dev o) ["modes"] = ANone /\
       (forall r, objectPropertiesWith dev o A = Ok r -> probe r ["modes"] = ANone)).
Proof.
  intros S U A dev WS WU WA E.
  destruct (setup_result S U dev WS WU E) as (props & -> & Hp & _). cbn [fst snd].
  split; [now rewrite Hp|]. intros o Ho.
  assert (HK : probe (objectProperties (spec_mode U, props) o) ["modes"] = ANone).
  { unfold objectProperties. cbn [snd]. rewrite <- probe_cons, Hp. unfold spec_device. now rewrite Ho. }
  split; [assumption|]. intros r Er.
  pose proof (proj1 (additional_defined_iff S U A _ o WS WU WA E Ho) (ex_intro _ r Er)) as Hw.
  destruct (effective_lookup_additional S U A _ WS WU WA E Hw o Ho) as (r' & Er' & Hr').
  rewrite Er' in Er. injection Er as <-. rewrite Hr'. cbn [fst].
  now apply spec_with_modes.
Qed.
Print Assumptions no_modes_key_in_result.

(* non-vacuity: overlapping keys at every layer, both modes present *)
Definition n (z : Z) : tree := Leaf (VNum z).
Definition exU : tree :=
  Obj [("mode", Leaf (VStr "openmp"));
       ("a", n 1); ("b", Obj [("x", n 2)]);
       ("modes", Obj [("OpenMP", Obj [("a", n 3); ("kernel", Obj [("a", n 4)])]);
                      ("Serial", Obj [("a", n 5); ("kernel", Obj [("a", n 6)])])]);
       ("kernel", Obj [("a", n 7); ("c", n 8);
                       ("modes", Obj [("OpenMP", Obj [("a", n 9); ("c", n 10)]); ("Serial", Obj [("c", n 11)])])])].
Definition exS : tree :=
  Obj [("device", Obj [("a", n 20); ("d", n 21); ("b", n 22);
                       ("modes", Obj [("OpenMP", Obj [("d", n 23)]); ("Serial", Obj [("d", n 24)])])]);
       ("kernel", Obj [("a", n 25); ("e", n 26)]);
       ("modes", Obj [("OpenMP", Obj [("kernel", Obj [("e", n 27)]); ("device", Obj [("f", n 28)])])])].
Definition exA : json :=
  Some (Obj [("c", n 30); ("g", n 31);
             ("modes", Obj [("OpenMP", Obj [("g", n 32)]); ("Serial", Obj [("g", n 33)])])]).

Example ex_hypotheses :
  wfT exS /\ wfT exU /\ wfj exA /\ spec_mode exU = "OpenMP" /\
  wf_setup "OpenMP" exS exU = true /\ wf_with "OpenMP" exA = true.
Proof.
  split; [apply wfb_sound; reflexivity|]. split; [apply wfb_sound; reflexivity|].
  split; [apply wfb_sound; reflexivity|]. repeat split.
Qed.

Example ex_results :
  exists props,
    setup fixed exS exU = Ok ("OpenMP", props) /\
    probe (Some props) ["a"] = ALeaf (VNum 3) /\            (* user modes/OpenMP over user generic over settings *)
    probe (Some props) ["b"; "x"] = ALeaf (VNum 2) /\       (* user object replaces the settings' leaf *)
    probe (Some props) ["d"] = ALeaf (VNum 23) /\           (* settings device/modes/OpenMP over device *)
    probe (Some props) ["f"] = ALeaf (VNum 28) /\
    probe (Some props) ["kernel"; "a"] = ALeaf (VNum 4) /\  (* modes/OpenMP/kernel over kernel/modes/OpenMP over kernel *)
    probe (Some props) ["kernel"; "c"] = ALeaf (VNum 10) /\
    probe (Some props) ["kernel"; "e"] = ALeaf (VNum 27) /\
    probe (Some props) ["kernel"; "mode"] = ALeaf (VStr "OpenMP") /\
    probe (Some props) ["modes"] = ANone /\
    exists r, objectPropertiesWith ("OpenMP", props) "kernel" exA = Ok r /\
              probe r ["c"] = ALeaf (VNum 30) /\ probe r ["g"] = ALeaf (VNum 32) /\ probe r ["a"] = ALeaf (VNum 4).
Proof. vm_compute. eexists. repeat split. eexists. repeat split. Qed.

(* the code as found (variant pinned) violates (a), (b) and, through the nested remove, drops a generic entry *)

(* mode: "serial" selects the Serial mode (modes are matched case-insensitively), but modes/Serial
   is not applied *)
Theorem pinned_mode_spelling_refuted :
  exists (S U : tree) (props : tree) (p : path),
    wfT S /\ wfT U /\ wf_setup (spec_mode U) S U = true /\
    setup pinned S U = Ok (spec_mode U, props) /\
    probe (Some props) p <> spec_device (spec_mode U) S U p.
Proof.
  exists (Obj []), (Obj [("mode", Leaf (VStr "serial")); ("a", n 1); ("modes", Obj [("Serial", Obj [("a", n 2)])])]).
  eexists. exists ["a"].
  split; [apply wfb_sound; reflexivity|]. split; [apply wfb_sound; reflexivity|].
  split; [reflexivity|]. split; [vm_compute; reflexivity|]. vm_compute. discriminate.
Qed.
Print Assumptions pinned_mode_spelling_refuted.

(* no "mode": the device is Serial, but "modes/" + "" addresses the whole modes object, whose
   entries become top-level properties: entries of other modes take effect *)
Theorem pinned_absent_mode_refuted :
  exists (S U U' : tree) (props props' : tree) (p : path),
    wfT S /\ wfT U /\ wfT U' /\ "OpenMP" <> spec_mode U /\
    agree_off "OpenMP" user_positions (Some U) (Some U') /\
    setup pinned S U = Ok (spec_mode U, props) /\
    setup pinned S U' = Ok (spec_mode U', props') /\
    probe (Some props) p <> probe (Some props') p.
Proof.
  exists (Obj []), (Obj [("modes", Obj [("OpenMP", Obj [("a", n 3)])])]),
         (Obj [("modes", Obj [("OpenMP", Obj [("a", n 4)])])]).
  eexists. eexists. exists ["OpenMP"; "a"].
  split; [apply wfb_sound; reflexivity|]. split; [apply wfb_sound; reflexivity|].
  split; [apply wfb_sound; reflexivity|]. split; [vm_compute; discriminate|].
  split.
  - (* the two trees differ only below modes/OpenMP *)
    intros p H. destruct p as [|k p]; [reflexivity|].
    cbn [probe tget alookup]. seqb k "modes"; [subst k | reflexivity].
    destruct p as [|k2 p]; [reflexivity|].
    cbn [tget alookup]. seqb k2 "OpenMP"; [subst k2 | reflexivity].
    vm_compute in H. discriminate.
  - split; [vm_compute; reflexivity|]. split; [vm_compute; reflexivity|]. vm_compute. discriminate.
Qed.
Print Assumptions pinned_absent_mode_refuted.

(* getObjectSpecificProps removes "<object>/modes" from the already extracted object: the generic
   entry kernel/kernel/modes is lost *)
Theorem pinned_nested_modes_refuted :
  exists (S U : tree) (props : tree) (p : path),
    wfT S /\ wfT U /\ wf_setup (spec_mode U) S U = true /\
    setup pinned S U = Ok (spec_mode U, props) /\
    probe (Some props) p <> spec_device (spec_mode U) S U p.
Proof.
  exists (Obj []), (Obj [("mode", Leaf (VStr "Serial")); ("kernel", Obj [("kernel", Obj [("modes", n 1); ("x", n 2)])])]).
  eexists. exists ["kernel"; "kernel"; "modes"].
  split; [apply wfb_sound; reflexivity|]. split; [apply wfb_sound; reflexivity|].
  split; [reflexivity|]. split; [vm_compute; reflexivity|]. vm_compute. discriminate.
Qed.
Print Assumptions pinned_nested_modes_refuted.
