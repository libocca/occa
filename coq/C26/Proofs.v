(* C26 — the algebra of walks under the model's tree operations (association lists, merge, remove,
   sub-tree access, path strings); the layering of device.cpp (variant `fixed`): every function
   (MSP = getModeSpecificProps, OSP = getObjectSpecificProps, IOP = initialObjectProps, setup, with =
   objectPropertiesWith) returns, on well-formed inputs, a tree whose walk/probe at each path is the
   one Spec.v names (`*_ok`), and returns on no other input (`*_defined`); and the inertness of other
   modes' entries: the specification consults its inputs only at paths that are not under
   <position>/modes/<m'> for m' different from the device's mode (`*_agree`). *)
From Coq Require Import List ZArith String Ascii Bool Arith Lia Permutation.
From OV.C26 Require Import Model Spec.
Import ListNotations.
Local Open Scope string_scope.
Local Open Scope list_scope.
Local Open Scope nat_scope.

(* case analysis on String.eqb k k'; the equation is also given as k = k' or k <> k' *)
Ltac seqb k k' :=
  let H := fresh "E" in
  destruct (String.eqb k k') eqn:H;
  [ apply String.eqb_eq in H | pose proof (proj1 (String.eqb_neq _ _) H) ].

Notation keys l := (map fst l) (only parsing).

Lemma alookup_aset k k' v l :
  alookup k' (aset k v l) = if String.eqb k' k then Some v else alookup k' l.
Proof.
  induction l as [|[k0 v0] l IH]; cbn; [reflexivity|].
  seqb k k0; cbn.
  - subst k0. now destruct (String.eqb k' k).
  - rewrite IH. seqb k' k0; [subst k0 | reflexivity]. now rewrite String.eqb_sym, E.
Qed.

Lemma alookup_aset_same k v l : alookup k (aset k v l) = Some v.
Proof. now rewrite alookup_aset, String.eqb_refl. Qed.

Lemma alookup_aremove k k' l :
  alookup k' (aremove k l) = if String.eqb k' k then None else alookup k' l.
Proof.
  induction l as [|[k0 v0] l IH]; cbn; [now destruct (String.eqb k' k)|].
  seqb k k0; cbn; rewrite IH.
  - subst k0. now destruct (String.eqb k' k).
  - seqb k' k0; [subst k0 | reflexivity]. now rewrite String.eqb_sym, E.
Qed.

Lemma alookup_In k v l : alookup k l = Some v -> In (k, v) l.
Proof.
  induction l as [|[k0 v0] l IH]; cbn; [discriminate|].
  seqb k k0; [subst; intros [= ->]; now left | intros Hl; right; auto].
Qed.

Lemma alookup_None k l : ~ In k (keys l) -> alookup k l = None.
Proof.
  induction l as [|[k0 v0] l IH]; cbn; auto.
  intros N. seqb k k0; [subst; tauto | apply IH; tauto].
Qed.

Lemma keys_aset k v l :
  keys (aset k v l) = if existsb (String.eqb k) (keys l) then keys l else keys l ++ [k].
Proof.
  induction l as [|[k0 v0] l IH]; cbn; auto.
  seqb k k0; cbn; [now subst|]. rewrite IH. now destruct (existsb (String.eqb k) (keys l)).
Qed.

Lemma existsb_eqb_In k l : existsb (String.eqb k) l = true <-> In k l.
Proof.
  rewrite existsb_exists. split.
  - intros (x & Hx & E). apply String.eqb_eq in E. now subst.
  - intros H. exists k. split; auto. apply String.eqb_refl.
Qed.

Lemma NoDup_keys_aset k v l : NoDup (keys l) -> NoDup (keys (aset k v l)).
Proof.
  intros H. rewrite keys_aset.
  destruct (existsb (String.eqb k) (keys l)) eqn:E; auto.
  apply (Permutation_NoDup (Permutation_cons_append _ _)). constructor; auto.
  intros HIn. apply existsb_eqb_In in HIn. congruence.
Qed.

Lemma In_aset kv k v l : In kv (aset k v l) -> kv = (k, v) \/ In kv l.
Proof.
  induction l as [|[k0 v0] l IH]; cbn.
  - intros [<-|[]]. now left.
  - destruct (String.eqb k k0); cbn.
    + intros [<-|H]; auto.
    + intros [<-|H]; auto. destruct (IH H); auto.
Qed.

Lemma aremove_filter k l : aremove k l = filter (fun kv => negb (String.eqb k (fst kv))) l.
Proof.
  induction l as [|[k0 v0] l IH]; cbn; auto. destruct (String.eqb k k0); cbn; now rewrite IH.
Qed.

Lemma NoDup_keys_filter (p : key * tree -> bool) l : NoDup (keys l) -> NoDup (keys (filter p l)).
Proof.
  induction l as [|kv l IH]; cbn; auto. intros H. inversion H as [|? ? N H']; subst.
  destruct (p kv); cbn; auto. constructor; auto.
  rewrite in_map_iff in *. intros (y & E & Hy). apply filter_In in Hy. apply N. exists y. tauto.
Qed.

Section TreeInd.
  Variable P : tree -> Prop.
  Hypothesis HL : forall v, P (Leaf v).
  Hypothesis HO : forall kvs, Forall (fun kv => P (snd kv)) kvs -> P (Obj kvs).
  Fixpoint tree_ind2 (t : tree) : P t :=
    match t with
    | Leaf v => HL v
    | Obj kvs =>
        HO kvs ((fix go (l : list (key * tree)) : Forall (fun kv => P (snd kv)) l :=
                  match l with
                  | [] => Forall_nil _
                  | kv :: l' => Forall_cons kv (tree_ind2 (snd kv)) (go l')
                  end) kvs)
    end.
End TreeInd.

Lemma wfT_obj kvs : wfT (Obj kvs) <-> NoDup (keys kvs) /\ Forall (fun kv => wfT (snd kv)) kvs.
Proof.
  cbn [wfT]. split; intros [H1 H2]; split; auto.
  - induction kvs as [|kv l IH]; constructor; try tauto.
    apply IH; try tauto. now inversion H1.
  - clear H1. induction H2; auto.
Qed.

Fixpoint nodupb (l : list key) : bool :=
  match l with [] => true | k :: l' => negb (existsb (String.eqb k) l') && nodupb l' end.
Fixpoint wfb (t : tree) : bool :=
  match t with
  | Leaf _ => true
  | Obj kvs =>
      nodupb (keys kvs) &&
      (fix all (l : list (key * tree)) : bool :=
         match l with [] => true | kv :: l' => wfb (snd kv) && all l' end) kvs
  end.

Lemma nodupb_sound l : nodupb l = true -> NoDup l.
Proof.
  induction l as [|k l IH]; cbn; [constructor|].
  rewrite andb_true_iff, negb_true_iff. intros [H1 H2]. constructor; auto.
  intros HIn. apply existsb_eqb_In in HIn. congruence.
Qed.

Lemma wfb_sound t : wfb t = true -> wfT t.
Proof.
  induction t as [v|kvs IH] using tree_ind2; [cbn; auto|].
  intros H. apply wfT_obj. cbn [wfb] in H. apply andb_true_iff in H. destruct H as [H1 H2].
  split; [now apply nodupb_sound|].
  induction IH as [|kv l Hkv _ IHl]; constructor.
  - apply andb_true_iff in H2. tauto.
  - apply IHl.
    + cbn in H1. apply andb_true_iff in H1. tauto.
    + apply andb_true_iff in H2. tauto.
Qed.

Lemma wfj_alookup k kvs : wfT (Obj kvs) -> wfj (alookup k kvs).
Proof.
  intros H. apply wfT_obj in H as [_ H]. destruct (alookup k kvs) as [c|] eqn:E; [|exact I].
  apply alookup_In in E. rewrite Forall_forall in H. apply (H _ E).
Qed.

Lemma wfT_tget t p : wfT t -> wfj (tget t p).
Proof.
  revert t. induction p as [|k p IH]; intros t H; cbn; auto.
  destruct t as [v|kvs]; cbn; auto.
  pose proof (wfj_alookup k kvs H). destruct (alookup k kvs); cbn; auto.
Qed.

Lemma wfT_aset k v kvs : wfT (Obj kvs) -> wfT v -> wfT (Obj (aset k v kvs)).
Proof.
  rewrite !wfT_obj, !Forall_forall. intros [H1 H2] Hv. split; [now apply NoDup_keys_aset|].
  intros kv HIn. apply In_aset in HIn as [->|HIn]; auto.
Qed.

Lemma wfT_aremove k kvs : wfT (Obj kvs) -> wfT (Obj (aremove k kvs)).
Proof.
  rewrite aremove_filter, !wfT_obj, !Forall_forall. intros [H1 H2]. split.
  - now apply NoDup_keys_filter.
  - intros kv HIn. apply filter_In in HIn. now apply H2.
Qed.

Definition jwalk (j : json) (p : path) : wres :=
  match j with None => Silent 0 | Some t => walk t p end.

Lemma probe_answer j p : probe j p = answer (jwalk j p).
Proof.
  destruct j as [t|]; cbn; auto.
  revert t. induction p as [|k p IH]; intros t; cbn.
  - now destruct t.
  - destruct t as [v|kvs]; cbn; auto.
    destruct (alookup k kvs) as [c|]; cbn; auto.
    rewrite IH. now destruct (walk c p).
Qed.

Lemma combine_deeper a b : combine (deeper a) (deeper b) = deeper (combine a b).
Proof.
  destruct b; cbn; auto. destruct a; cbn; auto.
  destruct (d0 <=? d) eqn:E; cbn; auto.
Qed.

Lemma deeper_not_blocked0 w : deeper w <> Blocked 0.
Proof. destruct w; cbn; congruence. Qed.

Lemma walk_obj_not_blocked0 kvs p : walk (Obj kvs) p <> Blocked 0.
Proof.
  destruct p as [|k p]; cbn; [congruence|].
  destruct (alookup k kvs); [apply deeper_not_blocked0|congruence].
Qed.

Lemma combine_silent0_r a : a <> Blocked 0 -> combine a (Silent 0) = a.
Proof.
  destruct a; cbn; auto.
  destruct d; cbn; congruence.
Qed.

Lemma combine_silent0_l b : combine (Silent 0) b = b.
Proof. destruct b; cbn; auto. now rewrite Nat.max_0_r. Qed.

Lemma alookup_merge_kvs f b : forall a k,
  NoDup (keys b) ->
  alookup k (merge_kvs_with f b a) =
  match alookup k b with Some x => Some (f (alookup k a) x) | None => alookup k a end.
Proof.
  induction b as [|[k0 x0] b IH]; intros a k ND; cbn; auto.
  inversion ND as [|? ? N ND']; subst.
  rewrite IH by assumption.
  seqb k k0.
  - subst k0. now rewrite (alookup_None k b), alookup_aset_same.
  - now rewrite alookup_aset, E.
Qed.

Lemma combine_leaf_l va xb p : combine (walk (Leaf va) p) (walk (Obj xb) p) = walk (Obj xb) p.
Proof.
  destruct p as [|k p]; [reflexivity|].
  cbn [walk]. destruct (alookup k xb); cbn; auto.
  destruct (deeper (walk t p)); cbn; auto.
Qed.

Lemma combine_leaf_r v p a : combine a (deeper (walk (Leaf v) p)) = deeper (walk (Leaf v) p).
Proof. destruct p; reflexivity. Qed.

Lemma walk_merge_kvs kb :
  wfT (Obj kb) -> forall ka p, walk (Obj (merge_kvs kb ka)) p = combine (walk (Obj ka) p) (walk (Obj kb) p).
Proof.
  (* by induction on the tree `Obj kb`, whose children are the right operands of the nested merges *)
  enough (H : forall b, wfT b -> match b with
                                 | Leaf _ => True
                                 | Obj kb => forall ka p, walk (Obj (merge_kvs kb ka)) p
                                                          = combine (walk (Obj ka) p) (walk b p)
                                 end) by exact (H (Obj kb)).
  clear kb. intros b. induction b as [v|kb IH] using tree_ind2; auto.
  intros WF ka p. destruct p as [|k p]; [reflexivity|].
  cbn [walk]. unfold merge_kvs. pose proof WF as WF'. apply wfT_obj in WF'. destruct WF' as [ND WFc].
  rewrite alookup_merge_kvs by assumption.
  destruct (alookup k kb) as [x|] eqn:Ex.
  - assert (HIn : In (k, x) kb) by now apply alookup_In.
    rewrite Forall_forall in IH, WFc.
    specialize (IH _ HIn). specialize (WFc _ HIn). cbn [snd] in IH, WFc. specialize (IH WFc).
    destruct x as [v|xb].
    + cbn [tmerge]. now rewrite combine_leaf_r.
    + cbn [tmerge]. destruct (alookup k ka) as [[va|xa]|] eqn:Ea.
      * (* a leaf of the left operand is replaced by the object *)
        rewrite combine_deeper. now rewrite combine_leaf_l.
      * fold (merge_kvs xb xa). rewrite IH. now rewrite combine_deeper.
      * now rewrite combine_silent0_l.
  - rewrite combine_silent0_r; auto.
    destruct (alookup k ka); [apply deeper_not_blocked0|congruence].
Qed.

Lemma merge_kvs_inv (Q : list (key * tree) -> Prop) f b : forall a,
  Q a -> (forall k x a', In (k, x) b -> Q a' -> Q (aset k (f (alookup k a') x) a')) ->
  Q (merge_kvs_with f b a).
Proof.
  induction b as [|[k x] b IH]; intros a Ha Hstep; cbn; auto.
  apply IH; [apply Hstep; [now left | assumption] | intros k' x' a' Hin; apply Hstep; now right].
Qed.

Lemma wfT_tmerge b : wfT b -> forall old, wfj old -> wfT (tmerge old b).
Proof.
  induction b as [v|kb IH] using tree_ind2; intros WF old Hold; [exact I|].
  cbn [tmerge]. destruct old as [[va|ka]|]; auto.
  apply wfT_obj in WF as [_ Fb]. rewrite Forall_forall in IH, Fb.
  apply (merge_kvs_inv (fun a => wfT (Obj a))); [assumption|].
  intros k x a' Hin Ha'. apply wfT_aset; [assumption|].
  exact (IH _ Hin (Fb _ Hin) _ (wfj_alookup k a' Ha')).
Qed.

Lemma objnone_cases j : objnone j = true -> j = None \/ exists kvs, j = Some (Obj kvs).
Proof. destruct j as [[v|kvs]|]; cbn; try discriminate; eauto. Qed.

Lemma jadd_ok a b :
  objnone a = true -> objnone b = true -> wfj b ->
  exists r, jadd a b = Ok r /\ objnone r = true /\
            (forall p, jwalk r p = combine (jwalk a p) (jwalk b p)) /\
            (wfj a -> wfj r).
Proof.
  intros Ha Hb WFb.
  destruct (objnone_cases _ Hb) as [->|[kb ->]].
  - exists a. split; [reflexivity|]. split; [assumption|]. split; [|tauto].
    intros p. destruct (objnone_cases _ Ha) as [->|[ka ->]]; cbn; auto.
    symmetry. apply combine_silent0_r. apply walk_obj_not_blocked0.
  - destruct (objnone_cases _ Ha) as [->|[ka ->]].
    + exists (Some (Obj (merge_kvs kb []))). split; [reflexivity|]. split; [reflexivity|]. split.
      * intros p. cbn [jwalk]. rewrite (walk_merge_kvs kb WFb).
        destruct p; cbn; auto.
      * intros _. apply (wfT_tmerge (Obj kb) WFb (Some (Obj []))). apply wfT_obj. split; constructor.
    + exists (Some (Obj (merge_kvs kb ka))). split; [reflexivity|]. split; [reflexivity|]. split.
      * intros p. cbn [jwalk]. apply (walk_merge_kvs kb WFb).
      * intros WFa. apply (wfT_tmerge (Obj kb) WFb (Some (Obj ka))). exact WFa.
Qed.

Lemma jwalk_remove1 j k p :
  objnone j = true -> jwalk (option_map (tremove [k]) j) p = hide k p (jwalk j p).
Proof.
  intros H. destruct (objnone_cases _ H) as [->|[kvs ->]]; cbn.
  - destruct p as [|k0 p]; cbn; auto. now destruct (String.eqb k0 k).
  - destruct p as [|k' p]; cbn; auto.
    rewrite alookup_aremove. now destruct (String.eqb k' k).
Qed.

Lemma objnone_remove1 j k : objnone (option_map (tremove [k]) j) = objnone j.
Proof. destruct j as [[v|kvs]|]; reflexivity. Qed.

Lemma wfj_remove1 j k : wfj j -> wfj (option_map (tremove [k]) j).
Proof. destruct j as [[v|kvs]|]; cbn [option_map wfj tremove]; auto. apply wfT_aremove. Qed.

Lemma hide_combine k p a b : combine (hide k p a) (hide k p b) = hide k p (combine a b).
Proof. destruct p as [|k' p]; cbn; auto. now destruct (String.eqb k' k). Qed.

Lemma rebase_deeper n w : rebase (S n) (deeper w) = rebase n w.
Proof.
  destruct w; cbn [deeper rebase]; auto.
Qed.

Lemma rebase_0 w : rebase 0 w = w.
Proof. destruct w; cbn; auto; now rewrite Nat.sub_0_r. Qed.

Lemma walk_sub t q p :
  jwalk (tget t q) p = rebase (List.length q) (walk t (q ++ p)).
Proof.
  revert t. induction q as [|k q IH]; intros t.
  - cbn. now rewrite rebase_0.
  - cbn [tget app List.length walk]. destruct t as [v|kvs]; [reflexivity|].
    destruct (alookup k kvs) as [c|]; [|reflexivity].
    rewrite IH. now rewrite rebase_deeper.
Qed.

Definition jsub (j : json) (q : path) : json :=
  match j with None => None | Some t => tget t q end.

Lemma jsub_nil j : jsub j [] = j.
Proof. destruct j; reflexivity. Qed.

Lemma jwalk_jsub j q p : jwalk (jsub j q) p = rebase (List.length q) (jwalk j (q ++ p)).
Proof. destruct j as [t|]; [apply walk_sub | reflexivity]. Qed.

Lemma lwalk_Sub j q p : lwalk (Sub j q) p = jwalk (jsub j q) p.
Proof. destruct j as [t|]; cbn [lwalk jsub jwalk]; [now rewrite walk_sub | reflexivity]. Qed.

Lemma lwalk_Over lo hi p : lwalk (Over lo hi) p = combine (lwalk lo p) (lwalk hi p).
Proof. reflexivity. Qed.

Fixpoint noslash (s : string) : bool :=
  match s with
  | EmptyString => true
  | String c r => negb (Ascii.eqb c slash) && noslash r
  end.

Lemma split_path_noslash s : noslash s = true -> s <> EmptyString -> split_path s = [s].
Proof.
  induction s as [|c r IH]; [congruence|].
  cbn. rewrite andb_true_iff, negb_true_iff. intros [Hc Hr] _. rewrite Hc.
  destruct r as [|c' r'].
  - reflexivity.
  - rewrite IH; auto. congruence.
Qed.

Lemma split_path_cat a b :
  noslash a = true -> split_path (a ++ String slash b)%string = a :: split_path b.
Proof.
  induction a as [|c r IH]; intros H.
  - cbn. reflexivity.
  - cbn in H. apply andb_true_iff in H. destruct H as [Hc Hr]. apply negb_true_iff in Hc.
    cbn [append split_path]. rewrite Hc, IH by assumption. reflexivity.
Qed.

Definition single_key (s : string) : Prop := noslash s = true /\ s <> EmptyString.

Lemma split_modes_M M : single_key M -> split_path ("modes/" ++ M)%string = ["modes"; M].
Proof.
  intros [H1 H2]. change ("modes/" ++ M)%string with ("modes" ++ String slash M)%string.
  rewrite split_path_cat by reflexivity. now rewrite split_path_noslash.
Qed.

Lemma split_o_modes_M o M : single_key o -> single_key M -> split_path (o ++ "/modes/" ++ M)%string = [o; "modes"; M].
Proof.
  intros [Ho _] HM.
  change (o ++ "/modes/" ++ M)%string with (o ++ String slash ("modes/" ++ M))%string.
  rewrite split_path_cat by assumption. now rewrite split_modes_M.
Qed.

Lemma split_modes_M_o o M : single_key o -> single_key M -> split_path ("modes/" ++ M ++ "/" ++ o)%string = ["modes"; M; o].
Proof.
  intros [Ho Ho'] [HM _].
  change ("modes/" ++ M ++ "/" ++ o)%string with ("modes" ++ String slash (M ++ String slash o))%string.
  rewrite split_path_cat by reflexivity. rewrite split_path_cat by assumption.
  now rewrite split_path_noslash.
Qed.

Lemma split_single_key o : single_key o -> split_path o = [o].
Proof. intros [H1 H2]. now apply split_path_noslash. Qed.

Lemma canon_cases s : canon s = "Serial" \/ canon s = "OpenMP".
Proof.
  unfold canon. destruct (String.eqb (lowercase s) "serial"); auto.
  destruct (String.eqb (lowercase s) "openmp"); auto.
Qed.

Lemma single_key_canon s : single_key (canon s).
Proof. destruct (canon_cases s) as [-> | ->]; split; cbn; congruence. Qed.

Lemma canon_idem s : canon (canon s) = canon s.
Proof. destruct (canon_cases s) as [-> | ->]; reflexivity. Qed.

Lemma all_silent l p : (forall y, In y (priority l) -> silent (lwalk y p)) -> silent (lwalk l p).
Proof.
  induction l as [X q|lo IHlo hi IHhi]; intros H.
  - apply H. now left.
  - cbn [priority] in H. cbn [lwalk].
    destruct IHlo as [d' ->]; [intros y Hy; apply H, in_app_iff; auto|].
    destruct IHhi as [d ->]; [intros y Hy; apply H, in_app_iff; auto|].
    cbn. eexists; reflexivity.
Qed.

Lemma first_defined l p : forall i x,
  nth_error (priority l) i = Some x ->
  (forall j y, j < i -> nth_error (priority l) j = Some y -> silent (lwalk y p)) ->
  hit (lwalk x p) ->
  lwalk l p = lwalk x p.
Proof.
  induction l as [X q|lo IHlo hi IHhi]; intros i x Hn Hs Hh.
  - destruct i; cbn in Hn; [now injection Hn as <-|]. destruct i; discriminate.
  - cbn [priority] in Hn, Hs. cbn [lwalk].
    destruct (Nat.lt_ge_cases i (List.length (priority hi))) as [Hi|Hi].
    + rewrite nth_error_app1 in Hn by assumption.
      rewrite (IHhi i x Hn); auto.
      * destruct Hh as [->|[v ->]]; reflexivity.
      * intros j y Hj Hy. apply (Hs j y Hj). rewrite nth_error_app1; auto. lia.
    + rewrite nth_error_app2 in Hn by assumption.
      assert (Hsil : silent (lwalk hi p)).
      { apply all_silent. intros y Hy. apply In_nth_error in Hy. destruct Hy as [j Hj].
        assert (j < List.length (priority hi)) by (apply nth_error_Some; congruence).
        apply (Hs j y); [lia|]. rewrite nth_error_app1; auto. }
      rewrite (IHlo _ x Hn); auto.
      * destruct Hsil as [d ->]. destruct Hh as [->|[v ->]]; reflexivity.
      * intros j y Hj Hy. apply (Hs (List.length (priority hi) + j) y); [lia|].
        rewrite nth_error_app2 by lia. now replace (List.length (priority hi) + j - List.length (priority hi)) with j by lia.
Qed.

Lemma jget_split j s : jget j s = jsub j (split_path s).
Proof. reflexivity. Qed.

Lemma probe_jsub j q :
  probe j q = match jsub j q with None => ANone | Some (Leaf v) => ALeaf v | Some (Obj _) => AObj end.
Proof. destruct j; reflexivity. Qed.

Lemma wfj_jsub j q : wfj j -> wfj (jsub j q).
Proof. destruct j as [t|]; cbn; auto. apply wfT_tget. Qed.

Lemma jremove_modes j : jremove j "modes" = option_map (tremove ["modes"]) j.
Proof. destruct j; reflexivity. Qed.

Notation hidem := (hide "modes").

Lemma MSP_eq M X :
  single_key M ->
  getModeSpecificProps M X = (r <- jadd X (jsub X ["modes"; M]) ;; Ok (jremove r "modes")).
Proof. intros HM. unfold getModeSpecificProps. now rewrite jget_split, split_modes_M. Qed.

Lemma MSP_ok M X :
  single_key M -> objnone X = true -> wfj X -> objnone (jsub X ["modes"; M]) = true ->
  exists r, getModeSpecificProps M X = Ok r /\ objnone r = true /\ wfj r /\
            (forall p, jwalk r p = hidem p (lwalk (mode_layers M X) p)).
Proof.
  intros HM HX WF Hsub. rewrite MSP_eq by assumption.
  destruct (jadd_ok X (jsub X ["modes"; M]) HX Hsub (wfj_jsub _ _ WF)) as (r & E & Hr & Hw & Hwf).
  rewrite E. cbn [bind]. rewrite jremove_modes.
  eexists. split; [reflexivity|]. split; [now rewrite objnone_remove1|].
  split; [now apply wfj_remove1, Hwf|].
  intros p. rewrite jwalk_remove1 by assumption. rewrite Hw.
  unfold mode_layers. now rewrite lwalk_Over, !lwalk_Sub, jsub_nil.
Qed.

Lemma OSP_eq M o X :
  single_key M -> single_key o ->
  getObjectSpecificProps fixed M o (Some X) =
  (r1 <- jadd (tget X [o]) (tget X [o; "modes"; M]) ;;
   r2 <- jadd r1 (tget X ["modes"; M; o]) ;; Ok (jremove r2 "modes")).
Proof.
  intros HM Ho. unfold getObjectSpecificProps. cbn [v_nested_remove fixed].
  now rewrite !jget_split, split_o_modes_M, split_modes_M_o, split_single_key.
Qed.

Lemma OSP_ok M o X :
  single_key M -> single_key o -> wfT X -> wf_object M o X = true ->
  exists r, getObjectSpecificProps fixed M o (Some X) = Ok r /\ objnone r = true /\ wfj r /\
            (forall p, jwalk r p = hidem p (lwalk (object_layers M o X) p)).
Proof.
  intros HM Ho WF Hwf. apply andb_prop in Hwf as [Hwf H3]. apply andb_prop in Hwf as [H1 H2].
  rewrite OSP_eq by assumption.
  destruct (jadd_ok _ _ H1 H2 (wfT_tget X _ WF)) as (r1 & E1 & Hr1 & Hw1 & Hwf1).
  rewrite E1. cbn [bind].
  destruct (jadd_ok _ _ Hr1 H3 (wfT_tget X _ WF)) as (r2 & E2 & Hr2 & Hw2 & Hwf2).
  rewrite E2. cbn [bind]. rewrite jremove_modes.
  eexists. split; [reflexivity|]. split; [now rewrite objnone_remove1|].
  split; [apply wfj_remove1, Hwf2, Hwf1, wfT_tget, WF|].
  intros p. rewrite jwalk_remove1 by assumption. rewrite Hw2, Hw1.
  unfold object_layers. now rewrite !lwalk_Over, !lwalk_Sub.
Qed.

Definition kvs_of (j : json) : list (key * tree) :=
  match j with Some (Obj kvs) => kvs | _ => [] end.

Lemma jset1_ok j k v : objnone j = true -> jset1 j k v = Ok (Obj (aset k v (kvs_of j))).
Proof. intros H. destruct (objnone_cases _ H) as [->|[kvs ->]]; reflexivity. Qed.

Lemma probe_kvs_of j k p : objnone j = true -> probe (Some (Obj (kvs_of j))) (k :: p) = probe j (k :: p).
Proof. intros H. destruct (objnone_cases _ H) as [->|[kvs ->]]; reflexivity. Qed.

Lemma probe_aset k v kvs k' p :
  probe (Some (Obj (aset k v kvs))) (k' :: p) =
  if String.eqb k' k then probe (Some v) p else probe (Some (Obj kvs)) (k' :: p).
Proof. cbn [probe tget]. rewrite alookup_aset. now destruct (String.eqb k' k). Qed.

Lemma answer_hidem k rest w :
  answer (hidem (k :: rest) w) = if String.eqb k "modes" then ANone else answer w.
Proof. cbn [hide]. now destruct (String.eqb k "modes"). Qed.

Lemma IOP_ok M o S U :
  single_key M -> single_key o -> wfT S -> wfT U ->
  wf_object M o S = true -> wf_object M o U = true ->
  exists kvs, initialObjectProps fixed M o (Some S) (Some U) = Ok (Obj kvs) /\
              (forall p, probe (Some (Obj kvs)) p = spec_object M o S U p).
Proof.
  intros HM Ho WS WU HS HU. unfold initialObjectProps.
  destruct (OSP_ok M o S HM Ho WS HS) as (a & Ea & Ha & Wa & Hwa).
  destruct (OSP_ok M o U HM Ho WU HU) as (b & Eb & Hb & Wb & Hwb).
  rewrite Ea, Eb. cbn [bind].
  destruct (jadd_ok a b Ha Hb Wb) as (r & Er & Hr & Hwr & _).
  rewrite Er. cbn [bind]. rewrite jset1_ok by assumption.
  eexists. split; [reflexivity|].
  intros [|k rest]; [reflexivity|].
  rewrite probe_aset. unfold spec_object.
  destruct (String.eqb k "mode") eqn:Ek; [destruct rest; reflexivity|].
  rewrite probe_kvs_of by assumption. now rewrite probe_answer, Hwr, Hwa, Hwb, hide_combine, answer_hidem.
Qed.

Lemma mode_string_leaf M : mode_string (Some (Leaf (VStr M))) = M.
Proof. reflexivity. Qed.

Lemma single_key_device : single_key "device". Proof. split; cbn; congruence. Qed.
Lemma single_key_kernel : single_key "kernel". Proof. split; cbn; congruence. Qed.
Lemma single_key_memory : single_key "memory". Proof. split; cbn; congruence. Qed.
Lemma single_key_stream : single_key "stream". Proof. split; cbn; congruence. Qed.

Theorem setup_ok S U :
  wfT S -> wfT U -> wf_setup (spec_mode U) S U = true ->
  exists props, setup fixed S U = Ok (spec_mode U, props) /\
                (forall p, probe (Some props) p = spec_device (spec_mode U) S U p).
Proof.
  intros WS WU Hwf. set (M := spec_mode U) in *.
  assert (HM : single_key M) by apply single_key_canon.
  assert (HMc : canon M = M) by apply canon_idem.
  apply andb_prop in Hwf as [Hwf HsU]. apply andb_prop in Hwf as [Hwf HsS].
  apply andb_prop in Hwf as [Hwf HmU]. apply andb_prop in Hwf as [Hwf HmS].
  apply andb_prop in Hwf as [Hwf HkU]. apply andb_prop in Hwf as [Hwf HkS].
  apply andb_prop in Hwf as [Hwf HUm]. apply andb_prop in Hwf as [HU HdS].
  unfold setup. cbn [v_canon_mode fixed].
  change (jget (Some U) "mode") with (tget U ["mode"]). fold (spec_mode U). fold M.
  destruct (OSP_ok M "device" S HM single_key_device WS HdS) as (d0 & E0 & H0 & W0 & Hw0).
  rewrite E0. cbn [bind].
  destruct (MSP_ok M (Some U) HM HU WU HUm) as (d1 & E1 & H1 & W1 & Hw1).
  rewrite E1. cbn [bind].
  destruct (jadd_ok d0 d1 H0 H1 W1) as (d & Ed & Hd & Hwd & _).
  rewrite Ed. cbn [bind]. rewrite jset1_ok by assumption. cbn [bind].
  destruct (IOP_ok M "kernel" S U HM single_key_kernel WS WU HkS HkU) as (kk & Ek & Hk).
  destruct (IOP_ok M "memory" S U HM single_key_memory WS WU HmS HmU) as (mm & Em & Hm).
  destruct (IOP_ok M "stream" S U HM single_key_stream WS WU HsS HsU) as (ss & Es & Hs).
  rewrite Ek. cbn [bind jset1]. rewrite Em. cbn [bind jset1]. rewrite Es. cbn [bind jset1].
  cbn [tget]. rewrite !alookup_aset. cbn [String.eqb Ascii.eqb Bool.eqb].
  cbn [mode_string]. rewrite HMc.
  eexists. split; [reflexivity|].
  intros [|k rest]; [reflexivity|].
  rewrite !probe_aset. unfold spec_device, is_object_key.
  seqb k "mode"; [subst k; cbn; destruct rest; reflexivity|].
  seqb k "stream"; [subst k; cbn; apply Hs|].
  seqb k "memory"; [subst k; cbn; apply Hm|].
  seqb k "kernel"; [subst k; cbn; apply Hk|].
  cbn [orb]. rewrite probe_kvs_of by assumption.
  now rewrite probe_answer, Hwd, Hw0, Hw1, hide_combine, answer_hidem.
Qed.

Theorem with_ok M props o A :
  single_key M -> objnone (tget props [o]) = true -> wfj A -> wf_with M A = true ->
  exists r, objectPropertiesWith (M, props) o A = Ok r /\
            (forall p, probe r p = spec_with M (tget props [o]) A p).
Proof.
  intros HM HK WA Hwf. apply andb_prop in Hwf as [HA HAm].
  unfold objectPropertiesWith, objectProperties. cbn [fst snd].
  destruct (MSP_ok M A HM HA WA HAm) as (a & Ea & Ha & Wa & Hwa).
  rewrite Ea. cbn [bind].
  destruct (jadd_ok _ a HK Ha Wa) as (r & Er & Hr & Hwr & _).
  rewrite Er. exists r. split; [reflexivity|].
  intros p. rewrite probe_answer, Hwr, Hwa. unfold spec_with. now rewrite lwalk_Sub, jsub_nil.
Qed.

(* under "modes" the additional layers are hidden, and K has nothing there *)
Lemma spec_with_modes M K A : probe K ["modes"] = ANone -> spec_with M K A ["modes"] = ANone.
Proof.
  unfold spec_with. rewrite probe_answer, lwalk_Sub, jsub_nil. cbn [hide String.eqb Ascii.eqb Bool.eqb].
  destruct (jwalk K ["modes"]) as [d|[|d]| |]; cbn; congruence.
Qed.

Lemma bind_Ok {A B} (r : res A) (k : A -> res B) b :
  (x <- r ;; k x) = Ok b -> exists a, r = Ok a /\ k a = Ok b.
Proof. destruct r as [a|]; [eauto | discriminate]. Qed.

Lemma jadd_objnone a b d :
  jadd a b = Ok d -> objnone d = true -> objnone a = true /\ objnone b = true.
Proof.
  destruct a as [[[x|x]|ka]|], b as [[[y|y]|kb]|]; cbn; intros [= <-]; cbn; intros H;
    auto; discriminate H.
Qed.

Lemma jset1_objnone d k v t : jset1 d k v = Ok t -> objnone d = true.
Proof. destruct d as [[w|kvs]|]; [discriminate | reflexivity..]. Qed.

Lemma OSP_defined M o X r :
  single_key M -> single_key o -> getObjectSpecificProps fixed M o (Some X) = Ok r -> objnone r = true ->
  wf_object M o X = true.
Proof.
  intros HM Ho E Hr. rewrite OSP_eq in E by assumption.
  apply bind_Ok in E as (r1 & E1 & E). apply bind_Ok in E as (r2 & E2 & [= <-]).
  rewrite jremove_modes, objnone_remove1 in Hr.
  destruct (jadd_objnone _ _ _ E2 Hr) as [H1 H3]. destruct (jadd_objnone _ _ _ E1 H1) as [H0 H2].
  unfold wf_object. now rewrite H0, H2, H3.
Qed.

Lemma MSP_defined M X r :
  single_key M -> getModeSpecificProps M X = Ok r -> objnone r = true ->
  objnone X = true /\ objnone (jsub X ["modes"; M]) = true.
Proof.
  intros HM E Hr. rewrite MSP_eq in E by assumption. apply bind_Ok in E as (r1 & E1 & [= <-]).
  rewrite jremove_modes, objnone_remove1 in Hr. exact (jadd_objnone _ _ _ E1 Hr).
Qed.

Lemma IOP_defined M o S U t :
  single_key M -> single_key o -> initialObjectProps fixed M o (Some S) (Some U) = Ok t ->
  wf_object M o S = true /\ wf_object M o U = true.
Proof.
  intros HM Ho E. unfold initialObjectProps in E.
  apply bind_Ok in E as (a & Ea & E). apply bind_Ok in E as (b & Eb & E).
  apply bind_Ok in E as (r & Er & E).
  destruct (jadd_objnone _ _ _ Er (jset1_objnone _ _ _ _ E)) as [Ha Hb].
  split; eapply OSP_defined; eauto.
Qed.

(* every stage of device::setup returned, so every layer position held an object or nothing *)
Theorem setup_defined S U dev : setup fixed S U = Ok dev -> wf_setup (spec_mode U) S U = true.
Proof.
  intros E. pose proof (single_key_canon (mode_string (tget U ["mode"]))) as HM.
  unfold setup in E. cbn [v_canon_mode fixed] in E.
  change (jget (Some U) "mode") with (tget U ["mode"]) in E. fold (spec_mode U) in E, HM.
  apply bind_Ok in E as (d0 & E0 & E). apply bind_Ok in E as (d1 & E1 & E).
  apply bind_Ok in E as (d & Ed & E). apply bind_Ok in E as (d' & Er & E).
  apply bind_Ok in Er as (r & Er & _).
  apply bind_Ok in E as (k & Ek & E). apply bind_Ok in E as (d2 & _ & E).
  apply bind_Ok in E as (m & Em & E). apply bind_Ok in E as (d3 & _ & E).
  apply bind_Ok in E as (s & Es & _).
  destruct (jadd_objnone _ _ _ Ed (jset1_objnone _ _ _ _ Er)) as [H0 H1].
  destruct (MSP_defined _ _ _ HM E1 H1) as [HU HUm].
  destruct (IOP_defined _ _ _ _ _ HM single_key_kernel Ek) as [HkS HkU].
  destruct (IOP_defined _ _ _ _ _ HM single_key_memory Em) as [HmS HmU].
  destruct (IOP_defined _ _ _ _ _ HM single_key_stream Es) as [HsS HsU].
  unfold wf_setup. cbn [jsub] in HUm.
  now rewrite HU, (OSP_defined _ _ _ _ HM single_key_device E0 H0), HUm, HkS, HkU, HmS, HmU, HsS, HsU.
Qed.

Theorem with_defined M props o A kvs r :
  single_key M -> tget props [o] = Some (Obj kvs) -> objectPropertiesWith (M, props) o A = Ok r ->
  wf_with M A = true.
Proof.
  intros HM HK E. unfold objectPropertiesWith, objectProperties in E. cbn [fst snd] in E.
  rewrite HK in E. apply bind_Ok in E as (a & Ea & E).
  assert (Ha : objnone a = true) by (destruct a as [[v|ka]|]; [discriminate E | reflexivity..]).
  destruct (MSP_defined _ _ _ HM Ea Ha) as [HA HAm]. unfold wf_with. now rewrite HA.
Qed.

Lemma probe_cons props o q : probe (Some props) (o :: q) = probe (tget props [o]) q.
Proof.
  cbn [probe tget]. destruct props as [v|kvs]; auto.
  destruct (alookup o kvs); auto.
Qed.

Lemma setup_result S U dev :
  wfT S -> wfT U -> setup fixed S U = Ok dev ->
  exists props, dev = (spec_mode U, props) /\
    (forall p, probe (Some props) p = spec_device (spec_mode U) S U p) /\
    (forall o, is_object_key o = true -> exists kvs, tget props [o] = Some (Obj kvs)).
Proof.
  intros WS WU E. destruct (setup_ok S U WS WU (setup_defined _ _ _ E)) as (props & E' & Hp).
  exists props. split; [congruence|]. split; [assumption|].
  intros o Ho. specialize (Hp [o]). unfold spec_device in Hp. rewrite Ho in Hp.
  cbn [probe spec_object] in Hp. destruct (tget props [o]) as [[v|kvs]|]; try discriminate Hp; eauto.
Qed.

(* "threw, or produced a non-object" *)
Definition LE (r : res json) : Prop := r = Err \/ exists v, r = Ok (Some (Leaf v)).

Lemma LE_bind_jadd x b : LE x -> LE (a <- x ;; jadd a b).
Proof.
  intros [->|[v ->]]; cbn [bind]; [now left|].
  destruct (jadd (Some (Leaf v)) b) as [[[w|kvs]|]|] eqn:E; [right; eauto | | | now left];
    destruct (jadd_objnone _ _ _ E eq_refl) as [H _]; discriminate H.
Qed.

(* a walk is determined by what the tree says about the prefixes of the path *)
Lemma walk_ext r : forall t t',
  (forall n, probe (Some t) (firstn n r) = probe (Some t') (firstn n r)) -> walk t r = walk t' r.
Proof.
  induction r as [|k r IH]; intros t t' H.
  - specialize (H 0). cbn in H. destruct t, t'; cbn; congruence.
  - pose proof (H 0) as H0. cbn in H0.
    destruct t as [v|kvs], t' as [v'|kvs']; try discriminate; [reflexivity|].
    pose proof (H 1) as H1. cbn in H1. cbn [walk].
    destruct (alookup k kvs) as [c|] eqn:E, (alookup k kvs') as [c'|] eqn:E'.
    + f_equal. apply IH. intros n. specialize (H (S n)). cbn [firstn probe tget] in H.
      now rewrite E, E' in H.
    + destruct c; discriminate.
    + destruct c'; discriminate.
    + reflexivity.
Qed.

Lemma jwalk_ext r (j j' : json) :
  (forall n, probe j (firstn n r) = probe j' (firstn n r)) -> jwalk j r = jwalk j' r.
Proof.
  intros H. destruct j as [t|], j' as [t'|]; cbn [jwalk]; auto.
  - now apply walk_ext.
  - specialize (H 0). cbn in H. destruct t; discriminate.
  - specialize (H 0). cbn in H. destruct t'; discriminate.
Qed.

Lemma prefixb_firstn q : forall n p, prefixb q (firstn n p) = true -> prefixb q p = true.
Proof.
  induction q as [|k q IH]; intros n p; cbn; auto.
  destruct n, p as [|k' p]; cbn; try discriminate.
  rewrite !andb_true_iff. intros [H1 H2]. split; auto. eapply IH; eauto.
Qed.

Lemma other_mode_path_firstn m' pres n p :
  other_mode_path m' pres p = false -> other_mode_path m' pres (firstn n p) = false.
Proof.
  unfold other_mode_path. rewrite <- !not_true_iff_false, !existsb_exists.
  intros H (pre & HIn & Hp). apply H. exists pre. split; [assumption | now apply (prefixb_firstn _ n)].
Qed.

Lemma jwalk_agree m' pres X X' r :
  agree_off m' pres X X' -> other_mode_path m' pres r = false -> jwalk X r = jwalk X' r.
Proof.
  intros HA Hr. apply jwalk_ext. intros n. apply HA. now apply other_mode_path_firstn.
Qed.

Lemma lwalk_agree m' pres X X' q p :
  agree_off m' pres X X' -> other_mode_path m' pres (q ++ p) = false ->
  lwalk (Sub X q) p = lwalk (Sub X' q) p.
Proof. intros HA Hr. rewrite !lwalk_Sub, !jwalk_jsub. f_equal. eapply jwalk_agree; eauto. Qed.

Lemma jsub_probe X X' q :
  probe X q = probe X' q ->
  objnone (jsub X q) = objnone (jsub X' q) /\ mode_string (jsub X q) = mode_string (jsub X' q).
Proof.
  rewrite !probe_jsub.
  destruct (jsub X q) as [[v|kvs]|], (jsub X' q) as [[v'|kvs']|]; cbn; intros H; try discriminate; auto.
  injection H as ->. auto.
Qed.

Lemma prefixb_spec q : forall p, prefixb q p = true -> exists r, p = q ++ r.
Proof.
  induction q as [|k q IH]; intros p; cbn; [eauto|].
  destruct p as [|k' p]; [discriminate|]. rewrite andb_true_iff. intros [E H].
  apply String.eqb_eq in E as ->. destruct (IH _ H) as [r ->]. eauto.
Qed.

Lemma positions_flat pre : In pre settings_positions -> pre = [] \/ exists k, pre = [k] /\ k <> "modes".
Proof.
  cbn. intros [<-|[<-|[<-|[<-|[<-|[]]]]]]; [now left|right..]; eexists; (split; [reflexivity|discriminate]).
Qed.

Lemma incl_user_positions : incl user_positions settings_positions.
Proof. intros x. cbn. tauto. Qed.

Lemma incl_additional_positions : incl additional_positions settings_positions.
Proof. intros x. cbn. tauto. Qed.

(* a path is under no <position>/modes/<m'> as soon as it has neither of the two shapes such a path can have *)
Lemma off_other_mode m' pres p :
  incl pres settings_positions ->
  (forall r, p <> "modes" :: m' :: r) ->
  (forall k r, In [k] pres -> k <> "modes" -> p <> k :: "modes" :: m' :: r) ->
  other_mode_path m' pres p = false.
Proof.
  intros Hi H1 H2. apply not_true_iff_false. intros H.
  apply existsb_exists in H as (pre & Hin & H). apply prefixb_spec in H as [r ->].
  destruct (positions_flat pre (Hi _ Hin)) as [->|(k & -> & Hk)];
    [exact (H1 r eq_refl) | exact (H2 k r Hin Hk eq_refl)].
Qed.

Section Inert.
  Variables (M m' : key).
  Hypothesis HM : M <> m'.

  (* For any of the three lists of positions: the paths at which the layering for mode M consults an
     input are not under <position>/modes/<m'>, so inputs that agree off those paths give the same
     layers and the same definedness conditions. *)
  Section Positions.
    Variable pres : list path.
    Hypothesis Hpres : incl pres settings_positions.

    Lemma off_other_mode_nil : other_mode_path m' pres [] = false.
    Proof. apply off_other_mode; [assumption | discriminate..]. Qed.

    Lemma off_other_mode_key k p :
      k <> "modes" -> ~ In [k] pres \/ hd_error p <> Some "modes" ->
      other_mode_path m' pres (k :: p) = false.
    Proof.
      intros Hk Hp. apply off_other_mode; [assumption | congruence |].
      intros k' r Hin _ [= -> ->]. destruct Hp as [Hp|Hp]; [exact (Hp Hin) | now apply Hp].
    Qed.

    Lemma off_other_mode_key_mode k p :
      k <> "modes" -> other_mode_path m' pres (k :: "modes" :: M :: p) = false.
    Proof. intros Hk. apply off_other_mode; [assumption | congruence..]. Qed.

    Lemma off_other_mode_mode p : other_mode_path m' pres ("modes" :: M :: p) = false.
    Proof. apply off_other_mode; [assumption | congruence..]. Qed.

    Lemma objnone_agree X X' q :
      agree_off m' pres X X' -> other_mode_path m' pres q = false ->
      objnone (jsub X q) = objnone (jsub X' q).
    Proof. intros HA Hq. apply jsub_probe, HA, Hq. Qed.

    Lemma object_layers_agree o X X' p :
      o <> "modes" -> agree_off m' pres (Some X) (Some X') -> hd_error p <> Some "modes" ->
      lwalk (object_layers M o X) p = lwalk (object_layers M o X') p.
    Proof.
      intros Ho HA Hp. unfold object_layers. rewrite !lwalk_Over.
      rewrite (lwalk_agree m' pres _ _ [o] p HA) by (apply off_other_mode_key; auto).
      rewrite (lwalk_agree m' pres _ _ [o; "modes"; M] p HA) by now apply off_other_mode_key_mode.
      rewrite (lwalk_agree m' pres _ _ ["modes"; M; o] p HA) by apply off_other_mode_mode.
      reflexivity.
    Qed.

    Lemma mode_layers_agree X X' p :
      agree_off m' pres X X' -> other_mode_path m' pres p = false ->
      lwalk (mode_layers M X) p = lwalk (mode_layers M X') p.
    Proof.
      intros HA Hp. unfold mode_layers. rewrite !lwalk_Over.
      rewrite (lwalk_agree m' pres _ _ [] p HA) by exact Hp.
      rewrite (lwalk_agree m' pres _ _ ["modes"; M] p HA) by apply off_other_mode_mode.
      reflexivity.
    Qed.

    Lemma wf_object_agree o X X' :
      o <> "modes" -> agree_off m' pres (Some X) (Some X') -> wf_object M o X = wf_object M o X'.
    Proof.
      intros Ho HA. unfold wf_object. f_equal; [f_equal|].
      - apply (objnone_agree _ _ [o] HA), off_other_mode_key; auto. right. discriminate.
      - now apply (objnone_agree _ _ [o; "modes"; M] HA), off_other_mode_key_mode.
      - apply (objnone_agree _ _ ["modes"; M; o] HA), off_other_mode_mode.
    Qed.
  End Positions.

  Lemma spec_object_agree o S S' U U' p :
    o <> "modes" ->
    agree_off m' settings_positions (Some S) (Some S') ->
    agree_off m' user_positions (Some U) (Some U') ->
    spec_object M o S U p = spec_object M o S' U' p.
  Proof.
    intros Ho HS HU. unfold spec_object. destruct p as [|k rest]; auto.
    destruct (String.eqb k "mode"); auto. seqb k "modes"; auto.
    rewrite !lwalk_Over.
    rewrite (object_layers_agree settings_positions (incl_refl _) o S S'),
            (object_layers_agree user_positions incl_user_positions o U U'); auto; cbn; congruence.
  Qed.

  Lemma spec_device_agree S S' U U' p :
    agree_off m' settings_positions (Some S) (Some S') ->
    agree_off m' user_positions (Some U) (Some U') ->
    spec_device M S U p = spec_device M S' U' p.
  Proof.
    intros HS HU. unfold spec_device. destruct p as [|k rest]; auto.
    destruct (is_object_key k) eqn:Ek.
    - apply spec_object_agree; auto. intros ->. discriminate Ek.
    - destruct (String.eqb k "mode"); auto. seqb k "modes"; auto.
      rewrite !lwalk_Over.
      rewrite (object_layers_agree settings_positions (incl_refl _) "device" S S'),
              (mode_layers_agree user_positions incl_user_positions (Some U) (Some U'));
        auto; try (cbn; congruence).
      apply off_other_mode_key; auto using incl_user_positions. left.
      intros [Q|[Q|[Q|[Q|[]]]]]; try discriminate Q; injection Q as <-; discriminate Ek.
  Qed.

  Lemma spec_with_agree K K' A A' p :
    (forall q, probe K q = probe K' q) ->
    agree_off m' additional_positions A A' ->
    spec_with M K A p = spec_with M K' A' p.
  Proof.
    intros HK HA. unfold spec_with. rewrite !lwalk_Sub, !jsub_nil.
    rewrite (jwalk_ext p K K') by (intros n; apply HK).
    assert (Hp : hide "modes" p (lwalk (mode_layers M A) p) = hide "modes" p (lwalk (mode_layers M A') p));
      [|now rewrite Hp].
    destruct p as [|k rest]; cbn [hide].
    - apply (mode_layers_agree additional_positions incl_additional_positions _ _ _ HA).
      apply off_other_mode_nil, incl_additional_positions.
    - seqb k "modes"; auto.
      apply (mode_layers_agree additional_positions incl_additional_positions _ _ _ HA).
      apply off_other_mode_key; auto using incl_additional_positions. left. intros [Q|[]]. discriminate Q.
  Qed.

  Lemma wf_setup_agree S S' U U' :
    agree_off m' settings_positions (Some S) (Some S') ->
    agree_off m' user_positions (Some U) (Some U') ->
    wf_setup M S U = wf_setup M S' U'.
  Proof.
    intros HS HU. unfold wf_setup.
    rewrite !(wf_object_agree settings_positions (incl_refl _) _ S S') by (auto; discriminate).
    rewrite !(wf_object_agree user_positions incl_user_positions _ U U') by (auto; discriminate).
    assert (E0 : objnone (Some U) = objnone (Some U'))
      by exact (objnone_agree user_positions (Some U) (Some U') [] HU (off_other_mode_nil _ incl_user_positions)).
    assert (E1 : objnone (tget U ["modes"; M]) = objnone (tget U' ["modes"; M]))
      by exact (objnone_agree user_positions (Some U) (Some U') _ HU (off_other_mode_mode _ incl_user_positions _)).
    now rewrite E0, E1.
  Qed.

  Lemma wf_with_agree A A' :
    agree_off m' additional_positions A A' -> wf_with M A = wf_with M A'.
  Proof.
    intros HA. unfold wf_with. rewrite <- (jsub_nil A), <- (jsub_nil A') at 1.
    f_equal.
    - apply (objnone_agree additional_positions _ _ [] HA), off_other_mode_nil, incl_additional_positions.
    - apply (objnone_agree additional_positions _ _ ["modes"; M] HA), off_other_mode_mode, incl_additional_positions.
  Qed.
End Inert.

Lemma spec_mode_agree m' U U' :
  agree_off m' user_positions (Some U) (Some U') -> spec_mode U = spec_mode U'.
Proof.
  intros HU. unfold spec_mode. f_equal. apply (jsub_probe (Some U) (Some U') ["mode"]), HU.
  apply off_other_mode_key; [apply incl_user_positions | discriminate | right; discriminate].
Qed.
