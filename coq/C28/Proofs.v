(* C28 — the trie of Model.v refines the finite map of Spec.v.  `tree_vi k root` is the value
   index the tree holds for key k; the invariant `Inv'` makes it a bijection between the stored
   keys of the map and the positions of the value vector.  `walk` is the longest-prefix lookup
   on the tree: trieNode::get computes it (node_get_walk), the frozen arrays with their binary
   search compute it (frozen_walk), and under the invariant it is s_longest (walk_longest). *)
From Coq Require Import List ZArith Bool Lia ZifyBool Arith.
From OV.C28 Require Import Model Spec Statements.
Import ListNotations.
Local Open Scope Z_scope.

Local Notation len l := (Z.of_nat (length l)).

Lemma key_eqbP : forall a b, reflect (a = b) (key_eqb a b).
Proof.
  induction a as [|x a IH]; intros [|y b]; cbn [key_eqb]; try (constructor; congruence).
  destruct (Z.eqb_spec x y) as [->|]; [destruct (IH b) as [->|]|]; constructor; congruence.
Qed.

Lemma key_eqb_refl : forall a, key_eqb a a = true.
Proof. intro a. now destruct (key_eqbP a a). Qed.

Lemma key_eqb_neq : forall a b, a <> b -> key_eqb a b = false.
Proof. intros a b H. destruct (key_eqbP a b); [contradiction | reflexivity]. Qed.

Lemma key_eqb_sym : forall a b, key_eqb a b = key_eqb b a.
Proof.
  intros a b. destruct (key_eqbP a b) as [->|Hne].
  - symmetry. apply key_eqb_refl.
  - symmetry. apply key_eqb_neq. congruence.
Qed.

Section NodeInd.
  Variable P : node -> Prop.
  Hypothesis HN : forall vi kids, Forall (fun p => P (snd p)) kids -> P (Node vi kids).
  Fixpoint node_ind' (n : node) : P n :=
    match n with
    | Node vi kids =>
        HN vi kids
          ((fix go (ks : list (chr * node)) : Forall (fun p => P (snd p)) ks :=
              match ks with
              | [] => Forall_nil _
              | p :: ks' => Forall_cons p (node_ind' (snd p)) (go ks')
              end) kids)
    end.
End NodeInd.

Lemma Forall_above : forall c c0 (ks : list (chr * node)),
  c < c0 -> Forall (fun p => c0 < fst p) ks -> Forall (fun p => c < fst p) ks.
Proof. intros c c0 ks Hc H. eapply Forall_impl; [|exact H]. cbn beta. intros a Ha. lia. Qed.

Fixpoint ksorted (ks : list (chr * node)) : Prop :=
  match ks with
  | [] => True
  | p :: ks' => Forall (fun p' => fst p < fst p') ks' /\ ksorted ks'
  end.

Lemma kfind_kset : forall c c' n ks,
  kfind c (kset c' n ks) = if c =? c' then Some n else kfind c ks.
Proof.
  intros c c' n ks. induction ks as [|[c0 n0] ks IH]; cbn [kset kfind].
  - reflexivity.
  - destruct (c' <? c0); [reflexivity|].
    destruct (Z.eqb_spec c' c0) as [->|Hne]; cbn [kfind].
    + destruct (c =? c0); reflexivity.
    + rewrite IH. destruct (Z.eqb_spec c c0) as [->|_]; [|reflexivity].
      apply Z.eqb_neq in Hne. rewrite Z.eqb_sym, Hne. reflexivity.
Qed.

Lemma kfind_lt_none : forall c ks, Forall (fun p => c < fst p) ks -> kfind c ks = None.
Proof.
  intros c ks H. induction H as [|[c0 n0] ks H1 H2 IH]; cbn [kfind]; [reflexivity|].
  cbn [fst] in H1. apply Z.lt_neq, Z.eqb_neq in H1. rewrite H1. exact IH.
Qed.

Lemma kfind_kerase : forall c c' ks, ksorted ks ->
  kfind c (kerase c' ks) = if c =? c' then None else kfind c ks.
Proof.
  intros c c' ks. induction ks as [|[c0 n0] ks IH]; cbn [kerase kfind ksorted]; intro H.
  - destruct (c =? c'); reflexivity.
  - destruct H as [H1 H2]. destruct (Z.eqb_spec c' c0) as [<-|Hne].
    + destruct (Z.eqb_spec c c') as [->|_]; [apply kfind_lt_none; exact H1 | reflexivity].
    + cbn [kfind]. rewrite IH by exact H2. destruct (Z.eqb_spec c c') as [->|_]; [|reflexivity].
      apply Z.eqb_neq in Hne. rewrite Hne. reflexivity.
Qed.

Lemma Forall_kset : forall (P : chr * node -> Prop) c n ks,
  P (c, n) -> Forall P ks -> Forall P (kset c n ks).
Proof.
  intros P c n ks Hp H. induction H as [|[c0 n0] ks H1 H2 IH]; cbn [kset].
  - constructor; [exact Hp | constructor].
  - destruct (c <? c0); [constructor; [exact Hp | constructor; assumption]|].
    destruct (c =? c0); constructor; assumption.
Qed.

Lemma Forall_kerase : forall (P : chr * node -> Prop) c ks,
  Forall P ks -> Forall P (kerase c ks).
Proof.
  intros P c ks H. induction H as [|[c0 n0] ks H1 H2 IH]; cbn [kerase]; [constructor|].
  destruct (c =? c0); [assumption | constructor; assumption].
Qed.

Lemma ksorted_kset : forall c n ks, ksorted ks -> ksorted (kset c n ks).
Proof.
  intros c n ks. induction ks as [|[c0 n0] ks IH]; cbn [kset ksorted]; intro H.
  - split; [constructor | exact I].
  - destruct H as [H1 H2]. destruct (c <? c0) eqn:E1.
    + cbn [ksorted]. split; [|split; assumption].
      constructor; [cbn [fst]; lia | apply (Forall_above c c0); [lia | exact H1]].
    + destruct (Z.eqb_spec c c0) as [->|Hne]; cbn [ksorted].
      * split; assumption.
      * split; [|apply IH; assumption].
        apply Forall_kset; [cbn [fst]; lia | exact H1].
Qed.

Lemma ksorted_kerase : forall c ks, ksorted ks -> ksorted (kerase c ks).
Proof.
  intros c ks. induction ks as [|[c0 n0] ks IH]; cbn [kerase ksorted]; intro H; [exact I|].
  destruct H as [H1 H2]. destruct (c =? c0); [assumption|].
  cbn [ksorted]. split; [apply Forall_kerase; assumption | apply IH; assumption].
Qed.

Lemma kfind_In : forall c ks n, kfind c ks = Some n -> In (c, n) ks.
Proof.
  intros c ks n. induction ks as [|[c0 n0] ks IH]; cbn [kfind]; intro H; [discriminate|].
  destruct (Z.eqb_spec c c0) as [->|_].
  - injection H as ->. now left.
  - right. apply IH. exact H.
Qed.

Lemma kfind_Forall : forall (P : chr * node -> Prop) c ks n,
  Forall P ks -> kfind c ks = Some n -> P (c, n).
Proof.
  intros P c ks n HF H. apply kfind_In in H. rewrite Forall_forall in HF. apply HF. exact H.
Qed.

Inductive wf_node : node -> Prop :=
| wf_intro : forall vi kids,
    -1 <= vi -> ksorted kids -> Forall (fun p => wf_node (snd p)) kids -> wf_node (Node vi kids).

Lemma wf_inv : forall n, wf_node n ->
  -1 <= n_vi n /\ ksorted (n_kids n) /\ Forall (fun p => wf_node (snd p)) (n_kids n).
Proof. intros n H. destruct H. cbn [n_vi n_kids]. auto. Qed.

Lemma wf_make : forall n, -1 <= n_vi n -> ksorted (n_kids n) ->
  Forall (fun p => wf_node (snd p)) (n_kids n) -> wf_node n.
Proof. intros [vi kids]. cbn [n_vi n_kids]. intros. constructor; assumption. Qed.

Lemma wf_kid : forall n c k, wf_node n -> kfind c (n_kids n) = Some k -> wf_node k.
Proof.
  intros n c k H Hk. apply wf_inv in H. destruct H as (_ & _ & HF).
  exact (kfind_Forall _ _ _ _ HF Hk).
Qed.

Lemma wf_empty : wf_node empty_node.
Proof. constructor; [lia | exact I | constructor]. Qed.

(* the value index stored for key k below n, -1 if the path is missing *)
Fixpoint tree_vi (k : key) (n : node) : Z :=
  match k with
  | [] => n_vi n
  | c :: k' =>
      match kfind c (n_kids n) with
      | Some ch => tree_vi k' ch
      | None => -1
      end
  end.

Lemma tree_vi_ge : forall k n, wf_node n -> -1 <= tree_vi k n.
Proof.
  induction k as [|c k IH]; intros n H; cbn [tree_vi].
  - apply wf_inv in H. tauto.
  - destruct (kfind c (n_kids n)) as [ch|] eqn:E; [|lia].
    apply IH. eapply wf_kid; eassumption.
Qed.

(* tree_vi and node_size cannot tell a dead child from an absent one, so it does not matter to
   them whether nestedRemove erases an emptied child or leaves it in place. *)
Definition dead (n : node) : Prop := n_vi n < 0 /\ n_kids n = [].

Lemma tree_vi_dead : forall k n, wf_node n -> dead n -> tree_vi k n = -1.
Proof.
  intros k n Hwf [H1 H2]. destruct k as [|c k]; cbn [tree_vi].
  - apply wf_inv in Hwf. lia.
  - rewrite H2. reflexivity.
Qed.

Lemma tree_vi_empty : forall k, tree_vi k empty_node = -1.
Proof. intros [|c k]; reflexivity. Qed.

Lemma tree_vi_add : forall q vi n k,
  tree_vi k (node_add q vi n) = if key_eqb k q then vi else tree_vi k n.
Proof.
  induction q as [|a q IH]; intros vi n k; cbn [node_add].
  - destruct k as [|c k]; cbn [key_eqb tree_vi n_vi n_kids]; reflexivity.
  - destruct k as [|c k]; cbn [key_eqb tree_vi n_vi n_kids]; [reflexivity|].
    rewrite kfind_kset. destruct (Z.eqb_spec c a) as [->|_]; cbn [andb]; [|reflexivity].
    rewrite IH.
    destruct (kfind a (n_kids n)) as [ch|]; [reflexivity|].
    rewrite tree_vi_empty. reflexivity.
Qed.

Lemma wf_add : forall q vi n, -1 <= vi -> wf_node n -> wf_node (node_add q vi n).
Proof.
  induction q as [|a q IH]; intros vi n Hvi H; cbn [node_add].
  - apply wf_inv in H. destruct H as (H1 & H2 & H3). constructor; assumption.
  - pose proof (wf_inv _ H) as (H1 & H2 & H3).
    constructor; [assumption | apply ksorted_kset; assumption |].
    apply Forall_kset; [|assumption]. cbn [snd]. apply IH; [assumption|].
    destruct (kfind a (n_kids n)) as [ch|] eqn:E; [eapply wf_kid; eassumption | apply wf_empty].
Qed.

(* 1 if v is a value index *)
Definition b01 (v : Z) : Z := if 0 <=? v then 1 else 0.

Fixpoint ksize (ks : list (chr * node)) : Z :=
  match ks with
  | [] => 0
  | p :: ks' => node_size (snd p) + ksize ks'
  end.

(* Model.v's node functions loop over the children by an anonymous `fix go`; each gets a named
   function on child lists and an `_eq` lemma rewriting the model function into it. *)
Lemma node_size_eq : forall vi kids, node_size (Node vi kids) = b01 vi + ksize kids.
Proof.
  intros vi kids. cbn [node_size]. unfold b01. f_equal.
  induction kids as [|[c k] ks IH]; [reflexivity|].
  cbn [ksize snd]. rewrite <- IH. reflexivity.
Qed.

Lemma node_size_eq' : forall n, node_size n = b01 (n_vi n) + ksize (n_kids n).
Proof. intros [vi kids]. apply node_size_eq. Qed.

Definition ksz (o : option node) : Z := match o with Some k => node_size k | None => 0 end.

Lemma ksize_kset : forall c n ks, ksorted ks ->
  ksize (kset c n ks) = ksize ks + node_size n - ksz (kfind c ks).
Proof.
  intros c n ks. induction ks as [|[c0 n0] ks IH]; cbn [kset ksorted]; intro H.
  - cbn [ksize kfind ksz snd]. lia.
  - destruct H as [H1 H2]. destruct (c <? c0) eqn:E1.
    + cbn [ksize snd kfind]. assert (c =? c0 = false) as -> by lia.
      rewrite kfind_lt_none; [cbn [ksz]; lia | apply (Forall_above c c0); [lia | exact H1]].
    + cbn [ksize snd kfind]. destruct (c =? c0); cbn [ksize snd ksz]; [lia|].
      rewrite IH by assumption. lia.
Qed.

Lemma ksize_kerase : forall c ks, ksize (kerase c ks) = ksize ks - ksz (kfind c ks).
Proof.
  intros c ks. induction ks as [|[c0 n0] ks IH]; cbn [kerase ksize kfind snd].
  - cbn [ksz]. lia.
  - destruct (c =? c0) eqn:E; cbn [ksize snd ksz]; [lia | rewrite IH; lia].
Qed.

Lemma node_size_empty : node_size empty_node = 0.
Proof. reflexivity. Qed.

Lemma node_size_add : forall q vi n, wf_node n ->
  node_size (node_add q vi n) = node_size n - b01 (tree_vi q n) + b01 vi.
Proof.
  induction q as [|a q IH]; intros vi n H; cbn [node_add tree_vi].
  - rewrite node_size_eq, (node_size_eq' n). lia.
  - pose proof (wf_inv _ H) as (H1 & H2 & H3).
    rewrite node_size_eq, (node_size_eq' n), ksize_kset by assumption.
    destruct (kfind a (n_kids n)) as [ch|] eqn:E; cbn [ksz].
    + rewrite IH by (eapply wf_kid; eassumption). lia.
    + rewrite IH by apply wf_empty. rewrite tree_vi_empty, node_size_empty.
      change (b01 (-1)) with 0. lia.
Qed.

(* n with the value index of q taken out; for q = [] this is what nestedRemove makes of the
   leaf at the end of the key *)
Definition unlink (q : key) (n : node) : node :=
  match q with
  | [] => Node (-1) (n_kids n)
  | _ => fst (node_nestedRemove q n)
  end.

Lemma nestedRemove_none : forall c q' n, kfind c (n_kids n) = None ->
  node_nestedRemove (c :: q') n = (n, false).
Proof. intros c q' n H. cbn [node_nestedRemove]. rewrite H. reflexivity. Qed.

Lemma n_vi_nestedRemove : forall q n, n_vi (fst (node_nestedRemove q n)) = n_vi n.
Proof.
  intros [|c q'] n; [reflexivity|]. cbn [node_nestedRemove].
  destruct (kfind c (n_kids n)); reflexivity.
Qed.

Lemma nestedRemove_snd : forall q n,
  snd (node_nestedRemove q n) = true -> dead (fst (node_nestedRemove q n)).
Proof.
  intros [|c q'] n; [discriminate|]. cbn [node_nestedRemove].
  destruct (kfind c (n_kids n)); [|discriminate]. unfold dead. cbn [fst snd n_vi n_kids].
  intros [H1 H2]%andb_true_iff. split; [now apply Z.ltb_lt|].
  destruct (match q' with [] => _ | _ :: _ => _ end); [reflexivity | discriminate].
Qed.

(* the child c is either replaced by `unlink q' leaf` or erased; it is erased only when
   `unlink q' leaf` is dead *)
Lemma nestedRemove_kids : forall c q' n leaf, kfind c (n_kids n) = Some leaf ->
  let kids' := n_kids (fst (node_nestedRemove (c :: q') n)) in
  (kids' = kerase c (n_kids n) /\ dead (unlink q' leaf))
  \/ kids' = kset c (unlink q' leaf) (n_kids n).
Proof.
  intros c q' n leaf H. cbn [node_nestedRemove]. rewrite H. cbn [fst n_kids].
  destruct q' as [|c2 q2].
  - cbn [unlink]. destruct (n_kids leaf) as [|p ks]; [left | right; reflexivity].
    split; [reflexivity|]. split; cbn [n_vi n_kids]; [lia | reflexivity].
  - unfold unlink. pose proof (nestedRemove_snd (c2 :: q2) leaf) as Hs.
    destruct (node_nestedRemove (c2 :: q2) leaf) as [leaf' e]. cbn [fst snd] in *.
    destruct (e && (len (n_kids n) =? 1)) eqn:Ee; [left | right; reflexivity].
    split; [reflexivity|]. apply Hs. apply andb_true_iff in Ee. tauto.
Qed.

Lemma node_size_dead : forall n, dead n -> node_size n = 0.
Proof.
  intros n [H1 H2]. rewrite node_size_eq', H2. cbn [ksize]. unfold b01.
  destruct (0 <=? n_vi n) eqn:E; lia.
Qed.

Lemma unlink_spec : forall q n, wf_node n ->
  wf_node (unlink q n) /\
  (forall k, tree_vi k (unlink q n) = if key_eqb k q then -1 else tree_vi k n) /\
  node_size (unlink q n) = node_size n - b01 (tree_vi q n).
Proof.
  induction q as [|c q' IH]; intros n H; pose proof (wf_inv _ H) as (H1 & H2 & H3).
  { cbn [unlink tree_vi]. split; [constructor; [lia | assumption..]|].
    split; [intros [|c' k]; reflexivity|].
    rewrite node_size_eq, (node_size_eq' n). change (b01 (-1)) with 0. lia. }
  change (unlink (c :: q') n) with (fst (node_nestedRemove (c :: q') n)).
  cbn [tree_vi]. destruct (kfind c (n_kids n)) as [leaf|] eqn:E.
  - destruct (IH leaf (wf_kid _ _ _ H E)) as (Uwf & Uvi & Usz).
    pose proof (nestedRemove_kids c q' n leaf E) as Hk.
    pose proof (n_vi_nestedRemove (c :: q') n) as Hv.
    destruct (fst (node_nestedRemove (c :: q') n)) as [vi' kids']. cbn [n_vi n_kids] in Hk, Hv.
    subst vi'.
    split; [|split].
    + destruct Hk as [[-> _] | ->]; constructor; try assumption.
      * apply ksorted_kerase; assumption.
      * apply Forall_kerase; assumption.
      * apply ksorted_kset; assumption.
      * apply Forall_kset; assumption.
    + intros [|c0 k']; [reflexivity|].
      cbn [tree_vi key_eqb n_kids].
      destruct Hk as [[-> Hd] | ->]; [rewrite kfind_kerase by assumption | rewrite kfind_kset];
        (destruct (Z.eqb_spec c0 c) as [->|_]; cbn [andb]; [rewrite E, <- Uvi | reflexivity]).
      * symmetry. apply tree_vi_dead; assumption.
      * reflexivity.
    + rewrite node_size_eq, (node_size_eq' n).
      destruct Hk as [[-> Hd] | ->].
      * rewrite ksize_kerase, E. cbn [ksz]. apply node_size_dead in Hd. lia.
      * rewrite ksize_kset by assumption. rewrite E. cbn [ksz]. lia.
  - rewrite nestedRemove_none by assumption. cbn [fst]. split; [exact H|]. split.
    + intros k. destruct (key_eqbP k (c :: q')) as [->|_]; [|reflexivity].
      cbn [tree_vi]. rewrite E. reflexivity.
    + change (b01 (-1)) with 0. lia.
Qed.

Lemma wf_unlink : forall q n, wf_node n -> wf_node (unlink q n).
Proof. intros q n H. apply (unlink_spec q n H). Qed.

Lemma tree_vi_unlink : forall q n k, wf_node n ->
  tree_vi k (unlink q n) = if key_eqb k q then -1 else tree_vi k n.
Proof. intros q n k H. apply (unlink_spec q n H). Qed.

Lemma node_size_unlink : forall q n, wf_node n ->
  node_size (unlink q n) = node_size n - b01 (tree_vi q n).
Proof. intros q n H. apply (unlink_spec q n H). Qed.

Definition dec (v j : Z) : Z := if v <? j then j - 1 else j.

(* decrementIndex spares the node it is called on: a child of `node_decr v n` is
   `bump v (node_decr v k)`. *)
Definition bump (v : Z) (k' : node) : node := Node (dec v (n_vi k')) (n_kids k').

Definition decr_kids (v : Z) : list (chr * node) -> list (chr * node) :=
  map (fun p => (fst p, bump v (node_decr v (snd p)))).

Lemma node_decr_eq : forall v vi kids, node_decr v (Node vi kids) = Node vi (decr_kids v kids).
Proof.
  intros v vi kids. cbn [node_decr]. f_equal.
  induction kids as [|[c k] ks IH]; [reflexivity|].
  cbn [decr_kids map fst snd]. rewrite <- IH. reflexivity.
Qed.

Lemma n_vi_decr : forall v n, n_vi (node_decr v n) = n_vi n.
Proof. intros v [vi kids]. rewrite node_decr_eq. reflexivity. Qed.

Lemma n_kids_decr : forall v n, n_kids (node_decr v n) = decr_kids v (n_kids n).
Proof. intros v [vi kids]. rewrite node_decr_eq. reflexivity. Qed.

Lemma kfind_decr_kids : forall v c ks,
  kfind c (decr_kids v ks) = option_map (fun k => bump v (node_decr v k)) (kfind c ks).
Proof.
  intros v c ks. induction ks as [|[c0 k0] ks IH]; [reflexivity|].
  cbn [decr_kids map kfind fst snd]. destruct (c =? c0); [reflexivity | exact IH].
Qed.

Lemma tree_vi_bump_decr : forall v k n, 0 <= v ->
  tree_vi k (bump v (node_decr v n)) = dec v (tree_vi k n).
Proof.
  intros v k. induction k as [|c k IH]; intros n Hv.
  - cbn [tree_vi bump n_vi]. rewrite n_vi_decr. reflexivity.
  - cbn [tree_vi]. unfold bump at 1. cbn [n_kids]. rewrite n_kids_decr, kfind_decr_kids.
    destruct (kfind c (n_kids n)) as [ch|]; cbn [option_map].
    + apply IH. exact Hv.
    + unfold dec. destruct (v <? -1) eqn:E; lia.
Qed.

Lemma tree_vi_decr : forall v c k n, 0 <= v ->
  tree_vi (c :: k) (node_decr v n) = dec v (tree_vi (c :: k) n).
Proof.
  intros v c k n Hv. rewrite <- tree_vi_bump_decr by assumption. reflexivity.
Qed.

Lemma ksorted_decr_kids : forall v ks, ksorted ks -> ksorted (decr_kids v ks).
Proof.
  intros v ks. induction ks as [|p ks IH]; cbn [decr_kids map ksorted]; [trivial|].
  intros [H1 H2]. split; [|apply IH; exact H2]. apply Forall_map. exact H1.
Qed.

Lemma wf_bump : forall v n, 0 <= v -> wf_node n -> wf_node (bump v n).
Proof.
  intros v n Hv (H1 & H2 & H3)%wf_inv. constructor; [|assumption..].
  unfold dec. destruct (v <? n_vi n) eqn:E; lia.
Qed.

Lemma wf_decr : forall v n, 0 <= v -> wf_node n -> wf_node (node_decr v n).
Proof.
  intros v n Hv. induction n as [vi kids IH] using node_ind'. intros (H1 & H2 & H3)%wf_inv.
  cbn [n_vi n_kids] in *. rewrite node_decr_eq.
  constructor; [assumption | apply ksorted_decr_kids; assumption |].
  apply Forall_map. rewrite Forall_forall in *. intros p Hp. apply wf_bump; auto.
Qed.

Lemma node_size_bump : forall v n, 0 <= v -> node_size (bump v n) = node_size n.
Proof.
  intros v n Hv. unfold bump. rewrite node_size_eq, (node_size_eq' n). f_equal.
  unfold b01, dec. destruct (v <? n_vi n) eqn:E; [|reflexivity].
  destruct (0 <=? n_vi n - 1) eqn:E1; destruct (0 <=? n_vi n) eqn:E2; lia.
Qed.

Lemma node_size_decr : forall v n, 0 <= v -> node_size (node_decr v n) = node_size n.
Proof.
  intros v n Hv. induction n as [vi kids IH] using node_ind'.
  rewrite node_decr_eq, !node_size_eq. f_equal.
  induction IH as [|p ks Hp _ IHk]; [reflexivity|].
  cbn [decr_kids map ksize snd]. fold (decr_kids v ks).
  rewrite IHk, node_size_bump, Hp by exact Hv. reflexivity.
Qed.

Lemma n_vi_remove : forall q v n, n_vi (node_remove q v n) = n_vi n.
Proof.
  intros [|c q] v n; [reflexivity|]. unfold node_remove.
  rewrite n_vi_decr. apply n_vi_nestedRemove.
Qed.

Lemma wf_remove : forall q v n, 0 <= v -> wf_node n -> wf_node (node_remove q v n).
Proof.
  intros [|c q] v n Hv H; [exact H|]. unfold node_remove.
  apply wf_decr; [assumption|]. now apply (wf_unlink (c :: q)).
Qed.

(* k = [] is included because inv_bound and inv_inj speak of every key; it needs n_vi n <= v *)
Lemma tree_vi_remove : forall q v n k, q <> [] -> 0 <= v -> wf_node n -> n_vi n <= v ->
  tree_vi k (node_remove q v n) = dec v (if key_eqb k q then -1 else tree_vi k n).
Proof.
  intros [|a q] v n [|c k] Hq Hv H Hn; try contradiction.
  - cbn [tree_vi key_eqb]. rewrite n_vi_remove. unfold dec.
    destruct (Z.ltb_spec v (n_vi n)); [lia | reflexivity].
  - unfold node_remove. rewrite tree_vi_decr by lia.
    now rewrite (tree_vi_unlink (a :: q) n _ H).
Qed.

Lemma node_size_remove : forall q v n, q <> [] -> 0 <= v -> wf_node n ->
  node_size (node_remove q v n) = node_size n - b01 (tree_vi q n).
Proof.
  intros [|a q] v n Hq Hv H; [contradiction|]. unfold node_remove.
  rewrite node_size_decr by exact Hv.
  now apply (node_size_unlink (a :: q)).
Qed.

Definition keep (r : Z * Z) : option (Z * Z) := if 0 <=? snd r then Some r else None.

(* The deepest node with a value along the query, strictly below n, as (depth, value index);
   d is the depth of n. *)
Fixpoint walk (q : key) (n : node) (d : Z) : option (Z * Z) :=
  match q with
  | [] => None
  | c :: q' =>
      match kfind c (n_kids n) with
      | None => None
      | Some k => match walk q' k (d + 1) with
                  | Some r => Some r
                  | None => keep (d + 1, n_vi k)
                  end
      end
  end.

Lemma walk_none_pos : forall q n d l vi, walk q n d = Some (l, vi) -> d < l /\ 0 <= vi.
Proof.
  induction q as [|c q IH]; intros n d l vi H; [discriminate|]. cbn [walk] in H.
  destruct (kfind c (n_kids n)) as [k|]; [|discriminate].
  destruct (walk q k (d + 1)) as [r|] eqn:W.
  - injection H as ->. apply IH in W. lia.
  - unfold keep in H. cbn [snd] in H.
    destruct (Z.leb_spec 0 (n_vi k)); [injection H as <- <-; lia | discriminate].
Qed.

(* the same with n's own value as the last resort: what trieNode::get computes *)
Definition walk_at (q : key) (n : node) (d : Z) : option (Z * Z) :=
  match walk q n d with Some w => Some w | None => keep (d, n_vi n) end.

(* a root holds no value *)
Lemma walk_at_root : forall q n d, n_vi n < 0 -> walk_at q n d = walk q n d.
Proof.
  intros q n d H. unfold walk_at, keep. cbn [snd].
  assert (0 <=? n_vi n = false) as -> by lia. destruct (walk q n d); reflexivity.
Qed.

(* the value index a walk found at depth e, -1 if it ended elsewhere *)
Definition hit_at (e : Z) (w : option (Z * Z)) : Z :=
  match w with Some (l, vi) => if l =? e then vi else -1 | None => -1 end.

(* a walk reaches the end of q exactly when q has a value index *)
Lemma walk_full : forall q n d, wf_node n -> hit_at (d + len q) (walk_at q n d) = tree_vi q n.
Proof.
  induction q as [|c q IH]; intros n d Hwf; unfold walk_at; cbn [walk tree_vi].
  - apply wf_inv in Hwf as [Hv _]. unfold keep. cbn [snd length].
    destruct (Z.leb_spec 0 (n_vi n)); cbn [hit_at]; [|lia].
    rewrite Z.add_0_r, Z.eqb_refl. reflexivity.
  - (* n's own value sits at depth d, above the end of the query *)
    assert (Hd : hit_at (d + 1 + len q) (keep (d, n_vi n)) = -1).
    { unfold keep. cbn [snd]. destruct (0 <=? n_vi n); [|reflexivity]. cbn [hit_at].
      destruct (Z.eqb_spec d (d + 1 + len q)); [lia | reflexivity]. }
    replace (d + len (c :: q)) with (d + 1 + len q) by (cbn [length]; lia).
    destruct (kfind c (n_kids n)) as [k|] eqn:E; [|exact Hd].
    specialize (IH k (d + 1) (wf_kid _ _ _ Hwf E)). fold (walk_at q k (d + 1)).
    destruct (walk_at q k (d + 1)); [exact IH|]. rewrite <- IH. exact Hd.
Qed.

Lemma node_get_walk : forall q d n, keep (node_get_gen 0 q d n) = walk_at q n d.
Proof.
  induction q as [|c q IH]; intros d n; [reflexivity|]. unfold walk_at. cbn [walk node_get_gen].
  destruct (kfind c (n_kids n)) as [k|]; [|reflexivity].
  fold (walk_at q k (d + 1)). rewrite <- IH, Z.add_0_r.
  set (r := node_get_gen 0 q (d + 1) k). unfold keep.
  destruct (0 <=? snd r) eqn:E; cbn [negb andb]; [rewrite E; reflexivity|].
  destruct (0 <=? n_vi n) eqn:En; cbn [snd]; rewrite ?E, ?En; reflexivity.
Qed.

Lemma node_get_ge : forall q d n, wf_node n -> -1 <= snd (node_get_gen 0 q d n).
Proof.
  induction q as [|c q IH]; intros d n H; cbn [node_get_gen];
    pose proof (proj1 (wf_inv _ H)) as Hn; [exact Hn|].
  destruct (kfind c (n_kids n)) as [k|] eqn:E; [|exact Hn].
  destruct (negb _ && _); [exact Hn | apply IH; eapply wf_kid; eassumption].
Qed.

Lemma getValueIndex_tree_vi : forall q n, wf_node n -> node_getValueIndex q n = tree_vi q n.
Proof.
  intros q n Hwf. unfold node_getValueIndex, node_get.
  rewrite <- (walk_full q n 0 Hwf), <- node_get_walk.
  pose proof (node_get_ge q 0 n Hwf) as Hge.
  destruct (node_get_gen 0 q 0 n) as [l v]. unfold keep. cbn [fst snd] in *.
  destruct (Z.leb_spec 0 v); cbn [hit_at]; [reflexivity|]. destruct (l =? len q); [lia | reflexivity].
Qed.

Definition res_of (w : option (Z * Z)) : qres :=
  match w with Some (l, vi) => QOk true l vi | None => QOk false 0 (-1) end.

Lemma unfrozen_getLongest : forall q t, n_vi (t_root t) < 0 -> t_frozen t = None ->
  t_getLongest q t = res_of (walk q (t_root t) 0).
Proof.
  intros q t Hr Hf. unfold t_getLongest, node_get.
  rewrite Hf, <- (walk_at_root q _ 0 Hr), <- node_get_walk.
  destruct (node_get_gen 0 q 0 (t_root t)) as [l v]. unfold keep. cbn [fst snd].
  destruct (0 <=? v); reflexivity.
Qed.

Lemma s_lookup_remove : forall k k' m,
  s_lookup k' (s_remove k m) = if key_eqb k' k then None else s_lookup k' m.
Proof.
  intros k k' m. induction m as [|[k0 v0] m IH]; cbn [s_remove s_lookup].
  - destruct (key_eqb k' k); reflexivity.
  - destruct (key_eqbP k k0) as [<-|Hne]; cbn [s_lookup]; rewrite IH.
    + destruct (key_eqb k' k); reflexivity.
    + destruct (key_eqbP k' k0) as [->|_]; [|reflexivity]. now rewrite key_eqb_neq by congruence.
Qed.

Lemma s_lookup_add : forall k q v m,
  s_lookup k (s_add q v m) = if key_eqb k q then Some v else s_lookup k m.
Proof.
  intros k q v m. unfold s_add. cbn [s_lookup]. rewrite s_lookup_remove.
  destruct (key_eqb k q); reflexivity.
Qed.

Lemma s_lookup_in : forall k m, In k (map fst m) <-> s_lookup k m <> None.
Proof.
  intros k m. induction m as [|[k0 v0] m IH]; cbn [map fst In s_lookup]; [tauto|].
  destruct (key_eqbP k k0) as [->|Hne].
  - split; [discriminate | now left].
  - rewrite <- IH. split; [intros [H|H]; [congruence | exact H] | now right].
Qed.

Lemma s_remove_none : forall k m, s_lookup k m = None -> s_remove k m = m.
Proof.
  intros k m. induction m as [|[k0 v0] m IH]; cbn [s_remove s_lookup]; intro H; [reflexivity|].
  destruct (key_eqb k k0); [discriminate|]. rewrite IH by assumption. reflexivity.
Qed.

Lemma s_remove_keys : forall k k' m, In k' (map fst (s_remove k m)) -> In k' (map fst m).
Proof.
  intros k k' m H. apply s_lookup_in. apply s_lookup_in in H. rewrite s_lookup_remove in H.
  destruct (key_eqb k' k); [contradiction | exact H].
Qed.

Lemma nodup_remove : forall k m, NoDup (map fst m) -> NoDup (map fst (s_remove k m)).
Proof.
  intros k m. induction m as [|[k0 v0] m IH]; cbn [s_remove map fst]; intro H; [exact H|].
  apply NoDup_cons_iff in H as [Hn Hd]. destruct (key_eqb k k0); [apply IH; exact Hd|].
  cbn [map fst]. constructor; [|apply IH; exact Hd].
  intro Hin. apply Hn. eapply s_remove_keys. exact Hin.
Qed.

Lemma nodup_add : forall k v m, NoDup (map fst m) -> NoDup (map fst (s_add k v m)).
Proof.
  intros k v m H. unfold s_add. cbn [map fst]. constructor; [|apply nodup_remove; exact H].
  intro Hin. apply s_lookup_in in Hin. apply Hin. now rewrite s_lookup_remove, key_eqb_refl.
Qed.

Definition has01 (o : option Z) : Z := match o with Some _ => 1 | None => 0 end.

Lemma s_remove_length : forall k m, NoDup (map fst m) ->
  len (s_remove k m) = len m - has01 (s_lookup k m).
Proof.
  intros k m. induction m as [|[k0 v0] m IH]; cbn [s_remove s_lookup map fst]; intro H.
  - cbn. lia.
  - apply NoDup_cons_iff in H as [Hn Hd]. destruct (key_eqbP k k0) as [<-|_].
    + rewrite s_remove_none; [cbn [has01 length]; lia|].
      destruct (s_lookup k m) eqn:E; [|reflexivity]. destruct Hn. apply s_lookup_in. congruence.
    + cbn [length]. rewrite !Nat2Z.inj_succ. rewrite IH by assumption. lia.
Qed.

Lemma s_longest_best : forall q m pre best,
  s_longest q m pre best = match s_longest q m pre None with Some r => Some r | None => best end.
Proof.
  induction q as [|c q IH]; intros m pre best; cbn [s_longest]; [reflexivity|].
  destruct (s_lookup (pre ++ [c]) m); [|apply IH].
  rewrite (IH m _ (Some _)). destruct (s_longest q m (pre ++ [c]) None); reflexivity.
Qed.

Lemma s_longest_none : forall q m pre best,
  (forall k, k <> [] -> s_lookup (pre ++ k) m = None) -> s_longest q m pre best = best.
Proof.
  induction q as [|c q IH]; intros m pre best H; cbn [s_longest]; [reflexivity|].
  rewrite (H [c]) by discriminate. apply IH.
  intros k Hk. rewrite <- app_assoc. apply H. discriminate.
Qed.

(* Model.arr_get, for the value vector *)
Definition vlookup (values : list Z) (i : Z) : option Z :=
  if 0 <=? i then nth_error values (Z.to_nat i) else None.

Lemma vlookup_neg : forall values i, i < 0 -> vlookup values i = None.
Proof. intros values i H. unfold vlookup. assert (0 <=? i = false) as -> by lia. reflexivity. Qed.

Lemma vlookup_some : forall values i, 0 <= i < len values -> exists v, vlookup values i = Some v.
Proof.
  intros values i H. unfold vlookup. assert (0 <=? i = true) as -> by lia.
  destruct (nth_error values (Z.to_nat i)) as [v|] eqn:E; [eexists; reflexivity|].
  apply nth_error_None in E. lia.
Qed.

Lemma vlookup_app : forall l l' i, i < len l -> vlookup (l ++ l') i = vlookup l i.
Proof.
  intros l l' i H. unfold vlookup. destruct (0 <=? i) eqn:E; [|reflexivity].
  apply nth_error_app1. lia.
Qed.

Lemma vlookup_snoc : forall l v, vlookup (l ++ [v]) (len l) = Some v.
Proof.
  intros l v. unfold vlookup. assert (0 <=? len l = true) as -> by lia.
  rewrite Nat2Z.id, nth_error_app2 by lia. rewrite Nat.sub_diag. reflexivity.
Qed.

Lemma list_set_length : forall {A} (l : list A) i x, length (list_set l i x) = length l.
Proof.
  induction l as [|y l IH]; intros [|i] x; cbn [list_set length]; try reflexivity.
  rewrite IH. reflexivity.
Qed.

Lemma nth_error_list_set_eq : forall {A} (l : list A) i x, (i < length l)%nat ->
  nth_error (list_set l i x) i = Some x.
Proof.
  induction l as [|y l IH]; intros [|i] x H; cbn [list_set length nth_error] in *; try lia.
  - reflexivity.
  - apply IH. lia.
Qed.

Lemma nth_error_list_set_ne : forall {A} (l : list A) i j x, i <> j ->
  nth_error (list_set l i x) j = nth_error l j.
Proof.
  induction l as [|y l IH]; intros [|i] [|j] x H; cbn [list_set nth_error]; try reflexivity.
  - contradiction.
  - apply IH. lia.
Qed.

Lemma list_del_length : forall {A} (l : list A) i, (i < length l)%nat ->
  length (list_del l i) = (length l - 1)%nat.
Proof.
  induction l as [|y l IH]; intros [|i] H; cbn [list_del length] in *; try lia.
  rewrite IH by lia. lia.
Qed.

Lemma nth_error_list_del_lt : forall {A} (l : list A) i j, (j < i)%nat ->
  nth_error (list_del l i) j = nth_error l j.
Proof.
  induction l as [|y l IH]; intros [|i] [|j] H; cbn [list_del nth_error]; try reflexivity; try lia.
  apply IH. lia.
Qed.

Lemma nth_error_list_del_ge : forall {A} (l : list A) i j, (i <= j)%nat ->
  nth_error (list_del l i) j = nth_error l (S j).
Proof.
  induction l as [|y l IH]; intros i j H.
  - destruct i, j; reflexivity.
  - destruct i as [|i]; [reflexivity|].
    destruct j as [|j]; [lia|]. cbn [list_del nth_error]. apply IH. lia.
Qed.

Lemma vlookup_set : forall l i j x, 0 <= i < len l ->
  vlookup (list_set l (Z.to_nat i) x) j = if j =? i then Some x else vlookup l j.
Proof.
  intros l i j x Hi. unfold vlookup. destruct (j =? i) eqn:E.
  - assert (j = i) by lia. subst j. assert (0 <=? i = true) as -> by lia.
    apply nth_error_list_set_eq. lia.
  - destruct (0 <=? j) eqn:Ej; [|reflexivity]. apply nth_error_list_set_ne. lia.
Qed.

(* removing values[i] shifts the indices above i down by one: `dec i`, what decrementIndex does *)
Lemma vlookup_del : forall l i j, 0 <= i -> j <> i ->
  vlookup (list_del l (Z.to_nat i)) (dec i j) = vlookup l j.
Proof.
  intros l i j Hi Hj. unfold vlookup, dec. destruct (i <? j) eqn:E.
  - assert (0 <=? j - 1 = true) as -> by lia. assert (0 <=? j = true) as -> by lia.
    rewrite nth_error_list_del_ge by lia. f_equal. lia.
  - destruct (0 <=? j) eqn:Ej; [|reflexivity]. apply nth_error_list_del_lt. lia.
Qed.

Lemma dec_bound : forall i j n, i < n -> j <> i -> j < n -> dec i j < n - 1.
Proof. intros i j n Hi Hj Hn. unfold dec. destruct (i <? j) eqn:E; lia. Qed.

Lemma dec_inj : forall i a b, a <> i -> b <> i -> dec i a = dec i b -> a = b.
Proof. intros i a b Ha Hb. unfold dec. destruct (i <? a) eqn:E1, (i <? b) eqn:E2; lia. Qed.

Lemma dec_nonneg : forall i a, 0 <= dec i a -> 0 <= a.
Proof. intros i a. unfold dec. destruct (i <? a) eqn:E; lia. Qed.

(* node n, reached by prefix `pre`, represents the part of m below `pre`, and its value indices
   lie inside `values` *)
Definition rep (values : list Z) (m : smap) (n : node) (pre : list Z) : Prop :=
  forall k : list Z, k <> [] ->
    vlookup values (tree_vi k n) = s_lookup (pre ++ k) m /\ tree_vi k n < len values.

(* (length, value index) on the tree side against (length, value) on the map side *)
Definition res_rel (values : list Z) (w s : option (Z * Z)) : Prop :=
  match w, s with
  | Some (l, vi), Some (l', v) => l = l' /\ 0 <= vi /\ nth_error values (Z.to_nat vi) = Some v
  | None, None => True
  | _, _ => False
  end.

Lemma walk_longest : forall values m q n d pre, rep values m n pre -> d = len pre ->
  res_rel values (walk q n d) (s_longest q m pre None).
Proof.
  intros values m. induction q as [|c q IH]; intros n d pre Hrep Hd; cbn [walk s_longest]; [exact I|].
  destruct (Hrep [c]) as [H1 H2]; [discriminate|]. cbn [tree_vi] in H1, H2.
  (* all three are list Z; the rewrites need them to look alike *)
  unfold key, skey, chr in *.
  destruct (kfind c (n_kids n)) as [k|] eqn:E.
  - rewrite s_longest_best.
    assert (Hk : rep values m k (pre ++ [c])).
    { intros k' Hk'. rewrite <- app_assoc. cbn [app].
      destruct (Hrep (c :: k')) as [R1 R2]; [discriminate|]. cbn [tree_vi] in R1, R2.
      rewrite E in R1, R2. split; assumption. }
    specialize (IH k (d + 1) _ Hk ltac:(rewrite app_length; cbn [length]; lia)).
    destruct (walk q k (d + 1)) as [[l vi]|]; destruct (s_longest q m (pre ++ [c]) None) as [[l' v]|];
      cbn [res_rel] in IH; try contradiction; [exact IH|].
    (* nothing deeper on either side: the child's own value decides *)
    rewrite <- H1. unfold keep. cbn [snd]. destruct (0 <=? n_vi k) eqn:Ek.
    + destruct (vlookup_some values (n_vi k)) as [v Hv]; [lia|].
      rewrite Hv. unfold vlookup in Hv. rewrite Ek in Hv.
      cbn [res_rel]. rewrite app_length. cbn [length].
      split; [lia|]. split; [lia | exact Hv].
    + rewrite vlookup_neg by lia. exact I.
  - rewrite <- H1, vlookup_neg by lia. rewrite s_longest_none; [exact I|].
    intros k' Hk'. rewrite <- app_assoc. cbn [app].
    destruct (Hrep (c :: k')) as [R1 R2]; [discriminate|]. cbn [tree_vi] in R1.
    rewrite E in R1. rewrite <- R1. apply vlookup_neg. lia.
Qed.

Fixpoint kcount (ks : list (chr * node)) : Z :=
  match ks with
  | [] => 0
  | p :: ks' => node_count (snd p) + kcount ks'
  end.

Lemma node_count_eq : forall vi kids, node_count (Node vi kids) = len kids + kcount kids.
Proof.
  intros vi kids. cbn [node_count]. f_equal.
  induction kids as [|[c k] ks IH]; [reflexivity|].
  cbn [kcount snd]. rewrite <- IH. reflexivity.
Qed.

Definition kentry (c : chr) (k : node) (o : Z) : entry :=
  {| e_char := c; e_offset := o; e_count := len (n_kids k); e_vi := n_vi k |}.

Fixpoint lay_blk (ks : list (chr * node)) (lo : Z) : list entry :=
  match ks with
  | [] => []
  | p :: ks' => kentry (fst p) (snd p) lo :: lay_blk ks' (lo + node_count (snd p))
  end.

Fixpoint lay_subs (ks : list (chr * node)) (lo : Z) : list entry :=
  match ks with
  | [] => []
  | p :: ks' => lay (snd p) lo ++ lay_subs ks' (lo + node_count (snd p))
  end.

(* Model.lay's inner loop, named so that lay_eq can rewrite it into lay_blk / lay_subs *)
Definition lay_go :=
  fix go (ks : list (chr * node)) (leafOffset : Z) : list entry * list entry :=
    match ks with
    | [] => ([], [])
    | (c, k) :: ks' =>
        let sub := lay k leafOffset in
        let '(blk, subs) := go ks' (leafOffset + node_count k) in
        ({| e_char := c; e_offset := leafOffset;
            e_count := Z.of_nat (length (n_kids k)); e_vi := n_vi k |} :: blk,
         sub ++ subs)
    end.

Lemma lay_go_eq : forall ks lo, lay_go ks lo = (lay_blk ks lo, lay_subs ks lo).
Proof.
  induction ks as [|[c k] ks IH]; intro lo; [reflexivity|].
  cbn [lay_go lay_blk lay_subs fst snd]. rewrite IH. reflexivity.
Qed.

Lemma lay_eq : forall vi kids off,
  lay (Node vi kids) off
  = lay_blk kids (off + len kids) ++ lay_subs kids (off + len kids).
Proof.
  intros. change (lay (Node vi kids) off)
    with (let p := lay_go kids (off + len kids) in fst p ++ snd p).
  rewrite lay_go_eq. reflexivity.
Qed.

Lemma lay_blk_length : forall ks lo, length (lay_blk ks lo) = length ks.
Proof.
  induction ks as [|p ks IH]; intro lo; cbn [lay_blk length]; [reflexivity|].
  rewrite IH. reflexivity.
Qed.

Lemma lay_length : forall n off, len (lay n off) = node_count n.
Proof.
  induction n as [vi kids IH] using node_ind'. intro off.
  rewrite lay_eq, node_count_eq, app_length, lay_blk_length, Nat2Z.inj_add.
  f_equal. generalize (off + len kids) as lo.
  induction IH as [|p ks Hp _ IHk]; intro lo; [reflexivity|].
  cbn [lay_subs kcount]. rewrite app_length, Nat2Z.inj_add, IHk, Hp. reflexivity.
Qed.

Lemma lay_kids_nth : forall ks i c k lo, nth_error ks i = Some (c, k) ->
  exists s1 s2,
    nth_error (lay_blk ks lo) i = Some (kentry c k (lo + len s1)) /\
    lay_subs ks lo = s1 ++ lay k (lo + len s1) ++ s2.
Proof.
  induction ks as [|[c0 k0] ks IH]; intros i c k lo H; [destruct i; discriminate|].
  destruct i as [|i].
  - cbn [nth_error] in H. injection H as -> ->. exists [], (lay_subs ks (lo + node_count k)).
    cbn [length Z.of_nat]. rewrite Z.add_0_r. split; reflexivity.
  - cbn [nth_error] in H. destruct (IH i c k (lo + node_count k0) H) as (s1 & s2 & H1 & H2).
    exists (lay k0 lo ++ s1), s2. cbn [lay_blk lay_subs nth_error fst snd].
    rewrite app_length, Nat2Z.inj_add, lay_length.
    rewrite Z.add_assoc. split; [exact H1|]. rewrite H2, <- app_assoc. reflexivity.
Qed.

(* the array a holds `lay n off` from index off on *)
Definition laid (a : list entry) (n : node) (off : Z) : Prop :=
  exists pre post, a = pre ++ lay n off ++ post /\ len pre = off.

Lemma laid_kid : forall a n off i p, laid a n off -> nth_error (n_kids n) i = Some p ->
  exists o, arr_get a (off + Z.of_nat i) = Some (kentry (fst p) (snd p) o) /\ laid a (snd p) o.
Proof.
  intros a [vi kids] off i [c k] (pre & post & Ha & Hp) H. cbn [n_kids fst snd] in *.
  rewrite lay_eq in Ha.
  destruct (lay_kids_nth kids i c k (off + len kids) H) as (s1 & s2 & H1 & H2).
  exists (off + len kids + len s1). split.
  - unfold arr_get. assert (0 <=? off + Z.of_nat i = true) as -> by lia.
    replace (Z.to_nat (off + Z.of_nat i)) with (length pre + i)%nat by lia.
    rewrite Ha. rewrite nth_error_app2 by lia.
    replace (length pre + i - length pre)%nat with i by lia.
    assert (Hi : (i < length (lay_blk kids (off + len kids)))%nat)
      by (apply nth_error_Some; rewrite H1; discriminate).
    rewrite nth_error_app1 by (rewrite app_length; lia).
    rewrite nth_error_app1 by exact Hi. exact H1.
  - exists (pre ++ lay_blk kids (off + len kids) ++ s1), (s2 ++ post). split.
    + rewrite Ha, H2. rewrite <- !app_assoc. reflexivity.
    + rewrite !app_length, lay_blk_length. lia.
Qed.

Lemma laid_root : forall n post, laid (lay n 0 ++ post) n 0.
Proof. intros n post. exists [], post. split; reflexivity. Qed.

Lemma ksorted_nth : forall ks i j p1 p2, ksorted ks -> (i < j)%nat ->
  nth_error ks i = Some p1 -> nth_error ks j = Some p2 -> fst p1 < fst p2.
Proof.
  induction ks as [|p ks IH]; intros i j p1 p2 Hs Hij H1 H2; [destruct i; discriminate|].
  cbn [ksorted] in Hs. destruct Hs as [Hs1 Hs2].
  destruct j as [|j]; [lia|]. cbn [nth_error] in H2. destruct i as [|i].
  - cbn [nth_error] in H1. injection H1 as <-. apply nth_error_In in H2.
    rewrite Forall_forall in Hs1. apply Hs1. exact H2.
  - cbn [nth_error] in H1. eapply IH; [exact Hs2 | | exact H1 | exact H2]. lia.
Qed.

Lemma kfind_nth : forall ks j p, ksorted ks -> nth_error ks j = Some p ->
  kfind (fst p) ks = Some (snd p).
Proof.
  induction ks as [|[c0 k0] ks IH]; intros j [c k] Hs H; [destruct j; discriminate|].
  cbn [ksorted] in Hs. destruct Hs as [Hs1 Hs2]. destruct j as [|j]; cbn [nth_error kfind fst snd] in *.
  - injection H as -> ->. rewrite Z.eqb_refl. reflexivity.
  - apply nth_error_In in H as Hin. rewrite Forall_forall in Hs1. apply Hs1 in Hin.
    cbn [fst] in Hin. assert (c =? c0 = false) as -> by lia. exact (IH j (c, k) Hs2 H).
Qed.

Lemma kfind_none_nth : forall ks c,
  (forall j c' k, nth_error ks j = Some (c', k) -> c' <> c) -> kfind c ks = None.
Proof.
  intros ks c H. destruct (kfind c ks) as [k|] eqn:E; [|reflexivity].
  apply kfind_In, In_nth_error in E as [j E]. now apply H in E.
Qed.

Lemma mid_bounds : forall s e, 0 <= s -> s <= e -> s <= Z.quot (s + e) 2 <= e.
Proof.
  intros s e H1 H2. rewrite Z.quot_div_nonneg by lia.
  pose proof (Z.div_mod (s + e) 2 ltac:(lia)).
  pose proof (Z.mod_pos_bound (s + e) 2 ltac:(lia)). lia.
Qed.

(* The search over any array segment whose characters ascend, given by position (chr_at) and
   not as a child list: the loop proof then stays in Z. *)
Section BSearch.
  Variables (a : list entry) (off n : Z) (chr_at : Z -> chr) (ci : chr).
  Hypothesis Hget : forall j, 0 <= j < n ->
    exists e, arr_get a (off + j) = Some e /\ e_char e = chr_at j.
  Hypothesis Hasc : forall i j, 0 <= i < j -> j < n -> chr_at i < chr_at j.

  Lemma bsearch_spec : forall fuel start end_,
    0 <= start -> end_ < n -> end_ - start + 1 < Z.of_nat fuel ->
    match bsearch fuel a off ci start end_ with
    | Some (Some (mid, e)) =>
        start <= mid <= end_ /\ arr_get a (off + mid) = Some e /\ chr_at mid = ci
    | Some None => forall j, start <= j <= end_ -> chr_at j <> ci
    | None => False
    end.
  Proof.
    assert (Hle : forall i j, 0 <= i <= j -> j < n -> chr_at i <= chr_at j).
    { intros i j Hij Hj. destruct (Z.eq_dec i j) as [->|Hne]; [lia|]. apply Z.lt_le_incl, Hasc; lia. }
    induction fuel as [|fuel IH]; intros start end_ Hs He Hf; [cbn; lia|].
    cbn [bsearch]. destruct (Z.leb_spec start end_) as [Hse|Hse]; [|lia].
    pose proof (mid_bounds start end_ Hs Hse) as Hm.
    set (mid := Z.quot (start + end_) 2) in *.
    destruct (Hget mid) as (e & Hgm & Hc); [lia|]. rewrite Hgm, Hc.
    destruct (Z.ltb_spec ci (chr_at mid)) as [Hlt|Hge].
    - specialize (IH start (mid - 1) ltac:(lia) ltac:(lia) ltac:(lia)).
      destruct (bsearch fuel a off ci start (mid - 1)) as [[[m e']|]|]; [| |exact IH].
      + split; [lia | apply IH].
      + intros j Hj. destruct (Z_le_gt_dec j (mid - 1)); [apply IH; lia|].
        specialize (Hle mid j). lia.
    - destruct (Z.ltb_spec (chr_at mid) ci) as [Hlt|Hge']; [|split; [lia|]; split; [exact Hgm | lia]].
      specialize (IH (mid + 1) end_ ltac:(lia) ltac:(lia) ltac:(lia)).
      destruct (bsearch fuel a off ci (mid + 1) end_) as [[[m e']|]|]; [| |exact IH].
      + split; [lia | apply IH].
      + intros j Hj. destruct (Z_le_gt_dec (mid + 1) j); [apply IH; lia|].
        specialize (Hle j mid). lia.
  Qed.
End BSearch.

(* the block of a node's children in the frozen arrays answers kfind *)
Lemma laid_search : forall a n off c, wf_node n -> laid a n off ->
  match kfind c (n_kids n) with
  | Some k => exists mid o,
      bsearch (S (Z.to_nat (len (n_kids n)))) a off c 0 (len (n_kids n) - 1)
      = Some (Some (mid, kentry c k o)) /\ laid a k o
  | None => bsearch (S (Z.to_nat (len (n_kids n)))) a off c 0 (len (n_kids n) - 1) = Some None
  end.
Proof.
  intros a n off c Hwf Hlaid. pose proof (wf_inv _ Hwf) as (_ & W2 & _).
  set (kid := fun j => nth (Z.to_nat j) (n_kids n) (0, empty_node)).
  assert (Hnth : forall j, 0 <= j < len (n_kids n) ->
            nth_error (n_kids n) (Z.to_nat j) = Some (kid j))
    by (intros j Hj; apply nth_error_nth'; lia).
  assert (Hentry : forall j, 0 <= j < len (n_kids n) ->
            exists e, arr_get a (off + j) = Some e /\ e_char e = fst (kid j)).
  { intros j Hj. destruct (laid_kid a n off _ _ Hlaid (Hnth j Hj)) as (o & Ho & _).
    rewrite Z2Nat.id in Ho by lia. eexists. split; [exact Ho | reflexivity]. }
  assert (Hasc : forall i j, 0 <= i < j -> j < len (n_kids n) -> fst (kid i) < fst (kid j)).
  { intros i j Hi Hj.
    apply (ksorted_nth (n_kids n) (Z.to_nat i) (Z.to_nat j) _ _ W2); [lia | apply Hnth; lia..]. }
  pose proof (bsearch_spec a off (len (n_kids n)) (fun j => fst (kid j)) c Hentry Hasc
                (S (Z.to_nat (len (n_kids n)))) 0 (len (n_kids n) - 1)
                ltac:(lia) ltac:(lia) ltac:(lia)) as B.
  destruct (bsearch _ a off c 0 _) as [[[mid e]|]|];
    [destruct B as (Hmid & Hget & Hc) | rename B into Hall | contradiction].
  - pose proof (Hnth mid ltac:(lia)) as Hk. subst c. rewrite (kfind_nth _ _ _ W2 Hk).
    destruct (laid_kid a n off _ _ Hlaid Hk) as (o & Ho & Hlk).
    rewrite Z2Nat.id, Hget in Ho by lia. injection Ho as ->.
    exists mid, o. split; [reflexivity | exact Hlk].
  - rewrite kfind_none_nth; [reflexivity|].
    intros j c' k Hj.
    assert ((j < length (n_kids n))%nat) by (apply nth_error_Some; rewrite Hj; discriminate).
    specialize (Hall (Z.of_nat j) ltac:(lia)). unfold kid in Hall.
    rewrite Nat2Z.id, (nth_error_nth _ _ _ Hj) in Hall. exact Hall.
Qed.

Lemma frozen_walk : forall q a n off d rl rv, wf_node n -> laid a n off ->
  frozen_loop a q d off (len (n_kids n)) rl rv
  = match walk q n d with Some (l, v) => FOk l v | None => FOk rl rv end.
Proof.
  induction q as [|c q IH]; intros a n off d rl rv Hwf Hlaid; [reflexivity|].
  cbn [walk frozen_loop].
  pose proof (laid_search a n off c Hwf Hlaid) as S.
  destruct (kfind c (n_kids n)) as [k|] eqn:E; [|rewrite S; reflexivity].
  destruct S as (mid & o & -> & Hlk). cbn [kentry e_vi e_offset e_count].
  pose proof (wf_kid _ _ _ Hwf E) as Hwk. unfold keep. cbn [snd].
  destruct (0 <=? n_vi k); rewrite (IH a k o (d + 1) _ _ Hwk Hlk);
    destruct (walk q k (d + 1)) as [[l v]|]; reflexivity.
Qed.

Lemma frozen_getLongest : forall q t, wf_node (t_root t) ->
  t_frozen t = Some (freeze_node (t_root t)) ->
  t_getLongest q t = res_of (walk q (t_root t) 0).
Proof.
  intros q t Hwf Hf. unfold t_getLongest. rewrite Hf. unfold freeze_node. cbn [f_arr f_base].
  rewrite (frozen_walk q _ (t_root t) 0 0 0 (-1) Hwf (laid_root _ _)).
  destruct (walk q (t_root t) 0) as [[l v]|] eqn:W; [|reflexivity].
  apply walk_none_pos in W. cbn [res_of].
  assert (l =? 0 = false) as -> by lia. assert (0 <=? v = true) as -> by lia. reflexivity.
Qed.

Record Inv' (root : node) (values : list Z) (m : smap) : Prop := {
  inv_wf : wf_node root;
  inv_root : n_vi root = -1;
  inv_rep : forall k : list Z, k <> [] -> vlookup values (tree_vi k root) = s_lookup k m;
  inv_bound : forall k : list Z, tree_vi k root < len values;
  inv_inj : forall k1 k2 : list Z,
      0 <= tree_vi k1 root -> tree_vi k1 root = tree_vi k2 root -> k1 = k2;
  inv_size : node_size root = len values;
  inv_len : len m = len values;
  inv_nodup : NoDup (map fst m)
}.

Definition frozen_ok (t : trie) : Prop :=
  t_frozen t = None \/ t_frozen t = Some (freeze_node (t_root t)).

Definition Inv (t : trie) (m : smap) : Prop :=
  Inv' (t_root t) (t_values t) m /\ frozen_ok t.

Lemma inv_empty : Inv' empty_node [] [].
Proof.
  constructor.
  - apply wf_empty.
  - reflexivity.
  - intros k Hk. rewrite tree_vi_empty. reflexivity.
  - intro k. rewrite tree_vi_empty. cbn. lia.
  - intros k1 k2 H. rewrite tree_vi_empty in H. lia.
  - reflexivity.
  - reflexivity.
  - constructor.
Qed.

Lemma inv_init : forall auto, Inv (trie_init auto) [].
Proof. intro auto. split; [exact inv_empty | left; reflexivity]. Qed.

Lemma inv_freeze : forall t m, Inv t m -> Inv (t_freeze t) m.
Proof. intros t m [H _]. split; [exact H | right; reflexivity]. Qed.

Lemma inv_defrost : forall t m, Inv t m -> Inv (t_defrost t) m.
Proof. intros t m [H _]. split; [exact H | left; reflexivity]. Qed.

Lemma inv_auto : forall (b : bool) t m, Inv t m -> Inv (if b then t_freeze t else t) m.
Proof. intros [|] t m H; [apply inv_freeze|]; exact H. Qed.

Lemma inv_clear : forall t m, Inv t m -> Inv (t_clear t) [].
Proof.
  intros t m [H _]. split; [|left; reflexivity]. cbn [t_clear t_root t_values].
  rewrite (inv_root _ _ _ H). exact inv_empty.
Qed.

Lemma inv_stored : forall root values m q, Inv' root values m -> q <> [] ->
  (s_lookup q m = None <-> tree_vi q root < 0).
Proof.
  intros root values m q H Hq. rewrite <- (inv_rep _ _ _ H) by exact Hq. split; [|apply vlookup_neg].
  intro E. destruct (Z.lt_ge_cases (tree_vi q root) 0) as [Hv|Hv]; [exact Hv|].
  destruct (vlookup_some values (tree_vi q root)) as [x Hx]; [|congruence].
  split; [exact Hv | apply (inv_bound _ _ _ H)].
Qed.

Lemma inv_add_new : forall root values m q v, q <> [] -> Inv' root values m ->
  tree_vi q root < 0 -> Inv' (node_add q (len values) root) (values ++ [v]) (s_add q v m).
Proof.
  intros root values m q v Hq H Hneg.
  pose proof (proj2 (inv_stored _ _ _ q H Hq) Hneg) as Hlk.
  destruct H as [Hwf Hroot Hrep Hbound Hinj Hsize Hlen Hnd].
  constructor.
  - (* inv_wf *) apply wf_add; [lia | exact Hwf].
  - (* inv_root *) destruct q as [|a q0]; [contradiction | exact Hroot].
  - (* inv_rep *) intros k Hk. rewrite tree_vi_add, s_lookup_add. destruct (key_eqb k q).
    + apply vlookup_snoc.
    + rewrite vlookup_app by apply Hbound. now apply Hrep.
  - (* inv_bound *) intro k. rewrite tree_vi_add, app_length, Nat2Z.inj_add. cbn [length].
    destruct (key_eqb k q); [lia|]. specialize (Hbound k). lia.
  - (* inv_inj: the new index len values is above every old one *)
    intros k1 k2. rewrite !tree_vi_add. pose proof (Hbound k1) as B1. pose proof (Hbound k2) as B2.
    destruct (key_eqbP k1 q) as [->|_]; destruct (key_eqbP k2 q) as [->|_]; intros P1 P2.
    + reflexivity.
    + clear - P2 B2. lia.
    + clear - P2 B1. lia.
    + apply Hinj; assumption.
  - (* inv_size *) rewrite node_size_add by exact Hwf. rewrite app_length, Nat2Z.inj_add. cbn [length].
    rewrite Hsize. unfold b01.
    assert (0 <=? tree_vi q root = false) as -> by lia.
    assert (0 <=? len values = true) as -> by lia. lia.
  - (* inv_len *) unfold s_add. cbn [length]. rewrite s_remove_none by exact Hlk.
    rewrite app_length, Nat2Z.inj_add, Nat2Z.inj_succ. cbn [length]. lia.
  - (* inv_nodup *) apply nodup_add. exact Hnd.
Qed.

Lemma inv_overwrite : forall root values m q v, q <> [] -> Inv' root values m ->
  0 <= tree_vi q root ->
  Inv' root (list_set values (Z.to_nat (tree_vi q root)) v) (s_add q v m).
Proof.
  intros root values m q v Hq H Hpos.
  assert (Hlk : s_lookup q m <> None) by (intro E; apply (inv_stored _ _ _ q H Hq) in E; lia).
  destruct H as [Hwf Hroot Hrep Hbound Hinj Hsize Hlen Hnd].
  pose proof (Hbound q) as Hi.
  constructor; try assumption.
  - (* inv_rep: the other keys keep their values because no other key has q's index (inv_inj) *)
    intros k Hk. rewrite s_lookup_add, vlookup_set by lia. destruct (key_eqbP k q) as [->|Hne].
    + now rewrite Z.eqb_refl.
    + rewrite <- Hrep by assumption.
      destruct (Z.eqb_spec (tree_vi k root) (tree_vi q root)) as [Ek|Ek]; [|reflexivity].
      destruct Hne. symmetry. now apply Hinj.
  - (* inv_bound *) intro k. rewrite list_set_length. apply Hbound.
  - (* inv_size *) rewrite list_set_length. exact Hsize.
  - (* inv_len *) unfold s_add. cbn [length]. rewrite Nat2Z.inj_succ, list_set_length.
    rewrite s_remove_length by exact Hnd.
    destruct (s_lookup q m); [cbn [has01]; lia | contradiction].
  - (* inv_nodup *) apply nodup_add. exact Hnd.
Qed.

Lemma inv_remove_stored : forall root values m q, q <> [] -> Inv' root values m ->
  let i := tree_vi q root in
  0 <= i -> Inv' (node_remove q i root) (list_del values (Z.to_nat i)) (s_remove q m).
Proof.
  intros root values m q Hq H i Hpos.
  assert (Hlk : s_lookup q m <> None)
    by (intro E; apply (inv_stored _ _ _ q H Hq) in E; fold i in E; lia).
  destruct H as [Hwf Hroot Hrep Hbound Hinj Hsize Hlen Hnd].
  pose proof (Hbound q) as Hi. fold i in Hi.
  assert (Hlen' : len (list_del values (Z.to_nat i)) = len values - 1)
    by (rewrite list_del_length by lia; lia).
  (* u k: the value index of k once q is unlinked, before the indices above i move down *)
  set (u := fun k : list Z => if key_eqb k q then -1 else tree_vi k root).
  assert (Hvi : forall k, tree_vi k (node_remove q i root) = dec i (u k))
    by (intro k; apply tree_vi_remove; [assumption..|lia]).
  (* no other key has index i, so `dec i` is injective and in bounds on the u k *)
  assert (Hu : forall k, u k <> i /\ u k < len values).
  { intros k. unfold u. destruct (key_eqbP k q) as [_|Hne]; [lia|]. split; [|apply Hbound].
    intros Heq. apply Hne. symmetry. apply Hinj; [exact Hpos | now rewrite Heq]. }
  constructor.
  - (* inv_wf *) apply wf_remove; assumption.
  - (* inv_root *) rewrite n_vi_remove. exact Hroot.
  - (* inv_rep *) intros k Hk.
    rewrite Hvi, vlookup_del, s_lookup_remove by (exact Hpos || apply Hu). unfold u.
    destruct (key_eqb k q); [reflexivity | now apply Hrep].
  - (* inv_bound *) intro k. rewrite Hvi, Hlen'. apply dec_bound; [lia | apply Hu | apply Hu].
  - (* inv_inj *) intros k1 k2 P1 P2. rewrite !Hvi in *.
    apply dec_nonneg in P1. apply dec_inj in P2; [|apply Hu|apply Hu].
    unfold u in P1, P2. destruct (key_eqb k1 q); [lia|]. destruct (key_eqb k2 q); [lia|].
    now apply Hinj.
  - (* inv_size *) rewrite node_size_remove by assumption. rewrite Hlen', Hsize.
    fold i. unfold b01. assert (0 <=? i = true) as -> by lia. reflexivity.
  - (* inv_len *) rewrite s_remove_length by exact Hnd. rewrite Hlen'.
    destruct (s_lookup q m); [cbn [has01]; lia | contradiction].
  - (* inv_nodup *) apply nodup_remove. exact Hnd.
Qed.

Lemma inv_add : forall q v t m, q <> [] -> Inv t m -> Inv (t_add q v t) (s_add q v m).
Proof.
  intros q v t m Hq [H Hfz]. unfold t_add. rewrite (getValueIndex_tree_vi q _ (inv_wf _ _ _ H)).
  destruct (Z.ltb_spec (tree_vi q (t_root t)) 0) as [Hneg|Hpos].
  - apply inv_auto. split; [|left; reflexivity]. now apply inv_add_new.
  - split; [|exact Hfz]. now apply inv_overwrite.
Qed.

Lemma inv_remove : forall q t m, q <> [] -> Inv t m -> Inv (t_remove q t) (s_remove q m).
Proof.
  intros q t m Hq [H Hfz]. unfold t_remove. rewrite (getValueIndex_tree_vi q _ (inv_wf _ _ _ H)).
  destruct (Z.leb_spec 0 (tree_vi q (t_root t))) as [Hpos|Hneg].
  - apply inv_auto. split; [|left; reflexivity]. now apply inv_remove_stored.
  - rewrite s_remove_none by (apply (inv_stored _ _ _ q H Hq); exact Hneg). split; assumption.
Qed.

Lemma inv_step : forall t m o, op_nonempty o -> Inv t m -> Inv (step t o) (s_step m (abs_op o)).
Proof.
  intros t m [k v | k | | |] Ho H; cbn [step abs_op s_step op_nonempty] in *.
  - apply inv_add; assumption.
  - apply inv_remove; assumption.
  - apply inv_freeze; assumption.
  - apply inv_defrost; assumption.
  - eapply inv_clear; eassumption.
Qed.

Lemma inv_fold : forall ops t m, nonempty_ops ops -> Inv t m ->
  Inv (fold_left step ops t) (fold_left s_step (map abs_op ops) m).
Proof.
  induction ops as [|o ops IH]; intros t m Hne H; [exact H|].
  cbn [fold_left map]. apply IH; [exact (Forall_inv_tail Hne)|].
  apply inv_step; [exact (Forall_inv Hne) | exact H].
Qed.

Lemma inv_run : forall auto ops, nonempty_ops ops ->
  Inv (run auto ops) (fold_left s_step (map abs_op ops) []).
Proof. intros auto ops H. unfold run. apply inv_fold; [exact H | apply inv_init]. Qed.

Lemma inv_getLongest : forall q t m, Inv t m ->
  t_getLongest q t = res_of (walk q (t_root t) 0).
Proof.
  intros q t m [H [Hf | Hf]].
  - apply unfrozen_getLongest; [rewrite (inv_root _ _ _ H); lia | exact Hf].
  - apply frozen_getLongest; [exact (inv_wf _ _ _ H) | exact Hf].
Qed.

Lemma inv_walk_rel : forall q t m, Inv t m ->
  res_rel (t_values t) (walk q (t_root t) 0) (spec_getLongest q m).
Proof.
  intros q t m [H _]. unfold spec_getLongest. apply walk_longest; [|reflexivity].
  intros k Hk. cbn [app]. split; [apply (inv_rep _ _ _ H); exact Hk | apply (inv_bound _ _ _ H)].
Qed.

Lemma getLongest_correct : forall q t m d, Inv t m ->
  value_of t d (t_getLongest q t)
  = Some (match spec_getLongest q m with Some (l, v) => (true, l, v) | None => (false, 0, d) end).
Proof.
  intros q t m d H. rewrite (inv_getLongest q t m H).
  pose proof (inv_walk_rel q t m H) as R.
  destruct (walk q (t_root t) 0) as [[l vi]|]; destruct (spec_getLongest q m) as [[l' v]|];
    cbn [res_rel] in R; try contradiction.
  - destruct R as (-> & R1 & R2). cbn [res_of value_of].
    assert (0 <=? vi = true) as -> by lia. rewrite R2. reflexivity.
  - reflexivity.
Qed.

Lemma get_has_correct : forall q t m d, Inv t m ->
  value_of t d (t_get q t)
  = Some (match spec_get q m with Some v => (true, len q, v) | None => (false, 0, d) end)
  /\ (q <> [] -> t_has q t = Some (match spec_get q m with Some _ => true | None => false end)).
Proof.
  intros q t m d HI. unfold t_has, t_get. rewrite (inv_getLongest q t m HI).
  destruct HI as [H _]. destruct q as [|c q]; [split; [reflexivity | contradiction]|].
  set (k := c :: q). assert (Hk : k <> []) by discriminate.
  pose proof (inv_rep _ _ _ H k Hk) as Hrep. pose proof (inv_bound _ _ _ H k) as Hbound.
  rewrite <- (walk_full k (t_root t) 0 (inv_wf _ _ _ H)), walk_at_root in Hrep, Hbound
    by (rewrite (inv_root _ _ _ H); lia).
  change (spec_get k m) with (s_lookup k m). rewrite <- Hrep.
  destruct (walk k (t_root t) 0) as [[l vi]|] eqn:W; cbn [res_of hit_at] in *;
    [|split; reflexivity].
  apply walk_none_pos in W. rewrite Z.add_0_l in *.
  destruct (Z.eqb_spec l (len k)) as [->|_]; [|split; reflexivity].
  cbn [value_of]. unfold vlookup. destruct (Z.leb_spec 0 vi); [|lia].
  destruct (nth_error (t_values t) (Z.to_nat vi)) eqn:E.
  - rewrite Z.eqb_refl. split; reflexivity.
  - apply nth_error_None in E. lia.
Qed.

Lemma size_correct : forall t m, Inv t m -> t_size t = spec_size m.
Proof.
  intros t m [H Hf]. unfold t_size, spec_size. rewrite (inv_len _ _ _ H).
  destruct Hf as [-> | ->]; [exact (inv_size _ _ _ H) | reflexivity].
Qed.

Theorem trie_refines_map : forall (auto : bool) (ops : list op) (q : key) (d : Z),
  nonempty_ops ops ->
  let t := run auto ops in
  let m := fold_left s_step (map abs_op ops) [] in
  value_of t d (t_getLongest q t)
    = Some (match spec_getLongest q m with
            | Some (l, v) => (true, l, v)
            | None => (false, 0, d)
            end)
  /\ value_of t d (t_get q t)
    = Some (match spec_get q m with
            | Some v => (true, Z.of_nat (length q), v)
            | None => (false, 0, d)
            end)
  /\ (q <> [] ->
      t_has q t = Some (match spec_get q m with Some _ => true | None => false end))
  /\ t_size t = spec_size m.
Proof.
  intros auto ops q d Hne t m. pose proof (inv_run auto ops Hne) as HI. fold t m in HI.
  split; [apply getLongest_correct; exact HI|].
  destruct (get_has_correct q t m d HI) as [G1 G2].
  split; [exact G1|]. split; [exact G2|]. apply size_correct. exact HI.
Qed.

Theorem frozen_eq_unfrozen : forall (auto : bool) (ops : list op) (q : key),
  nonempty_ops ops ->
  let t := run auto ops in
  t_getLongest q (t_freeze t) = t_getLongest q (t_defrost t)
  /\ t_get q (t_freeze t) = t_get q (t_defrost t)
  /\ t_has q (t_freeze t) = t_has q (t_defrost t)
  /\ t_size (t_freeze t) = t_size (t_defrost t).
Proof.
  intros auto ops q Hne t. pose proof (inv_run auto ops Hne) as HI. fold t in HI.
  assert (E : t_getLongest q (t_freeze t) = t_getLongest q (t_defrost t)).
  { rewrite (inv_getLongest q _ _ (inv_freeze _ _ HI)).
    rewrite (inv_getLongest q _ _ (inv_defrost _ _ HI)). reflexivity. }
  split; [exact E|]. unfold t_has, t_get. rewrite E.
  split; [reflexivity|]. split; [reflexivity|].
  rewrite (size_correct _ _ (inv_freeze _ _ HI)), (size_correct _ _ (inv_defrost _ _ HI)).
  reflexivity.
Qed.

Theorem lookups_in_bounds : forall (auto : bool) (ops : list op) (q : key) (d : Z),
  nonempty_ops ops ->
  let t := run auto ops in
  t_getLongest q t <> QOob /\ t_get q t <> QOob
  /\ value_of t d (t_getLongest q t) <> None /\ value_of t d (t_get q t) <> None.
Proof.
  intros auto ops q d Hne t.
  destruct (trie_refines_map auto ops q d Hne) as (H1 & H2 & _). fold t in H1, H2.
  assert (X : forall r, value_of t d r <> None -> r <> QOob) by (intros r Hr ->; now apply Hr).
  split; [apply X; rewrite H1; discriminate|]. split; [apply X; rewrite H2; discriminate|].
  split; [rewrite H1 | rewrite H2]; discriminate.
Qed.

Theorem pinned_variant_refuted :
  exists (ops : list op) (q q2 : key),
    nonempty_ops ops /\
    let t := run false ops in
    let m := fold_left s_step (map abs_op ops) [] in
    spec_getLongest q m = Some (1, 1) /\
    node_get_gen 0 q 0 (t_root t) = (1, 0) /\
    node_get_gen 1 q 0 (t_root t) = (2, 0) /\
    spec_get q2 m = None /\
    node_get_gen 0 q2 0 (t_root t) = (1, 0) /\
    node_get_gen 1 q2 0 (t_root t) = (Z.of_nat (length q2), 0).
Proof.
  exists [OAdd [97] 1; OAdd [97; 98; 99] 2], [97; 98; 100], [97; 98].
  split.
  - repeat constructor; discriminate.
  - vm_compute. repeat split; reflexivity.
Qed.
