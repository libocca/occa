(* Counting integer points (Spec.count), the measure of a union of rounded ranges, and what the
   repaired add/removeModeMemoryRef loop (Model.delta_fix) computes: how many positions of [lo,hi)
   no other rounded range covers. *)
From Coq Require Import List ZArith Bool Lia Sorting.Sorted Sorting.Permutation.
From OV.C03 Require Import Model Spec Arith Lists.
Import ListNotations.
Local Open Scope Z_scope.

Lemma count_from_ext : forall n P Q lo,
  (forall p, lo <= p < lo + Z.of_nat n -> P p = Q p) -> count_from P lo n = count_from Q lo n.
Proof.
  induction n as [|n IH]; intros P Q lo H; cbn [count_from]; [reflexivity|].
  rewrite (H lo) by lia. rewrite (IH P Q (lo + 1)); [reflexivity|].
  intros p Hp. apply H. lia.
Qed.

Lemma count_from_app : forall n m P lo,
  count_from P lo (n + m) = count_from P lo n + count_from P (lo + Z.of_nat n) m.
Proof.
  induction n as [|n IH]; intros m P lo; cbn [count_from Nat.add].
  - replace (lo + Z.of_nat 0) with lo by lia. lia.
  - rewrite IH. replace (lo + 1 + Z.of_nat n) with (lo + Z.of_nat (S n)) by lia. lia.
Qed.

Lemma count_from_bounds : forall n P lo, 0 <= count_from P lo n <= Z.of_nat n.
Proof.
  induction n as [|n IH]; intros P lo; cbn [count_from]; [lia|].
  specialize (IH P (lo + 1)). destruct (P lo); lia.
Qed.

Lemma count_ext : forall P Q lo hi,
  (forall p, lo <= p < hi -> P p = Q p) -> count P lo hi = count Q lo hi.
Proof.
  intros P Q lo hi H. unfold count. apply count_from_ext. intros p Hp. apply H. lia.
Qed.

Lemma count_empty : forall P lo hi, hi <= lo -> count P lo hi = 0.
Proof.
  intros P lo hi H. unfold count. replace (Z.to_nat (hi - lo)) with O by lia. reflexivity.
Qed.

Lemma count_split : forall P lo mid hi,
  lo <= mid <= hi -> count P lo hi = count P lo mid + count P mid hi.
Proof.
  intros P lo mid hi H. unfold count.
  replace (Z.to_nat (hi - lo)) with (Z.to_nat (mid - lo) + Z.to_nat (hi - mid))%nat by lia.
  rewrite count_from_app. replace (lo + Z.of_nat (Z.to_nat (mid - lo))) with mid by lia. reflexivity.
Qed.

Lemma count_bounds : forall P lo hi, lo <= hi -> 0 <= count P lo hi <= hi - lo.
Proof.
  intros P lo hi H. unfold count. pose proof (count_from_bounds (Z.to_nat (hi - lo)) P lo). lia.
Qed.

Lemma count_from_const : forall (b : bool) n lo,
  count_from (fun _ => b) lo n = if b then Z.of_nat n else 0.
Proof.
  intros b. induction n as [|n IH]; intros lo; cbn [count_from]; [destruct b; reflexivity|].
  rewrite IH. destruct b; lia.
Qed.

Lemma count_all : forall P lo hi,
  lo <= hi -> (forall p, lo <= p < hi -> P p = true) -> count P lo hi = hi - lo.
Proof.
  intros P lo hi H HP. rewrite (count_ext P (fun _ => true) lo hi HP).
  unfold count. rewrite count_from_const. lia.
Qed.

Lemma count_none : forall P lo hi,
  (forall p, lo <= p < hi -> P p = false) -> count P lo hi = 0.
Proof.
  intros P lo hi HP. rewrite (count_ext P (fun _ => false) lo hi HP).
  unfold count. apply count_from_const.
Qed.

Definition iv_of (a : Z) (r : res) : Z * Z := (r_lo a r, r_hi a r).
Definition ivs (a : Z) (l : list res) : list (Z * Z) := map (iv_of a) l.
Definition cov (a : Z) (l : list res) (p : Z) : bool := covered (ivs a l) p.

Lemma iv_of_round_out : forall a r, iv_of a r = round_out a (r_off r) (r_sz r).
Proof. reflexivity. Qed.

Lemma cov_cons : forall a x l p, cov a (x :: l) p = in_iv p (iv_of a x) || cov a l p.
Proof. reflexivity. Qed.

Lemma in_iv_spec : forall a x p,
  BoolSpec (r_lo a x <= p < r_hi a x) (~ r_lo a x <= p < r_hi a x) (in_iv p (iv_of a x)).
Proof. intros. apply range_spec. Qed.

Lemma cov_true : forall a l p,
  cov a l p = true <-> exists r, In r l /\ r_lo a r <= p < r_hi a r.
Proof.
  intros a l p. unfold cov, covered, ivs. rewrite existsb_exists. split.
  - intros (iv & Hin & Hp). apply in_map_iff in Hin. destruct Hin as (r & <- & Hr).
    exists r. split; [assumption|]. destruct (in_iv_spec a r p); [assumption|discriminate].
  - intros (r & Hr & Hp). exists (iv_of a r). split; [apply in_map; assumption|].
    destruct (in_iv_spec a r p); [reflexivity|contradiction].
Qed.

Lemma cov_false : forall a l p,
  (forall x, In x l -> ~ (r_lo a x <= p < r_hi a x)) -> cov a l p = false.
Proof.
  intros a l p H. destruct (cov a l p) eqn:E; [|reflexivity].
  apply cov_true in E. destruct E as (r & Hr & Hp). exfalso. exact (H r Hr Hp).
Qed.

Lemma cov_ext : forall a l l' p,
  (forall r, In r l <-> In r l') -> cov a l p = cov a l' p.
Proof.
  intros a l l' p H. apply eq_true_iff_eq. rewrite !cov_true.
  split; intros (r & Hr & Hp); exists r; (split; [apply H; assumption|assumption]).
Qed.

Lemma max_end_ge : forall l iv, In iv l -> snd iv <= max_end l.
Proof.
  induction l as [|x l IH]; intros iv Hin; [destruct Hin|].
  change (max_end (x :: l)) with (Z.max (snd x) (max_end l)).
  destruct Hin as [->|H]; [lia|]. specialize (IH _ H). lia.
Qed.

Lemma max_end_nonneg : forall l, 0 <= max_end l.
Proof.
  induction l as [|x l IH]; [cbn; lia|].
  change (max_end (x :: l)) with (Z.max (snd x) (max_end l)). lia.
Qed.

Lemma max_end_le : forall l B, 0 <= B -> (forall iv, In iv l -> snd iv <= B) -> max_end l <= B.
Proof.
  induction l as [|y l IH]; intros B HB Hall; [cbn; lia|].
  change (max_end (y :: l)) with (Z.max (snd y) (max_end l)).
  specialize (IH B HB (fun iv Hin => Hall iv (or_intror Hin))).
  specialize (Hall y (or_introl eq_refl)). lia.
Qed.

Lemma union_size_bound : forall a l B,
  0 <= B ->
  (forall r, In r l -> r_hi a r <= B) ->
  union_size (ivs a l) = count (cov a l) 0 B.
Proof.
  intros a l B HB H. unfold union_size.
  rewrite (count_ext (covered (ivs a l)) (cov a l)) by reflexivity.
  pose proof (max_end_nonneg (ivs a l)) as Hn.
  assert (Hle : max_end (ivs a l) <= B).
  { apply max_end_le; [assumption|].
    intros iv Hin. apply in_map_iff in Hin. destruct Hin as (r & <- & Hr). cbn. apply H. assumption. }
  rewrite (count_split (cov a l) 0 (max_end (ivs a l)) B) by lia.
  rewrite (count_none (cov a l) (max_end (ivs a l)) B); [lia|].
  intros p Hp. destruct (cov a l p) eqn:E; [|reflexivity].
  apply cov_true in E. destruct E as (r & Hr & Hp').
  pose proof (max_end_ge (ivs a l) (iv_of a r) (in_map _ _ _ Hr)) as G. cbn [snd iv_of] in G. lia.
Qed.

(* left and right of m's range, m changes nothing *)
Lemma count_cons_out : forall a m tl u v, v <= r_lo a m \/ r_hi a m <= u ->
  count (cov a (m :: tl)) u v = count (cov a tl) u v.
Proof.
  intros a m tl u v H. apply count_ext. intros p Hp. rewrite cov_cons.
  destruct (in_iv_spec a m p); [lia|reflexivity].
Qed.

(* below the first rounded start of a sorted list nothing is covered *)
Lemma count_before : forall a m tl u v, sorted_by (r_lo a) (m :: tl) ->
  v <= u \/ v <= r_lo a m -> count (cov a (m :: tl)) u v = 0.
Proof.
  intros a m tl u v Hs H. destruct (StronglySorted_inv Hs) as [_ Hhd]. rewrite Forall_forall in Hhd.
  apply count_none. intros p Hp. apply cov_false.
  intros x [<-|Hx] Hc; [|specialize (Hhd x Hx)]; lia.
Qed.

Lemma delta_fix_spec : forall a l lo hi nb,
  sorted_by (r_lo a) l -> (forall x, In x l -> r_lo a x <= r_hi a x) -> lo <= hi ->
  delta_fix a lo hi nb l = nb - count (cov a l) lo hi.
Proof.
  intros a. induction l as [|m tl IH]; intros lo hi nb Hs Hw Hlohi; cbn [delta_fix].
  - rewrite count_none; [lia|]. intros; reflexivity.
  - destruct (StronglySorted_inv Hs) as [Hs' _].
    pose proof (Hw m (or_introl eq_refl)) as Hm.
    assert (Hw' : forall x, In x tl -> r_lo a x <= r_hi a x) by (intros; apply Hw; right; assumption).
    destruct (Z.geb_spec (r_lo a m) hi) as [G1|G1]; [rewrite count_before by (assumption || lia); lia|].
    destruct (Z.leb_spec (r_hi a m) lo) as [G2|G2];
      [rewrite (IH lo hi nb Hs' Hw' Hlohi), count_cons_out by lia; reflexivity|].
    (* m overlaps [lo,hi): of [lo,lo') exactly [st,lo') is covered, by m; the tail starts no earlier than
       m and is off [lo,st); beyond lo' = r_hi a m the loop goes on with the tail *)
    set (lo' := Z.min hi (r_hi a m)). set (st := Z.max lo (r_lo a m)).
    assert (C1 : count (cov a (m :: tl)) lo lo' = lo' - st).
    { rewrite (count_split _ lo st lo') by (unfold st, lo'; lia).
      rewrite (count_before a m tl lo st) by (assumption || unfold st; lia).
      rewrite count_all; [lia|unfold st, lo'; lia|].
      intros p Hp. rewrite cov_cons. destruct (in_iv_spec a m p); [reflexivity|unfold st, lo' in Hp; lia]. }
    destruct (Z.eqb_spec lo' hi) as [E|N].
    + rewrite <- E, C1. unfold lo', st. lia.
    + rewrite (IH lo' hi _ Hs' Hw') by (unfold lo'; lia).
      rewrite (count_split (cov a (m :: tl)) lo lo' hi), C1, (count_cons_out a m tl lo' hi) by (unfold lo', st in *; lia).
      unfold lo', st. lia.
Qed.

Lemma union_add : forall a l x B,
  0 <= r_lo a x -> r_lo a x <= r_hi a x -> r_hi a x <= B ->
  count (cov a (x :: l)) 0 B =
  count (cov a l) 0 B + ((r_hi a x - r_lo a x) - count (cov a l) (r_lo a x) (r_hi a x)).
Proof.
  intros a l x B H0 Hx HB.
  rewrite (count_split (cov a (x :: l)) 0 (r_lo a x) B), (count_split (cov a (x :: l)) (r_lo a x) (r_hi a x) B) by lia.
  rewrite (count_split (cov a l) 0 (r_lo a x) B), (count_split (cov a l) (r_lo a x) (r_hi a x) B) by lia.
  rewrite (count_cons_out a x l 0 (r_lo a x)), (count_cons_out a x l (r_hi a x) B) by lia.
  rewrite (count_all (cov a (x :: l)) (r_lo a x) (r_hi a x)); [lia|lia|].
  intros p Hp. rewrite cov_cons. destruct (in_iv_spec a x p); [reflexivity|lia].
Qed.
