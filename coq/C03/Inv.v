(* The invariant that ties the pool model to the reference semantics, and its preservation by
   each operation of the repaired model: slice (addModeMemoryRef), release (removeModeMemoryRef),
   write, a migration (the block loop of resize and setAlignment), resize, setAlignment, reserve. *)
From Coq Require Import List ZArith Bool Lia Sorting.Sorted Sorting.Permutation.
From OV.C03 Require Import Model Spec Statements Arith Buf Count Lists Pack.
Import ListNotations.
Local Open Scope Z_scope.

Record Inv (p : pool) (sp : sstate) : Prop := mkInv {
  i_align : 0 < p_align p;
  i_size : 0 <= p_size p;
  i_sorted : sorted (p_res p);
  i_nd : NoDup (map r_id (p_res p));
  i_snd : NoDup (map s_id (s_live sp));
  (* the two id sets agree (i_link, i_back), and so do the sizes *)
  i_link : forall r, In r (p_res p) -> exists e, same_handle sp r e /\ s_sz e = r_sz r;
  i_back : forall e, In e (s_live sp) -> exists r, In r (p_res p) /\ r_id r = s_id e;
  (* the *rounded* end is inside the buffer: more than Inv_pool asks; the hole search needs it *)
  i_bounds : forall r, In r (p_res p) ->
             0 <= r_off r /\ 0 <= r_sz r /\ r_hi (p_align p) r <= p_size p;
  (* reserved() is the measure of the union of the rounded ranges (what C04 asks) *)
  i_reserved : p_reserved p = union_size (ivs (p_align p) (p_res p));
  (* two bytes of two handles are the same byte of the buffer iff they are the same byte of
     the same family *)
  i_coincide : forall r1 r2 e1 e2 i1 i2,
        In r1 (p_res p) -> In r2 (p_res p) -> same_handle sp r1 e1 -> same_handle sp r2 e2 ->
        0 <= i1 < r_sz r1 -> 0 <= i2 < r_sz r2 ->
        (r_off r1 + i1 = r_off r2 + i2 <-> (s_fam e1 = s_fam e2 /\ s_loff e1 + i1 = s_loff e2 + i2));
  (* every byte that has been written is in the buffer where the handle looks for it *)
  i_mem : forall r e i, In r (p_res p) -> same_handle sp r e -> 0 <= i < r_sz r ->
          byte_ok (bget (p_buf p) (r_off r + i)) (s_mem sp (s_fam e) (s_loff e + i));
  i_oob : p_oob p = false;
  i_tie : p_tie p = false;
  i_fam : forall e, In e (s_live sp) -> s_fam e < s_next sp /\ 0 <= s_loff e /\ 0 <= s_sz e;
  i_fresh : forall f q, s_next sp <= f -> s_mem sp f q = None;
  (* a live root starts at 0 and spans every member of its family *)
  i_root : forall e e0, In e (s_live sp) -> In e0 (s_live sp) -> s_root e0 = true ->
           s_fam e0 = s_fam e -> s_loff e0 = 0 /\ s_loff e + s_sz e <= s_sz e0
}.
Arguments i_align {p sp} _. Arguments i_size {p sp} _. Arguments i_sorted {p sp} _. Arguments i_nd {p sp} _.
Arguments i_snd {p sp} _. Arguments i_link {p sp} _. Arguments i_back {p sp} _. Arguments i_bounds {p sp} _.
Arguments i_reserved {p sp} _. Arguments i_coincide {p sp} _. Arguments i_mem {p sp} _. Arguments i_oob {p sp} _.
Arguments i_tie {p sp} _. Arguments i_fam {p sp} _. Arguments i_fresh {p sp} _. Arguments i_root {p sp} _.

Lemma same_handle_in : forall sp r e, same_handle sp r e -> In e (s_live sp) /\ s_id e = r_id r.
Proof. intros sp r e H. apply s_find_some in H. exact H. Qed.

Lemma same_handle_id : forall sp r r' e, r_id r' = r_id r -> same_handle sp r' e -> same_handle sp r e.
Proof. unfold same_handle. intros sp r r' e E. rewrite E. auto. Qed.

Lemma same_handle_sz : forall p sp r e, Inv p sp -> In r (p_res p) -> same_handle sp r e -> s_sz e = r_sz r.
Proof.
  intros p sp r e I Hr L. destruct (i_link I r Hr) as (e' & L' & Hsz).
  unfold same_handle in *. congruence.
Qed.

Lemma free_id_agrees : forall p sp id, Inv p sp ->
  (find_res id (p_res p) = None <-> s_find id (s_live sp) = None).
Proof.
  intros p sp id I. split; intros H.
  - destruct (s_find id (s_live sp)) as [e|] eqn:E; [|reflexivity]. exfalso.
    apply s_find_some in E. destruct E as [He Hid].
    destruct (i_back I e He) as (r & Hr & Hrid).
    eapply find_res_none; [exact H|exact Hr|]. congruence.
  - destruct (find_res id (p_res p)) as [r|] eqn:E; [|reflexivity]. exfalso.
    apply find_res_some in E. destruct E as [Hr Hid].
    destruct (i_link I r Hr) as (e & Hl & _). unfold same_handle in Hl. rewrite Hid in Hl. congruence.
Qed.

Lemma found_handle : forall p sp id r, Inv p sp -> find_res id (p_res p) = Some r ->
  exists e, s_find id (s_live sp) = Some e /\ same_handle sp r e /\ s_sz e = r_sz r /\ In r (p_res p).
Proof.
  intros p sp id r I H. apply find_res_some in H. destruct H as [Hr <-].
  destruct (i_link I r Hr) as (e & Hl & Hsz). exists e. auto.
Qed.
Arguments found_handle {p sp id r} _ _.

Lemma union_size_nil : forall a, union_size (ivs a []) = 0.
Proof. intros a. reflexivity. Qed.

Lemma reserved_nonneg : forall p sp, Inv p sp -> 0 <= p_reserved p.
Proof.
  intros p sp I. rewrite (i_reserved I). unfold union_size. apply count_bounds. apply max_end_nonneg.
Qed.

Lemma reserved_add : forall a l x B,
  0 < a -> sorted l ->
  (forall r, In r l -> 0 <= r_sz r /\ r_hi a r <= B) ->
  0 <= r_off x -> 0 <= r_sz x -> r_hi a x <= B ->
  forall l', (forall r, In r l' <-> r = x \/ In r l) ->
  union_size (ivs a l') = union_size (ivs a l) + delta fixed a x l.
Proof.
  intros a l x B Ha Hs Hl Hx0 Hxs HxB l' Hl'.
  assert (HB : 0 <= B) by (pose proof (r_end_le_hi a x Ha); lia).
  rewrite (union_size_bound a l' B HB).
  2:{ intros r Hr. apply Hl' in Hr. destruct Hr as [->|Hr]; [assumption|apply Hl; assumption]. }
  rewrite (union_size_bound a l B HB) by (intros r Hr; apply Hl; assumption).
  rewrite (count_ext (cov a l') (cov a (x :: l))).
  2:{ intros p _. apply cov_ext. intros r. rewrite Hl'. cbn. intuition congruence. }
  rewrite (union_add a l x B); [|apply r_lo_nonneg; assumption|apply r_lo_le_hi; assumption|assumption].
  f_equal. unfold delta. cbn [v_sub fixed].
  rewrite (delta_fix_spec a l).
  - lia.
  - apply sorted_lo; assumption.
  - intros y Hy. apply r_lo_le_hi; [assumption|apply (Hl y Hy)].
  - apply r_lo_le_hi; assumption.
Qed.

Lemma same_handle_cons_ne : forall sp e0 m' n' r e,
  s_id e0 <> r_id r -> (same_handle (mkS (e0 :: s_live sp) m' n') r e <-> same_handle sp r e).
Proof.
  intros sp e0 m' n' r e Hne. unfold same_handle. cbn.
  destruct (Z.eqb_spec (s_id e0) (r_id r)); [contradiction|]. tauto.
Qed.

Lemma same_handle_cons_eq : forall sp e0 m' n' r e,
  s_id e0 = r_id r -> (same_handle (mkS (e0 :: s_live sp) m' n') r e <-> e = e0).
Proof.
  intros sp e0 m' n' r e He. unfold same_handle. cbn. rewrite He, Z.eqb_refl. split; congruence.
Qed.

(* x enters the reservation set, e the live handles.  What does not depend on where x's bytes lie is
   settled here; the caller says which old bytes they are (HJ), that they hold what the reference
   knows (Hmem), and how e sits in its family (Hroot, Hisroot). *)
Lemma inv_add : forall p sp x e n',
  Inv p sp -> find_res (r_id x) (p_res p) = None ->
  s_id e = r_id x -> s_sz e = r_sz x ->
  0 <= r_off x -> 0 <= r_sz x -> r_hi (p_align p) x <= p_size p ->
  s_next sp <= n' -> s_fam e < n' -> 0 <= s_loff e ->
  forall
    (HJ : forall r2 e2 i1 i2, In r2 (p_res p) -> same_handle sp r2 e2 -> 0 <= i1 < r_sz x -> 0 <= i2 < r_sz r2 ->
       (r_off x + i1 = r_off r2 + i2 <-> s_fam e = s_fam e2 /\ s_loff e + i1 = s_loff e2 + i2))
    (Hmem : forall i, 0 <= i < r_sz x ->
       byte_ok (bget (p_buf p) (r_off x + i)) (s_mem sp (s_fam e) (s_loff e + i)))
    (Hroot : forall e0, In e0 (s_live sp) -> s_root e0 = true -> s_fam e0 = s_fam e ->
       s_loff e0 = 0 /\ s_loff e + s_sz e <= s_sz e0)
    (Hisroot : s_root e = true -> s_loff e = 0 /\ forall e1, In e1 (s_live sp) -> s_fam e1 <> s_fam e),
  Inv (add_ref fixed p x) (mkS (e :: s_live sp) (s_mem sp) n').
Proof.
  intros p sp x e n' I Hfree Hid Hsz Hx0 Hxs Hxhi Hn' Hfam Hloff HJ Hmem Hroot Hisroot.
  pose proof (i_align I) as Ha.
  pose proof (find_res_none _ _ Hfree) as Hidx.
  assert (Lx : forall e', same_handle (mkS (e :: s_live sp) (s_mem sp) n') x e' <-> e' = e) by (intros e'; apply same_handle_cons_eq; assumption).
  assert (Lo : forall r e', In r (p_res p) -> (same_handle (mkS (e :: s_live sp) (s_mem sp) n') r e' <-> same_handle sp r e')).
  { intros r e' Hr. apply same_handle_cons_ne. rewrite Hid. intros E. exact (Hidx r Hr (eq_sym E)). }
  refine (mkInv (add_ref fixed p x) (mkS _ _ _) Ha (i_size I) _ _ _ _ _ _ _ _ _ (i_oob I) (i_tie I) _ _ _);
    cbn [p_align p_size p_reserved p_res p_buf add_ref set_res s_live s_mem s_next].
  - apply insert_sorted; [apply (i_sorted I)|exact Hidx].
  - apply insert_nodup; [apply (i_nd I)|exact Hidx].
  - cbn. constructor; [|apply (i_snd I)].
    intros Hin. apply in_map_iff in Hin. destruct Hin as (e' & Eid & He').
    destruct (i_back I e' He') as (r & Hr & Hrid).
    apply (Hidx r Hr). congruence.
  - intros r Hr. apply in_insert in Hr. destruct Hr as [->|Hr].
    + exists e. split; [apply Lx; reflexivity|assumption].
    + destruct (i_link I r Hr) as (e' & Hl & Hsz'). exists e'. split; [apply Lo; assumption|assumption].
  - intros e' [<-|He'].
    + exists x. split; [apply in_insert; left; reflexivity|symmetry; assumption].
    + destruct (i_back I e' He') as (r & Hr & Hrid). exists r. split; [apply in_insert; right; assumption|assumption].
  - intros r Hr. apply in_insert in Hr. destruct Hr as [->|Hr]; [auto|apply (i_bounds I r Hr)].
  - rewrite (i_reserved I).
    symmetry. apply (reserved_add (p_align p) (p_res p) x (p_size p)); try assumption.
    + apply (i_sorted I).
    + intros r Hr. destruct (i_bounds I r Hr) as (_ & A & B). split; assumption.
    + intros r. apply in_insert.
  - intros r1 r2 e1 e2 i1 i2 H1 H2 L1 L2 Hi1 Hi2.
    apply in_insert in H1. apply in_insert in H2.
    destruct H1 as [->|H1]; destruct H2 as [->|H2].
    + apply Lx in L1. apply Lx in L2. subst. lia.
    + apply Lx in L1. apply (Lo r2 e2 H2) in L2. subst e1. apply HJ; assumption.
    + apply Lx in L2. apply (Lo r1 e1 H1) in L1. subst e2.
      apply coincide_sym, HJ; assumption.
    + apply (Lo r1 e1 H1) in L1. apply (Lo r2 e2 H2) in L2.
      apply (i_coincide I r1 r2 e1 e2 i1 i2); assumption.
  - intros r e' i Hr L Hi. apply in_insert in Hr. destruct Hr as [->|Hr].
    + apply Lx in L. subst e'. apply Hmem. assumption.
    + apply (Lo r e' Hr) in L. apply (i_mem I r e' i Hr L Hi).
  - intros e' [<-|He']; [lia|]. destruct (i_fam I e' He') as (A & B & C). lia.
  - intros f q Hf. apply (i_fresh I). lia.
  - intros e1 e0 [<-|H1] [<-|H0] Hr Hf.
    + destruct (Hisroot Hr). lia.
    + apply Hroot; assumption.
    + destruct (Hisroot Hr) as [_ N]. destruct (N e1 H1). symmetry. assumption.
    + apply (i_root I e1 e0 H1 H0 Hr Hf).
Qed.

Lemma inv_slice : forall p sp id m em off bytes,
  Inv p sp ->
  In m (p_res p) -> same_handle sp m em ->
  find_res id (p_res p) = None ->
  0 <= off -> 0 <= bytes -> off + bytes <= r_sz m ->
  Inv (add_ref fixed p (mkRes id (r_off m + off) bytes))
      (mkS (mkSres id (s_fam em) (s_loff em + off) bytes false :: s_live sp) (s_mem sp) (s_next sp)).
Proof.
  intros p sp id m em off bytes I Hm Hlm Hfree Hoff Hbytes Hfit.
  destruct (i_bounds I m Hm) as (Hm0 & Hmsz & Hmhi).
  destruct (same_handle_in _ _ _ Hlm) as [Hem _]. destruct (i_fam I em Hem) as (F1 & F2 & _).
  pose proof (same_handle_sz _ _ _ _ I Hm Hlm) as Hemsz.
  refine (inv_add p sp (mkRes id (r_off m + off) bytes) (mkSres id (s_fam em) (s_loff em + off) bytes false)
            (s_next sp) I Hfree eq_refl eq_refl ltac:(cbn; lia) Hbytes _ (Z.le_refl _) F1 ltac:(cbn; lia) _ _ _ _);
    cbn [r_off r_sz s_fam s_loff s_sz s_root].
  - (* the rounded end lies inside the parent's *)
    unfold r_hi in *. cbn [r_off r_sz]. eapply Z.le_trans; [|exact Hmhi]. apply ru_mono; [apply (i_align I)|lia].
  - (* coincidence and contents are the parent's, off bytes further on *)
    intros r2 e2 i1 i2 H2 L2 Hi1 Hi2. rewrite <- !Z.add_assoc.
    apply (i_coincide I m r2 em e2 (off + i1) i2 Hm H2 Hlm L2); lia.
  - intros i Hi. rewrite <- !Z.add_assoc. apply (i_mem I m em (off + i) Hm Hlm). lia.
  - (* the parent's root is the slice's *)
    intros e0 H0 Hr Hf. destruct (i_root I em e0 Hem H0 Hr Hf). lia.
  - (* a slice is not a root *) discriminate.
Qed.

Lemma inv_new_root : forall p sp id o bytes,
  Inv p sp -> find_res id (p_res p) = None ->
  0 <= o -> 0 < bytes ->
  aligned (p_align p) o -> o + ru (p_align p) bytes <= p_size p ->
  (forall m, In m (p_res p) -> r_end m <= o \/ o + bytes <= r_off m) ->
  Inv (add_ref fixed p (mkRes id o bytes))
      (mkS (mkSres id (s_next sp) 0 bytes true :: s_live sp) (s_mem sp) (s_next sp + 1)).
Proof.
  intros p sp id o bytes I Hfree Ho Hbytes Hal Hfit Hdisj.
  assert (Hother : forall e, In e (s_live sp) -> s_fam e <> s_next sp).
  { intros e He. destruct (i_fam I e He). lia. }
  refine (inv_add p sp (mkRes id o bytes) (mkSres id (s_next sp) 0 bytes true) (s_next sp + 1)
            I Hfree eq_refl eq_refl Ho ltac:(cbn; lia) _ ltac:(lia) ltac:(cbn; lia) (Z.le_refl 0) _ _ _ _);
    cbn [r_off r_sz s_fam s_loff s_sz s_root].
  - rewrite (r_hi_at_aligned (p_align p) (mkRes id o bytes) (i_align I) Hal). exact Hfit.
  - (* the new family shares no byte with anybody *)
    intros r2 e2 i1 i2 H2 L2 Hi1 Hi2. destruct (same_handle_in _ _ _ L2) as [He2 _]. specialize (Hother e2 He2).
    destruct (Hdisj r2 H2); unfold r_end in *; lia.
  - (* and nothing has been written to it *)
    intros i Hi. rewrite (i_fresh I) by lia. discriminate.
  - intros e0 H0 _ Hf. destruct (Hother e0 H0 Hf).
  - intros _. split; [reflexivity|exact Hother].
Qed.

Lemma inv_free : forall p sp m,
  Inv p sp -> In m (p_res p) ->
  Inv (remove_ref fixed p m) (mkS (s_remove (r_id m) (s_live sp)) (s_mem sp) (s_next sp)).
Proof.
  intros p sp m I Hm.
  pose proof (i_align I) as Ha.
  set (l' := remove_res (r_id m) (p_res p)).
  assert (Hin' : forall r, In r l' <-> In r (p_res p) /\ r_id r <> r_id m).
  { intros r. apply in_remove_res. apply (i_nd I). }
  assert (Lo : forall r e, In r l' ->
            (same_handle (mkS (s_remove (r_id m) (s_live sp)) (s_mem sp) (s_next sp)) r e <-> same_handle sp r e)).
  { intros r e Hr. apply Hin' in Hr. destruct Hr as [_ Hne]. unfold same_handle. cbn.
    rewrite s_find_remove_ne by assumption. tauto. }
  refine (mkInv (remove_ref fixed p m) (mkS _ _ _) Ha (i_size I) _ _ _ _ _ _ _ _ _ (i_oob I) (i_tie I) _ (i_fresh I) _);
    cbn [p_align p_size p_reserved p_res p_buf remove_ref set_res s_live s_mem s_next]; fold l'.
  - apply remove_res_sorted. apply (i_sorted I).
  - apply remove_res_nodup. apply (i_nd I).
  - apply s_remove_nodup. apply (i_snd I).
  - intros r Hr. pose proof Hr as Hr'. apply Hin' in Hr'. destruct Hr' as [Hr0 _].
    destruct (i_link I r Hr0) as (e & Hl & Hsz). exists e. split; [apply Lo; assumption|assumption].
  - intros e He. apply in_s_remove in He; [|apply (i_snd I)]. destruct He as [He Hne].
    destruct (i_back I e He) as (r & Hr & Hrid). exists r. split; [|assumption].
    apply Hin'. split; [assumption|congruence].
  - intros r Hr. apply Hin' in Hr. apply (i_bounds I r (proj1 Hr)).
  - (* reserved_add read backwards: p_res p is l' with m added *)
    rewrite (i_reserved I).
    destruct (i_bounds I m Hm) as (A & B & C).
    rewrite (reserved_add (p_align p) l' m (p_size p) Ha) with (l' := p_res p); try lia.
    + apply remove_res_sorted. apply (i_sorted I).
    + intros r Hr. apply Hin' in Hr. destruct (i_bounds I r (proj1 Hr)) as (_ & A' & B'). split; lia.
    + intros r. rewrite Hin'. split.
      * intros Hr. destruct (Z.eq_dec (r_id r) (r_id m)) as [E|N]; [left|right; split; assumption].
        apply (nodup_id_eq (p_res p)); [apply (i_nd I)|assumption|assumption|assumption].
      * intros [->|[Hr _]]; assumption.
  - intros r1 r2 e1 e2 i1 i2 H1 H2 L1 L2 Hi1 Hi2.
    apply (Lo r1 e1 H1) in L1. apply (Lo r2 e2 H2) in L2.
    apply Hin' in H1. apply Hin' in H2.
    apply (i_coincide I r1 r2 e1 e2 i1 i2); tauto.
  - intros r e i Hr L Hi. apply (Lo r e Hr) in L. apply Hin' in Hr.
    apply (i_mem I r e i (proj1 Hr) L Hi).
  - intros e He. apply s_remove_incl in He. apply (i_fam I e He).
  - intros e e0 He He0. apply s_remove_incl in He. apply s_remove_incl in He0.
    apply (i_root I e e0 He He0).
Qed.

Lemma inv_write : forall p sp m em off data,
  Inv p sp -> In m (p_res p) -> same_handle sp m em ->
  0 <= off -> Z.of_nat (length data) + off <= r_sz m ->
  Inv (set_buf p (write_bytes (p_buf p) (r_off m + off) data))
      (mkS (s_live sp)
           (fun f => if f =? s_fam em then s_write (s_mem sp f) (s_loff em + off) data else s_mem sp f)
           (s_next sp)).
Proof.
  intros p sp m em off data I Hm Hlm Hoff Hfit.
  destruct (same_handle_in _ _ _ Hlm) as [Hem _].
  (* only the buffer and the family's memory change; same_handle looks at neither *)
  refine (mkInv (set_buf p _) (mkS _ _ _) (i_align I) (i_size I) (i_sorted I) (i_nd I) (i_snd I)
            (i_link I) (i_back I) (i_bounds I) (i_reserved I) (i_coincide I) _
            (i_oob I) (i_tie I) (i_fam I) _ (i_root I));
    cbn [p_res p_buf set_buf s_mem s_next].
  - (* contents: byte i of r is one of the written ones iff the reference semantics wrote it *)
    intros r e i Hr L Hi. change (same_handle sp r e) in L.
    pose proof (i_mem I r e i Hr L Hi) as M.
    set (n := Z.of_nat (length data)) in *.
    assert (J : forall k, 0 <= k < n ->
              (r_off r + i = r_off m + (off + k) <-> s_fam e = s_fam em /\ s_loff e + i = s_loff em + (off + k))).
    { intros k Hk. apply (i_coincide I r m e em i (off + k)); assumption || lia. }
    rewrite bget_write_bytes. fold n.
    destruct (range_spec (r_off m + off) (r_off m + off + n) (r_off r + i)) as [A|A].
    + destruct (J (r_off r + i - (r_off m + off))) as [[Ef El] _]; [lia|lia|].
      rewrite Ef, Z.eqb_refl, s_write_get. fold n.
      destruct (range_spec (s_loff em + off) (s_loff em + off + n) (s_loff e + i)); [|lia].
      intros v Hv. inversion Hv. f_equal. lia.
    + destruct (Z.eqb_spec (s_fam e) (s_fam em)) as [Ef|Nf]; [|exact M].
      rewrite s_write_get. fold n.
      destruct (range_spec (s_loff em + off) (s_loff em + off + n) (s_loff e + i)); [|exact M].
      destruct (J (s_loff e + i - (s_loff em + off))) as [_ J2]; [lia|].
      specialize (J2 (conj Ef ltac:(lia))). lia.
  - intros f q Hf. destruct (i_fam I em Hem) as (A & _).
    destruct (Z.eqb_spec f (s_fam em)); [lia|]. apply (i_fresh I). assumption.
Qed.

Lemma inv_empty : forall p sp a' sz' buf' gen',
  Inv p sp -> p_res p = [] -> 0 < a' -> 0 <= sz' ->
  Inv (mkPool a' sz' (p_reserved p) [] buf' gen' (p_oob p) (p_tie p)) sp.
Proof.
  intros p sp a' sz' buf' gen' I El Ha Hsz.
  refine (mkInv (mkPool _ _ _ _ _ _ _ _) sp Ha Hsz _ _ (i_snd I) _ _ _ _ _ _ (i_oob I) (i_tie I)
            (i_fam I) (i_fresh I) (i_root I));
    cbn [p_align p_reserved p_res].
  - constructor.
  - constructor.
  - intros r [].
  - intros e He. destruct (i_back I e He) as (r & Hr & _). rewrite El in Hr. destruct Hr.
  - intros r [].
  - rewrite (i_reserved I), El. reflexivity.
  - intros r1 r2 e1 e2 i1 i2 [].
  - intros r e i [].
Qed.

(* A migration: the reservations move with a chain of blocks cs (Pack.pack_spec, extents [flo,fhi))
   whose lengths are rounded up to the new alignment a1.  The caller owes: extents contain the bytes,
   blocks lie in the old buffer, `rounds_out`.  Instances: resize, setAlignment. *)
Section Moved.
  Variables (flo fhi : res -> Z) (a1 : Z).
  Hypothesis Ha1 : 0 < a1.

  (* owed for the accounting: a reservation moved with block (d, s, len) has, rounded out under a1, a
     range that contains the image of its extent *)
  Definition rounds_out (cs : list (Z * Z * Z)) : Prop :=
    forall m m' d s len, In (d, s, len) cs -> aligned a1 d ->
      s <= flo m -> fhi m <= s + len -> r_off m' = r_off m - s + d -> r_sz m' = r_sz m ->
      r_lo a1 m' <= flo m - s + d /\ fhi m - s + d <= r_hi a1 m'.

  (* rounded out under a1 the moved reservations lie in [0, nr) and cover it: a block's destination up
     to d + len by the members' extents, the rest up to d + ru len by the rounded end of the last *)
  Lemma moved_union : forall l l' cs s0 nr,
    blocks_ok (ru a1) 0 s0 cs nr ->
    Forall2 (placed flo fhi cs) l l' ->
    (forall d s len q, In (d, s, len) cs -> s <= q < s + len -> exists m, In m l /\ flo m <= q < fhi m) ->
    (forall m, In m l -> extent_contains flo fhi m) ->
    rounds_out cs ->
    aligned a1 nr /\ (forall r, In r l' -> r_hi a1 r <= nr) /\
    (forall q, 0 <= q < nr -> cov a1 l' q = true).
  Proof.
    intros l l' cs s0 nr Hok Hpl Hcov Hcont Hround.
    destruct (blocks_dst_aligned a1 (ru a1) cs 0 s0 nr (ru_aligned a1) (aligned_0 a1) Hok) as [Anr Ad].
    pose proof (blocks_lower (ru a1) (ru_ge a1 Ha1) _ _ _ _ Hok) as [_ Hlow].
    split; [exact Anr|]. split.
    - intros r Hr. destruct (Forall2_in_r _ _ _ _ _ r Hpl Hr) as (m & Hm & Hp).
      pose proof (placed_sz Hp) as Esz. destruct (placed_in Hp) as (d & s & len & Hin & A & B & C).
      destruct (Hlow _ _ _ Hin) as (_ & _ & L & E). destruct (Hcont m Hm) as [_ K].
      unfold r_hi. rewrite C, Esz.
      eapply Z.le_trans; [apply (ru_mono a1 Ha1 _ (d + len)); lia|].
      rewrite ru_add_aligned; [lia|assumption|exact (Ad _ _ _ Hin)].
    - intros q Hq. apply cov_true.
      destruct (blocks_tile (ru a1) cs 0 s0 nr q Hok Hq) as (d & s & len & Hin & Hqd).
      assert (Hmember : forall q0, s <= q0 < s + len -> exists m', In m' l' /\
                r_lo a1 m' <= q0 - s + d < r_hi a1 m' /\ (q0 = s + len - 1 -> d + ru a1 len <= r_hi a1 m')).
      { intros q0 Hq0. destruct (Hcov _ _ _ q0 Hin Hq0) as (m & Hm & Hqm).
        destruct (Forall2_in_l _ _ _ _ _ m Hpl Hm) as (m' & Hm' & Hp).
        destruct (placed_block flo fhi (ru a1) (ru_ge a1 Ha1) cs s0 nr Hok m m' d s len q0 Hp Hin Hq0 Hqm) as (A & B & C).
        destruct (Hround m m' d s len Hin (Ad _ _ _ Hin) A B C (placed_sz Hp)) as [R1 R2].
        exists m'. split; [assumption|]. split; [lia|].
        intros ->. rewrite <- (ru_add_aligned a1 Ha1 d len (Ad _ _ _ Hin)).
        apply (ru_le_aligned a1 Ha1); [apply ru_aligned|lia]. }
      destruct (Z_lt_le_dec q (d + len)) as [Hlt|Hge].
      + destruct (Hmember (q - d + s) ltac:(lia)) as (m' & Hm' & Hr & _). exists m'. split; [assumption|lia].
      + destruct (Z.eq_dec len 0) as [->|Nz]; [rewrite (ru_0 a1 Ha1) in Hqd; lia|].
        destruct (Hlow _ _ _ Hin) as (_ & _ & L & _).
        destruct (Hmember (s + len - 1) ltac:(lia)) as (m' & Hm' & Hr & He). specialize (He eq_refl).
        exists m'. split; [assumption|lia].
  Qed.

  Lemma inv_moved : forall p sp l' cs s0 nr sz1 gen1 b0,
    Inv p sp ->
    blocks_ok (ru a1) 0 s0 cs nr ->
    Forall2 (placed flo fhi cs) (p_res p) l' ->
    (forall d s len q, In (d, s, len) cs -> s <= q < s + len ->
       exists m, In m (p_res p) /\ flo m <= q < fhi m) ->
    (forall d s len, In (d, s, len) cs -> 0 <= s /\ s + len <= p_size p) ->
    (forall m, In m (p_res p) -> extent_contains flo fhi m) ->
    rounds_out cs ->
    nr <= sz1 ->
    Inv (mkPool a1 sz1 nr (resort l') (apply_copies (p_buf p) cs b0) gen1 false false) sp /\
    forallb (copy_ok (p_size p) sz1) cs = true /\
    aligned a1 nr /\ forall r, In r (resort l') -> r_hi a1 r <= nr.
  Proof.
    intros p sp l' cs s0 nr sz1 gen1 b0 I Hok Hpl Hcov Hsrc Hcont Hround Hsz1.
    destruct (moved_union _ _ _ _ _ Hok Hpl Hcov Hcont Hround) as (Anr & Hin_nr & Hcover).
    pose proof (blocks_lower (ru a1) (ru_ge a1 Ha1) _ _ _ _ Hok) as [Hnr0 Hlow].
    assert (Hback : forall r', In r' (resort l') -> In r' l' /\ exists m, In m (p_res p) /\ placed flo fhi cs m r').
    { intros r' Hr'. apply (proj1 (in_resort _ _)) in Hr'. split; [assumption|].
      exact (Forall2_in_r _ _ _ _ _ r' Hpl Hr'). }
    assert (Hnd' : NoDup (map r_id l')) by (rewrite (placed_ids flo fhi cs _ _ Hpl); apply (i_nd I)).
    split; [|split; [|split; [exact Anr|]]].
    - refine (mkInv (mkPool _ _ _ _ _ _ _ _) sp Ha1 _ _ _ (i_snd I) _ _ _ _ _ _ eq_refl eq_refl
                (i_fam I) (i_fresh I) (i_root I));
        cbn [p_align p_size p_reserved p_res p_buf].
      + lia.
      + apply resort_sorted. exact Hnd'.
      + apply resort_nodup. exact Hnd'.
      + intros r' Hr'. destruct (Hback r' Hr') as (_ & m & Hm & Hp).
        destruct (i_link I m Hm) as (e & Hl & Hsz).
        pose proof (placed_id Hp) as Eid. pose proof (placed_sz Hp) as Esz.
        exists e. split; [exact (same_handle_id _ _ _ _ (eq_sym Eid) Hl)|congruence].
      + intros e He. destruct (i_back I e He) as (m & Hm & Hmid).
        destruct (Forall2_in_l _ _ _ _ _ m Hpl Hm) as (r' & Hr' & Hp). pose proof (placed_id Hp) as Eid.
        exists r'. split; [apply in_resort; assumption|congruence].
      + intros r' Hr'. destruct (Hback r' Hr') as (Hl' & m & Hm & Hp).
        pose proof (Hin_nr r' Hl'). destruct (i_bounds I m Hm) as (_ & Hsz & _).
        pose proof (placed_sz Hp) as Esz. destruct (placed_in Hp) as (d & s & len & Hin & A & _ & C).
        destruct (Hlow _ _ _ Hin) as (_ & D & _). destruct (Hcont m Hm). lia.
      + rewrite (union_size_bound a1 (resort l') nr Hnr0) by (intros r Hr; apply Hin_nr, in_resort, Hr).
        rewrite count_all; [lia|lia|]. intros q Hq.
        rewrite (cov_ext a1 (resort l') l') by (apply in_resort). apply Hcover. assumption.
      + intros r1 r2 e1 e2 i1 i2 H1 H2 L1 L2 Hi1 Hi2.
        destruct (Hback r1 H1) as (_ & m1 & Hm1 & Hp1). destruct (Hback r2 H2) as (_ & m2 & Hm2 & Hp2).
        apply (same_handle_id _ _ _ _ (placed_id Hp1)) in L1.
        apply (same_handle_id _ _ _ _ (placed_id Hp2)) in L2.
        pose proof (placed_sz Hp1) as Esz1. pose proof (placed_sz Hp2) as Esz2.
        rewrite (mig_coincide flo fhi (ru a1) (ru_ge a1 Ha1) cs s0 nr Hok m1 r1 m2 r2 i1 i2 Hp1 Hp2 (Hcont m1 Hm1) (Hcont m2 Hm2))
          by lia.
        apply (i_coincide I m1 m2 e1 e2 i1 i2); try assumption; lia.
      + intros r' e i Hr' L Hi.
        destruct (Hback r' Hr') as (_ & m & Hm & Hp). pose proof (placed_sz Hp) as Esz.
        apply (same_handle_id _ _ _ _ (placed_id Hp)) in L.
        rewrite (mig_contents flo fhi (ru a1) (ru_ge a1 Ha1) cs s0 nr Hok (p_buf p) b0 m r' i Hp (Hcont m Hm)) by lia.
        apply (i_mem I m e i Hm L). lia.
    - apply (mig_copy_ok (ru a1) (ru_ge a1 Ha1) cs s0 nr Hok); assumption.
    - intros r Hr. apply Hin_nr, in_resort, Hr.
  Qed.
End Moved.

Lemma resize_some : forall V force d p bytes,
  p_reserved p <= bytes -> exists r, resize V force d p bytes = Some r.
Proof.
  intros V force d p bytes H. unfold resize.
  destruct (Z.gtb_spec (p_reserved p) bytes); [lia|].
  destruct ((p_size p =? bytes) && negb force); [eexists; reflexivity|].
  destruct (p_res p); [eexists; reflexivity|].
  destruct (if v_round V then _ else _) as [[l' cs] nr]. eexists; reflexivity.
Qed.

(* reserved is a multiple of the alignment and no rounded range ends beyond it: [reserved, size) is free *)
Definition packed (p : pool) : Prop :=
  aligned (p_align p) (p_reserved p) /\
  forall r, In r (p_res p) -> r_hi (p_align p) r <= p_reserved p.

Lemma resize_inv : forall p sp force d bytes d1 p1,
  Inv p sp ->
  resize fixed force d p bytes = Some (d1, p1) ->
  Inv p1 sp /\ p_align p1 = p_align p /\ p_reserved p1 = p_reserved p /\
  ((force = true \/ p_size p <> bytes) -> p_size p1 = ru (p_align p) bytes /\ packed p1).
Proof.
  intros p sp force d bytes d1 p1 I H.
  pose proof (i_align I) as Ha. pose proof (ru_spec (p_align p) Ha bytes) as Hab.
  pose proof (reserved_nonneg _ _ I) as R0.
  unfold resize in H.
  destruct (Z.gtb_spec (p_reserved p) bytes) as [G|G]; [discriminate|].
  destruct ((p_size p =? bytes) && negb force) eqn:Eearly.
  { inversion H; subst. split; [assumption|]. split; [reflexivity|]. split; [reflexivity|].
    intros [->|N]; apply andb_prop in Eearly; destruct Eearly as [E1 E2]; [discriminate|].
    apply Z.eqb_eq in E1. contradiction. }
  destruct (p_res p) as [|m0 tl] eqn:El.
  - injection H as <- <-.
    split; [apply inv_empty; assumption || lia|]. split; [reflexivity|]. split; [reflexivity|].
    intros _. split; [reflexivity|]. split; cbn; [|intros r []].
    rewrite (i_reserved I), El. apply aligned_0.
  - (* extents are the rounded ranges: blocks start and end at multiples of the alignment, and rounded
       ranges move rigidly *)
    cbn [v_round fixed] in H.
    set (a := p_align p) in *.
    destruct (pack (r_lo a) (r_hi a) (ru a) (m0 :: tl)) as [[l' cs] nr] eqn:Epack.
    injection H as <- <-.
    rewrite <- El in Epack.
    assert (Hne : p_res p <> []) by (rewrite El; discriminate).
    assert (Hext : forall m, In m (p_res p) -> 0 <= r_lo a m <= r_off m /\ r_end m <= r_hi a m <= p_size p).
    { intros m Hm. destruct (i_bounds I m Hm) as (A & B & C).
      pose proof (r_lo_nonneg a m Ha A). pose proof (r_lo_le_off a m Ha). pose proof (r_end_le_hi a m Ha).
      unfold r_end. fold a in C. lia. }
    assert (Hflf : forall m, In m (p_res p) -> r_lo a m <= r_hi a m).
    { intros m Hm. apply r_lo_le_hi; [assumption|apply (i_bounds I m Hm)]. }
    assert (Hsf : sorted_by (r_lo a) (p_res p)) by (apply sorted_lo; [assumption|apply (i_sorted I)]).
    destruct (pack_spec (r_lo a) (r_hi a) (ru a) _ _ _ _ Epack Hne Hflf Hsf) as ((s0 & Hok) & Hpl & Hcov & Hends).
    assert (Hblk : forall d s len, In (d, s, len) cs ->
              (aligned a s /\ 0 <= s <= p_size p) /\ (aligned a (s + len) /\ 0 <= s + len <= p_size p)).
    { apply Hends. intros m Hm. destruct (Hext m Hm). specialize (Hflf m Hm).
      split; (split; [apply rd_aligned || apply ru_aligned|lia]). }
    (* the old reserved bytes are exactly the blocks *)
    assert (Hsame : p_reserved p = nr).
    { rewrite (i_reserved I). fold a.
      rewrite (union_size_bound a (p_res p) (p_size p) (i_size I)) by (intros r Hr; apply (i_bounds I r Hr)).
      replace nr with (nr - 0) by lia.
      apply (count_chain (ru a) (ru_ge a Ha) cs 0 s0 nr (cov a (p_res p)) 0 (p_size p) Hok).
      - intros dd s len Hin. destruct (Hblk _ _ _ Hin) as ((As & S0) & (Ae & Se)).
        split; [|lia]. apply (ru_of_aligned a Ha).
        replace len with (s + len - s) by lia. apply aligned_sub; assumption.
      - intros q Hq. split.
        + intros Hc. apply cov_true in Hc. destruct Hc as (r & Hr & Hqr).
          destruct (Forall2_in_l _ _ _ _ _ r Hpl Hr) as (r' & _ & Hp).
          destruct (placed_in Hp) as (dd & s & len & Hin & A & B & _).
          exists dd, s, len. split; [assumption|lia].
        + intros (dd & s & len & Hin & Hqs). apply cov_true. exact (Hcov _ _ _ q Hin Hqs). }
    destruct (inv_moved (r_lo a) (r_hi a) a Ha p sp l' cs s0 nr (ru a bytes) (p_gen p + 1) zero_buf I Hok Hpl Hcov)
      as (I1 & Hcopies & Anr & Hin_nr); [| | |lia|].
    { intros dd s len Hin. destruct (Hblk _ _ _ Hin). lia. }
    { intros m Hm. destruct (Hext m Hm). unfold extent_contains, r_end in *. lia. }
    { intros m m' dd s len Hin Ad _ _ Eoff Esz. destruct (Hblk _ _ _ Hin) as ((As & _) & _).
      destruct (r_lo_hi_shift a (dd - s) m m' Ha) as [-> ->]; [apply aligned_sub; assumption|lia|assumption|lia]. }
    rewrite Hcopies, (i_oob I), (i_tie I). cbn [negb orb andb v_resort fixed after_move].
    split; [exact I1|]. split; [reflexivity|]. split; [cbn; lia|].
    intros _. split; [reflexivity|]. split; assumption.
Qed.

Lemma set_alignment_inv : forall p sp d na d1 p1,
  Inv p sp -> 0 <= na ->
  set_alignment fixed d p na = Some (d1, p1) ->
  Inv p1 sp.
Proof.
  intros p sp d na d1 p1 I Hna H.
  unfold set_alignment in H.
  destruct (Z.eqb_spec na 0) as [|Nz]; [discriminate|].
  assert (Ha : 0 < na) by lia.
  destruct (Z.eqb_spec (p_align p) na) as [Esame|Ndiff].
  { inversion H; subst. assumption. }
  destruct (p_res p) as [|m0 tl] eqn:El.
  - injection H as <- <-. apply inv_empty; try assumption. apply (i_size I).
  - cbn [v_resort fixed after_move] in H.
    rewrite (size_loop_pack r_off r_end (ru na) m0 tl) in H.
    destruct (pack r_off r_end (ru na) (m0 :: tl)) as [[l' cs] nr] eqn:Epack.
    injection H as <- <-.
    rewrite <- El in Epack.
    assert (Hne : p_res p <> []) by (rewrite El; discriminate).
    assert (Hext : forall m, In m (p_res p) -> 0 <= r_off m <= r_end m /\ r_end m <= p_size p).
    { intros m Hm. destruct (i_bounds I m Hm) as (A & B & C).
      pose proof (r_end_le_hi (p_align p) m (i_align I)). unfold r_end. lia. }
    destruct (pack_spec r_off r_end (ru na) _ _ _ _ Epack Hne) as ((s0 & Hok) & Hpl & Hcov & Hends);
      [intros m Hm; apply (Hext m Hm)|apply sorted_off, (i_sorted I)|].
    (* the new buffer is exactly the packed blocks, rounded to the new alignment: sz1 = nr *)
    destruct (inv_moved r_off r_end na Ha p sp l' cs s0 nr nr (p_gen p + 1) zero_buf I Hok Hpl Hcov) as (I1 & Hcopies & _).
    + intros dd s len Hin.
      destruct (Hends (fun x => 0 <= x <= p_size p)) with (d := dd) (s := s) (len := len); [|assumption|lia].
      intros m Hm. destruct (Hext m Hm). lia.
    + intros m Hm. unfold extent_contains, r_end. lia.
    + intros m m' dd s len _ _ _ _ Eoff Esz.
      pose proof (r_lo_le_off na m' Ha). pose proof (r_end_le_hi na m' Ha). unfold r_end. lia.
    + lia.
    + rewrite Hcopies, (i_oob I), (i_tie I). exact I1.
Qed.

Lemma hole_spec : forall a bytes l offset,
  0 < a -> sorted_by r_off l ->
  aligned a offset ->
  let o := hole a bytes offset l in
  offset <= o /\ aligned a o /\ forall m, In m l -> r_end m <= o \/ o + bytes <= r_off m.
Proof.
  intros a bytes l. induction l as [|m tl IH]; intros offset Ha Hs Hal; cbn.
  - split; [lia|]. split; [assumption|]. intros m [].
  - destruct (StronglySorted_inv Hs) as [Hs' Hhd]. rewrite Forall_forall in Hhd.
    destruct (Z.geb_spec (r_off m) (offset + bytes)) as [G|G].
    + split; [lia|]. split; [assumption|].
      intros m' [<-|Hm']; [right; lia|]. specialize (Hhd m' Hm'). right. lia.
    + assert (Hal' : aligned a (Z.max offset (r_hi a m))).
      { destruct (Z.max_spec offset (r_hi a m)) as [[_ ->]|[_ ->]]; [apply ru_aligned|assumption]. }
      destruct (IH (Z.max offset (r_hi a m)) Ha Hs' Hal') as (A & B & C).
      split; [lia|]. split; [assumption|].
      intros m' [<-|Hm'].
      * left. pose proof (r_end_le_hi a m Ha). unfold r_end. lia.
      * apply C. assumption.
Qed.

(* the hole search returns a free aligned place; all three exits put the reservation where nothing
   else lives, inside the buffer *)
Lemma reserve_inv : forall p sp d id bytes,
  Inv p sp -> find_res id (p_res p) = None -> 0 < bytes ->
  exists d1 p1, reserve fixed d p id bytes = Some (d1, p1) /\
    Inv p1 (mkS (mkSres id (s_next sp) 0 bytes true :: s_live sp) (s_mem sp) (s_next sp + 1)).
Proof.
  intros p sp d id bytes I Hfree Hbytes.
  pose proof (i_align I) as Ha. pose proof (reserved_nonneg _ _ I) as R0.
  unfold reserve. cbn [v_fit v_force fixed].
  set (a := p_align p) in *. set (ab := ru a bytes) in *.
  assert (Hab : bytes <= ab /\ aligned a ab).
  { unfold ab. pose proof (ru_spec a Ha bytes). split; [lia|apply ru_aligned]. }
  (* after a packing resize the end of the reserved region is free *)
  assert (Hend : forall force, (force = true \/ p_size p <> p_reserved p + ab) ->
            exists d' p', resize fixed force d p (p_reserved p + ab) = Some (d', p') /\
            Inv (add_ref fixed p' (mkRes id (p_reserved p') bytes))
                (mkS (mkSres id (s_next sp) 0 bytes true :: s_live sp) (s_mem sp) (s_next sp + 1))).
  { intros force Hwhy.
    destruct (resize_some fixed force d p (p_reserved p + ab) ltac:(lia)) as [[d' p'] Hr].
    exists d', p'. split; [exact Hr|].
    destruct (resize_inv p sp force d (p_reserved p + ab) d' p' I Hr) as (I' & Eal & Eres & Hpk).
    destruct (Hpk Hwhy) as (Esz & Aln & Hall). rewrite Eal in Aln, Hall. fold a in Esz, Aln, Hall.
    refine (inv_new_root p' sp id (p_reserved p') bytes I' _ (reserved_nonneg _ _ I') Hbytes _ _ _); rewrite ?Eal; fold a.
    - apply (free_id_agrees p' sp id I'). apply (free_id_agrees p sp id I). assumption.
    - exact Aln.
    - (* reserved + ab is a multiple of a, so it is the new size *)
      fold ab. rewrite Esz, Eres, ru_of_aligned; [lia|assumption|].
      apply aligned_add; [rewrite <- Eres; assumption|apply Hab].
    - 
      intros m Hm. left. specialize (Hall m Hm). pose proof (r_end_le_hi a m Ha). unfold r_end. lia. }
  destruct (Z.gtb_spec (p_reserved p + ab) (p_size p)) as [G|G].
  - destruct (Hend false ltac:(right; lia)) as (d' & p' & -> & I'). eexists _, _. split; [reflexivity|exact I'].
  - destruct (p_res p) as [|m0 tl] eqn:El.
    + 
      rewrite <- El in Hfree. eexists _, _. split; [reflexivity|].
      refine (inv_new_root p sp id 0 bytes I Hfree (Z.le_refl 0) Hbytes (aligned_0 _) _ _); fold a ab; [lia|].
      rewrite El. intros m [].
    + (* the hole search *)
      rewrite <- El in *.
      destruct (hole_spec a bytes (p_res p) 0 Ha (sorted_off _ (i_sorted I)) (aligned_0 a))
        as (O0 & Oal & Odisj).
      set (o := hole a bytes 0 (p_res p)) in *.
      destruct (Z.leb_spec (o + ab) (p_size p)) as [L|L].
      * eexists _, _. split; [reflexivity|].
        exact (inv_new_root p sp id o bytes I Hfree O0 Hbytes Oal L Odisj).
      * destruct (Hend true ltac:(left; reflexivity)) as (d' & p' & -> & I'). eexists _, _. split; [reflexivity|exact I'].
Qed.
