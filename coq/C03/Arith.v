(* The half-open range test (range_spec); rounding to a positive alignment (Model.rd / Model.ru); the
   rounded range of a reservation (Model.r_lo / Model.r_hi). *)
From Coq Require Import ZArith Lia.
From OV.C03 Require Import Model.
Local Open Scope Z_scope.

Lemma range_spec : forall lo hi p, BoolSpec (lo <= p < hi) (~ lo <= p < hi) ((lo <=? p) && (p <? hi)).
Proof. intros. destruct (Z.leb_spec lo p), (Z.ltb_spec p hi); constructor; lia. Qed.

Definition aligned (a x : Z) : Prop := exists k, x = k * a.

Lemma aligned_0 : forall a, aligned a 0.
Proof. intros a; exists 0; lia. Qed.

Lemma aligned_self : forall a, aligned a a.
Proof. intros a; exists 1; lia. Qed.

Lemma aligned_add : forall a x y, aligned a x -> aligned a y -> aligned a (x + y).
Proof. intros a x y [k ->] [j ->]. exists (k + j). lia. Qed.

Lemma aligned_sub : forall a x y, aligned a x -> aligned a y -> aligned a (x - y).
Proof. intros a x y [k ->] [j ->]. exists (k - j). lia. Qed.

Section Rounding.
  Variable a : Z.
  Hypothesis Ha : 0 < a.

  Lemma rd_spec : forall x, rd a x <= x < rd a x + a.
  Proof.
    intros x. unfold rd.
    pose proof (Z.div_mod x a ltac:(lia)) as E.
    pose proof (Z.mod_pos_bound x a Ha) as B.
    rewrite (Z.mul_comm (x / a) a). lia.
  Qed.

  (* so every fact about ru is the fact about rd, a - 1 further on *)
  Lemma ru_rd : forall x, ru a x = rd a (x + a - 1).
  Proof. reflexivity. Qed.

  Lemma ru_spec : forall x, x <= ru a x < x + a.
  Proof. intros x. rewrite ru_rd. pose proof (rd_spec (x + a - 1)). lia. Qed.

  Lemma rd_aligned : forall x, aligned a (rd a x).
  Proof. intros x. exists (x / a). reflexivity. Qed.

  Lemma ru_aligned : forall x, aligned a (ru a x).
  Proof. intros x. apply rd_aligned. Qed.

  Lemma rd_of_aligned : forall x, aligned a x -> rd a x = x.
  Proof. intros x [k ->]. unfold rd. rewrite Z.div_mul by lia. reflexivity. Qed.

  Lemma ru_of_aligned : forall x, aligned a x -> ru a x = x.
  Proof.
    intros x [k ->]. unfold ru.
    replace (k * a + a - 1) with ((a - 1) + k * a) by lia.
    rewrite Z.div_add by lia. rewrite (Z.div_small (a - 1) a) by lia. lia.
  Qed.

  Lemma rd_add_aligned : forall k x, aligned a k -> rd a (k + x) = k + rd a x.
  Proof.
    intros k x [j ->]. unfold rd.
    replace (j * a + x) with (x + j * a) by lia.
    rewrite Z.div_add by lia. lia.
  Qed.

  Lemma ru_add_aligned : forall k x, aligned a k -> ru a (k + x) = k + ru a x.
  Proof. intros k x Hk. rewrite !ru_rd, <- rd_add_aligned by assumption. f_equal. lia. Qed.

  Lemma rd_mono : forall x y, x <= y -> rd a x <= rd a y.
  Proof.
    intros x y H. unfold rd. apply Z.mul_le_mono_nonneg_r; [lia|].
    apply Z.div_le_mono; lia.
  Qed.

  (* ru a as a rounding function in the sense of Pack.v *)
  Lemma ru_ge : forall x, 0 <= x -> x <= ru a x.
  Proof. intros x _. pose proof (ru_spec x). lia. Qed.

  Lemma ru_mono : forall x y, x <= y -> ru a x <= ru a y.
  Proof. intros x y H. rewrite !ru_rd. apply rd_mono. lia. Qed.

  Lemma rd_nonneg : forall x, 0 <= x -> 0 <= rd a x.
  Proof.
    intros x H. unfold rd. apply Z.mul_nonneg_nonneg; [|lia]. apply Z.div_pos; lia.
  Qed.

  Lemma ru_nonneg : forall x, 0 <= x -> 0 <= ru a x.
  Proof. intros x H. pose proof (ru_spec x). lia. Qed.

  Lemma rd_le_ru : forall x y, x <= y -> rd a x <= ru a y.
  Proof. intros x y H. pose proof (rd_spec x). pose proof (ru_spec y). lia. Qed.

  Lemma ru_le_aligned : forall x k, aligned a k -> x <= k -> ru a x <= k.
  Proof.
    intros x k Hk H. rewrite <- (ru_of_aligned k Hk). apply ru_mono; assumption.
  Qed.

  Lemma rd_ge_aligned : forall x k, aligned a k -> k <= x -> k <= rd a x.
  Proof.
    intros x k Hk H. rewrite <- (rd_of_aligned k Hk). apply rd_mono; assumption.
  Qed.

  Lemma ru_0 : ru a 0 = 0.
  Proof. apply ru_of_aligned. apply aligned_0. Qed.

  Lemma aligned_lt_step : forall x y, aligned a x -> aligned a y -> x < y -> x + a <= y.
  Proof.
    intros x y [k ->] [j ->] H.
    assert (k < j) by nia. nia.
  Qed.

  Lemma ru_rd_same_block : forall x, ru a x = rd a x \/ ru a x = rd a x + a.
  Proof.
    intros x. pose proof (rd_spec x). pose proof (ru_spec x).
    destruct (Z.eq_dec (ru a x) (rd a x)) as [|N]; [left; assumption|right].
    (* two multiples of a that lie less than 2a apart *)
    pose proof (aligned_lt_step _ _ (rd_aligned x) (ru_aligned x)).
    pose proof (aligned_lt_step _ _ (ru_aligned x) (aligned_add _ _ _ (rd_aligned x) (aligned_add _ _ _ (aligned_self a) (aligned_self a)))).
    lia.
  Qed.
End Rounding.

(* the rounded range [r_lo, r_hi) of a reservation *)
Lemma r_lo_le_hi : forall a r, 0 < a -> 0 <= r_sz r -> r_lo a r <= r_hi a r.
Proof. intros a r Ha Hsz. unfold r_lo, r_hi. apply rd_le_ru; lia. Qed.

Lemma r_lo_le_off : forall a r, 0 < a -> r_lo a r <= r_off r.
Proof. intros a r Ha. unfold r_lo. pose proof (rd_spec a Ha (r_off r)). lia. Qed.

Lemma r_end_le_hi : forall a r, 0 < a -> r_off r + r_sz r <= r_hi a r.
Proof. intros a r Ha. unfold r_hi. pose proof (ru_spec a Ha (r_off r + r_sz r)). lia. Qed.

Lemma r_lo_nonneg : forall a r, 0 < a -> 0 <= r_off r -> 0 <= r_lo a r.
Proof. intros a r Ha H. unfold r_lo. apply rd_nonneg; assumption. Qed.

Lemma r_lo_hi_shift : forall a k m m', 0 < a -> aligned a k ->
  r_off m' = k + r_off m -> r_sz m' = r_sz m ->
  r_lo a m' = k + r_lo a m /\ r_hi a m' = k + r_hi a m.
Proof.
  intros a k m m' Ha Hk Eoff Esz. unfold r_lo, r_hi. rewrite Eoff, Esz, <- Z.add_assoc.
  split; [apply rd_add_aligned|apply ru_add_aligned]; assumption.
Qed.

Lemma r_hi_at_aligned : forall a r, 0 < a -> aligned a (r_off r) -> r_hi a r = r_off r + ru a (r_sz r).
Proof. intros a r Ha Ho. apply ru_add_aligned; assumption. Qed.

Lemma coincide_sym : forall a b c d e f : Z, (a = b <-> c = d /\ e = f) -> (b = a <-> d = c /\ f = e).
Proof.
  intros a b c d e f H. split; [intros E; destruct (proj1 H (eq_sym E)); auto|].
  intros [E1 E2]. symmetry. apply H. auto.
Qed.
