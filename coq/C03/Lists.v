(* The reservation set as a sorted list (insert, remove_res, find_res, resort), the live handles of
   the reference semantics (s_find, s_remove), and lists related elementwise (Forall2). *)
From Coq Require Import List ZArith Bool Lia Sorting.Sorted Sorting.Permutation.
From OV.C03 Require Import Model Spec Arith.
Import ListNotations.
Local Open Scope Z_scope.

Definition rlt (x y : res) : Prop := res_lt x y = true.
Definition sorted (l : list res) : Prop := StronglySorted rlt l.

Lemma rlt_iff : forall x y, rlt x y <->
  r_off x < r_off y \/
  (r_off x = r_off y /\ (r_sz x < r_sz y \/ (r_sz x = r_sz y /\ r_id x < r_id y))).
Proof.
  intros x y. unfold rlt, res_lt.
  destruct (Z.eqb_spec (r_off x) (r_off y)); [destruct (Z.eqb_spec (r_sz x) (r_sz y))|];
    rewrite Z.ltb_lt; lia.
Qed.

Lemma rlt_trans : forall x y z, rlt x y -> rlt y z -> rlt x z.
Proof. intros x y z. rewrite !rlt_iff. lia. Qed.

Lemma rlt_total : forall x y, r_id x <> r_id y -> res_lt x y = false -> rlt y x.
Proof.
  intros x y Hid H. apply not_true_iff_false in H. fold (rlt x y) in H. rewrite rlt_iff in *. lia.
Qed.

Lemma rlt_off : forall x y, rlt x y -> r_off x <= r_off y.
Proof. intros x y. rewrite rlt_iff. lia. Qed.

(* Model.find_res/remove_res and Spec.s_find/s_remove are the same two functions over different
   records; what is proved here needs only their defining equations. *)
Section Keyed.
  Variables (A : Type) (key : A -> Z) (find : Z -> list A -> option A) (remove : Z -> list A -> list A).
  Hypothesis find_nil : forall id, find id [] = None.
  Hypothesis find_cons : forall id x l, find id (x :: l) = if key x =? id then Some x else find id l.
  Hypothesis remove_nil : forall id, remove id [] = [].
  Hypothesis remove_cons : forall id x l, remove id (x :: l) = if key x =? id then l else x :: remove id l.

  Lemma kfind_some : forall id l r, find id l = Some r -> In r l /\ key r = id.
  Proof.
    induction l as [|y tl IH]; intros r H; [rewrite find_nil in H; discriminate|].
    rewrite find_cons in H. destruct (Z.eqb_spec (key y) id).
    - inversion H; subst. split; [left; reflexivity|reflexivity].
    - destruct (IH _ H). split; [right; assumption|assumption].
  Qed.

  Lemma kfind_none_iff : forall id l, find id l = None <-> (forall r, In r l -> key r <> id).
  Proof.
    induction l as [|y tl IH]; [rewrite find_nil; split; [intros _ r []|reflexivity]|].
    rewrite find_cons. destruct (Z.eqb_spec (key y) id) as [E|N].
    - split; [discriminate|]. intros H. destruct (H y (or_introl eq_refl) E).
    - rewrite IH. split.
      + intros H r [<-|Hr]; [assumption|apply H; assumption].
      + intros H r Hr. apply H. right. assumption.
  Qed.

  Lemma kfind_in : forall l r, NoDup (map key l) -> In r l -> find (key r) l = Some r.
  Proof.
    induction l as [|y tl IH]; intros r Hnd Hin; [destruct Hin|].
    cbn in Hnd. inversion Hnd as [|? ? Hnotin Hnd']; subst. rewrite find_cons.
    destruct Hin as [<-|Hin]; [rewrite Z.eqb_refl; reflexivity|].
    destruct (Z.eqb_spec (key y) (key r)) as [E|N]; [|apply IH; assumption].
    destruct Hnotin. rewrite E. apply in_map. assumption.
  Qed.

  Lemma kremove_incl : forall id l y, In y (remove id l) -> In y l.
  Proof.
    induction l as [|z tl IH]; intros y H; [rewrite remove_nil in H; assumption|].
    rewrite remove_cons in H. destruct (key z =? id); [right; assumption|].
    destruct H as [<-|H]; [left; reflexivity|right; apply IH; assumption].
  Qed.

  Lemma kremove_in : forall id l y,
    NoDup (map key l) -> (In y (remove id l) <-> In y l /\ key y <> id).
  Proof.
    induction l as [|z tl IH]; intros y Hnd; [rewrite remove_nil; cbn; tauto|].
    cbn in Hnd. inversion Hnd as [|? ? Hnotin Hnd']; subst. rewrite remove_cons.
    destruct (Z.eqb_spec (key z) id) as [E|N].
    - split.
      + intros Hy. split; [right; assumption|]. intros Ey. apply Hnotin. rewrite E, <- Ey. apply in_map. assumption.
      + intros [[<-|Hy] Hne]; [congruence|assumption].
    - cbn [In]. rewrite (IH y Hnd'). split.
      + intros [<-|[Hy Hne]]; [split; [left; reflexivity|assumption]|split; [right; assumption|assumption]].
      + intros [[<-|Hy] Hne]; [left; reflexivity|right; split; assumption].
  Qed.

  Lemma kremove_nodup : forall id l, NoDup (map key l) -> NoDup (map key (remove id l)).
  Proof.
    induction l as [|z tl IH]; intros Hnd; [rewrite remove_nil; assumption|].
    cbn in Hnd. inversion Hnd as [|? ? Hnotin Hnd']; subst. rewrite remove_cons.
    destruct (key z =? id); [assumption|].
    cbn. constructor; [|apply IH; assumption].
    intros Hin. apply Hnotin. apply in_map_iff in Hin. destruct Hin as (y & Ey & Hy).
    rewrite <- Ey. apply in_map. eapply kremove_incl; eassumption.
  Qed.

  Lemma kremove_length : forall id l r, find id l = Some r -> length l = S (length (remove id l)).
  Proof.
    induction l as [|z tl IH]; intros r H; [rewrite find_nil in H; discriminate|].
    rewrite find_cons in H. rewrite remove_cons.
    destruct (key z =? id); [reflexivity|]. cbn. f_equal. eapply IH; eassumption.
  Qed.

  Lemma kremove_absent : forall id l, find id l = None -> remove id l = l.
  Proof.
    induction l as [|z tl IH]; intros H; [apply remove_nil|].
    rewrite find_cons in H. rewrite remove_cons.
    destruct (key z =? id); [discriminate|]. f_equal. apply IH. assumption.
  Qed.

  Lemma kfind_remove_ne : forall id id' l, id' <> id -> find id' (remove id l) = find id' l.
  Proof.
    induction l as [|z tl IH]; intros Hne; [rewrite remove_nil; reflexivity|].
    rewrite remove_cons, find_cons. destruct (Z.eqb_spec (key z) id) as [E|N].
    - destruct (Z.eqb_spec (key z) id'); [congruence|reflexivity].
    - rewrite find_cons. destruct (key z =? id'); [reflexivity|apply IH; assumption].
  Qed.
End Keyed.

Lemma find_res_some : forall id l r, find_res id l = Some r -> In r l /\ r_id r = id.
Proof. apply (kfind_some res r_id find_res); reflexivity. Qed.

Lemma find_res_none_iff : forall id l, find_res id l = None <-> (forall r, In r l -> r_id r <> id).
Proof. apply (kfind_none_iff res r_id find_res); reflexivity. Qed.

Lemma find_res_none : forall id l, find_res id l = None -> forall r, In r l -> r_id r <> id.
Proof. intros id l. apply find_res_none_iff. Qed.

Lemma find_res_in : forall l r, NoDup (map r_id l) -> In r l -> find_res (r_id r) l = Some r.
Proof. apply (kfind_in res r_id find_res); reflexivity. Qed.

Lemma in_remove_res : forall id l y,
  NoDup (map r_id l) -> (In y (remove_res id l) <-> In y l /\ r_id y <> id).
Proof. apply (kremove_in res r_id remove_res); reflexivity. Qed.

Lemma remove_res_incl : forall id l y, In y (remove_res id l) -> In y l.
Proof. apply (kremove_incl res r_id remove_res); reflexivity. Qed.

Lemma remove_res_nodup : forall id l, NoDup (map r_id l) -> NoDup (map r_id (remove_res id l)).
Proof. apply (kremove_nodup res r_id remove_res); reflexivity. Qed.

Lemma remove_res_length : forall id l r,
  find_res id l = Some r -> length l = S (length (remove_res id l)).
Proof. apply (kremove_length res r_id find_res remove_res); reflexivity. Qed.

Lemma remove_res_sorted : forall id l, sorted l -> sorted (remove_res id l).
Proof.
  induction l as [|z tl IH]; intros Hs; cbn; [assumption|].
  destruct (StronglySorted_inv Hs) as [Hs' Hhd].
  destruct (r_id z =? id); [assumption|].
  constructor; [apply IH; assumption|].
  rewrite Forall_forall in *. intros y Hy. apply Hhd. eapply remove_res_incl; eassumption.
Qed.

Lemma insert_perm : forall x l, Permutation (insert x l) (x :: l).
Proof.
  induction l as [|y tl IH]; cbn; [apply Permutation_refl|].
  destruct (res_lt x y); [apply Permutation_refl|].
  eapply Permutation_trans; [apply perm_skip; exact IH|apply perm_swap].
Qed.

Lemma in_insert : forall x l y, In y (insert x l) <-> y = x \/ In y l.
Proof.
  intros x l y. split; intros H.
  - apply (Permutation_in _ (insert_perm x l)) in H. destruct H; [left; congruence|right; assumption].
  - apply (Permutation_in _ (Permutation_sym (insert_perm x l))). destruct H; [left; congruence|right; assumption].
Qed.

Lemma insert_sorted : forall x l,
  sorted l -> (forall y, In y l -> r_id y <> r_id x) -> sorted (insert x l).
Proof.
  induction l as [|y tl IH]; intros Hs Hid; cbn.
  - constructor; [constructor|constructor].
  - destruct (StronglySorted_inv Hs) as [Hs' Hhd].
    destruct (res_lt x y) eqn:E.
    + constructor; [assumption|]. constructor; [exact E|].
      rewrite Forall_forall in *. intros z Hz. eapply rlt_trans; [exact E|apply Hhd; assumption].
    + constructor.
      * apply IH; [assumption|]. intros z Hz. apply Hid. right. assumption.
      * rewrite Forall_forall in *. intros z Hz. apply in_insert in Hz. destruct Hz as [->|Hz].
        -- apply rlt_total; [|exact E]. intros Eid. apply (Hid y (or_introl eq_refl)). symmetry. exact Eid.
        -- apply Hhd. assumption.
Qed.

Lemma resort_perm : forall l, Permutation (resort l) l.
Proof.
  induction l as [|x tl IH]; cbn; [constructor|].
  eapply Permutation_trans; [apply insert_perm|]. apply perm_skip. exact IH.
Qed.

Lemma in_resort : forall l y, In y (resort l) <-> In y l.
Proof.
  intros l y. split; apply Permutation_in; [apply resort_perm|apply Permutation_sym, resort_perm].
Qed.

Lemma resort_nodup : forall l, NoDup (map r_id l) -> NoDup (map r_id (resort l)).
Proof.
  intros l H. eapply Permutation_NoDup; [|exact H].
  apply Permutation_map. apply Permutation_sym. apply resort_perm.
Qed.

Lemma resort_sorted : forall l, NoDup (map r_id l) -> sorted (resort l).
Proof.
  induction l as [|x tl IH]; intros Hnd; cbn; [constructor|].
  cbn in Hnd. inversion Hnd as [|? ? Hnotin Hnd']; subst.
  apply insert_sorted; [apply IH; assumption|].
  intros y Hy Eid. apply Hnotin. rewrite <- Eid. apply in_map. apply in_resort. assumption.
Qed.

Lemma insert_nodup : forall x l,
  NoDup (map r_id l) -> (forall y, In y l -> r_id y <> r_id x) -> NoDup (map r_id (insert x l)).
Proof.
  intros x l Hnd Hid. eapply Permutation_NoDup.
  - apply Permutation_map. apply Permutation_sym. apply insert_perm.
  - cbn. constructor; [|assumption]. intros Hin. apply in_map_iff in Hin.
    destruct Hin as (y & Ey & Hy). exact (Hid y Hy Ey).
Qed.

Lemma insert_length : forall x l, length (insert x l) = S (length l).
Proof. intros. apply (Permutation_length (insert_perm x l)). Qed.

Definition sorted_by (f : res -> Z) (l : list res) : Prop := StronglySorted (fun x y => f x <= f y) l.

Lemma sorted_by_mono : forall f, (forall x y, r_off x <= r_off y -> f x <= f y) ->
  forall l, sorted l -> sorted_by f l.
Proof.
  intros f Hf l Hs. induction Hs; constructor; [assumption|].
  rewrite Forall_forall in *. intros y Hy. apply Hf, rlt_off, H. assumption.
Qed.

Lemma sorted_off : forall l, sorted l -> sorted_by r_off l.
Proof. apply sorted_by_mono. auto. Qed.

Lemma sorted_lo : forall a l, 0 < a -> sorted l -> sorted_by (r_lo a) l.
Proof. intros a l Ha. apply sorted_by_mono. intros x y. apply rd_mono. assumption. Qed.

Lemma s_find_some : forall id l e, s_find id l = Some e -> In e l /\ s_id e = id.
Proof. apply (kfind_some sres s_id s_find); reflexivity. Qed.

Lemma s_find_none : forall id l, s_find id l = None -> forall e, In e l -> s_id e <> id.
Proof. intros id l. apply (kfind_none_iff sres s_id s_find); reflexivity. Qed.

Lemma s_find_in : forall l e, NoDup (map s_id l) -> In e l -> s_find (s_id e) l = Some e.
Proof. apply (kfind_in sres s_id s_find); reflexivity. Qed.

Lemma in_s_remove : forall id l y,
  NoDup (map s_id l) -> (In y (s_remove id l) <-> In y l /\ s_id y <> id).
Proof. apply (kremove_in sres s_id s_remove); reflexivity. Qed.

Lemma s_remove_incl : forall id l y, In y (s_remove id l) -> In y l.
Proof. apply (kremove_incl sres s_id s_remove); reflexivity. Qed.

Lemma s_remove_nodup : forall id l, NoDup (map s_id l) -> NoDup (map s_id (s_remove id l)).
Proof. apply (kremove_nodup sres s_id s_remove); reflexivity. Qed.

Lemma s_remove_absent : forall id l, s_find id l = None -> s_remove id l = l.
Proof. apply (kremove_absent sres s_id s_find s_remove); reflexivity. Qed.

Lemma s_find_remove_ne : forall id id' l, id' <> id -> s_find id' (s_remove id l) = s_find id' l.
Proof. apply (kfind_remove_ne sres s_id s_find s_remove); reflexivity. Qed.

Lemma nodup_id_eq : forall l r m, NoDup (map r_id l) -> In r l -> In m l -> r_id r = r_id m -> r = m.
Proof.
  intros l r m Hnd Hr Hm E.
  pose proof (find_res_in l r Hnd Hr) as A. pose proof (find_res_in l m Hnd Hm) as B.
  rewrite E in A. congruence.
Qed.

(* two lists related elementwise *)
Lemma Forall2_imp : forall (A B : Type) (P Q : A -> B -> Prop) l l',
  (forall a b, P a b -> Q a b) -> Forall2 P l l' -> Forall2 Q l l'.
Proof. intros A B P Q l l' H F. induction F; constructor; auto. Qed.

Lemma Forall2_flip : forall (A B : Type) (P : A -> B -> Prop) l l',
  Forall2 P l l' -> Forall2 (fun b a => P a b) l' l.
Proof. intros A B P l l' F. induction F; constructor; auto. Qed.

Lemma Forall2_in_l : forall (A B : Type) (P : A -> B -> Prop) l l' a,
  Forall2 P l l' -> In a l -> exists b, In b l' /\ P a b.
Proof.
  intros A B P l l' a F. induction F; intros Hin; [destruct Hin|].
  destruct Hin as [<-|Hin]; [exists y; split; [left; reflexivity|assumption]|].
  destruct (IHF Hin) as (b & Hb & Hp). exists b. split; [right; assumption|assumption].
Qed.

Lemma Forall2_in_r : forall (A B : Type) (P : A -> B -> Prop) l l' b,
  Forall2 P l l' -> In b l' -> exists a, In a l /\ P a b.
Proof. intros A B P l l' b F. exact (Forall2_in_l _ _ _ _ _ b (Forall2_flip _ _ _ _ _ F)). Qed.
