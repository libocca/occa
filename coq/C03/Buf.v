(* Pointwise characterisation of the buffer operations of Model.v (the proofs never look at the
   AVL trees again after this file) and of the reference semantics' write and read. *)
From Coq Require Import List ZArith Bool Lia FMapFacts OrderedTypeEx.
From OV.C03 Require Import Model Spec Statements Arith.
Import ListNotations.
Local Open Scope Z_scope.

Module ZMF := FMapFacts.WFacts_fun Z_as_OT ZM.

Lemma bget_zero : forall p, bget zero_buf p = 0.
Proof. intros p. unfold bget, zero_buf. rewrite ZMF.empty_o. reflexivity. Qed.

Lemma bget_add : forall b k v p, bget (ZM.add k v b) p = if p =? k then v else bget b p.
Proof.
  intros b k v p. unfold bget. rewrite ZMF.add_o.
  destruct (Z_as_OT.eq_dec k p) as [E|N]; destruct (Z.eqb_spec p k) as [E'|N']; try reflexivity.
  - exfalso. apply N'. symmetry. exact E.
  - exfalso. apply N. symmetry. exact E'.
Qed.

(* one more element in front of a written range: Model.write_bytes and Spec.s_write take the same step *)
Lemma write_step : forall (T : Type) (f : Z -> T) (o : T) x tl pos p,
  (if (pos + 1 <=? p) && (p <? pos + 1 + Z.of_nat (length tl))
   then f (nth (Z.to_nat (p - (pos + 1))) tl 0) else if p =? pos then f x else o) =
  (if (pos <=? p) && (p <? pos + Z.of_nat (length (x :: tl)))
   then f (nth (Z.to_nat (p - pos)) (x :: tl) 0) else o).
Proof.
  intros T f o x tl pos p. cbn [length]. rewrite Nat2Z.inj_succ.
  destruct (range_spec (pos + 1) (pos + 1 + Z.of_nat (length tl)) p);
    destruct (range_spec pos (pos + Z.succ (Z.of_nat (length tl))) p); try lia.
  - replace (Z.to_nat (p - pos)) with (S (Z.to_nat (p - (pos + 1)))) by lia. reflexivity.
  - destruct (Z.eqb_spec p pos) as [->|]; [|lia]. rewrite Z.sub_diag. reflexivity.
  - destruct (Z.eqb_spec p pos); [lia|reflexivity].
Qed.

Lemma bget_write_bytes : forall data b pos p,
  bget (write_bytes b pos data) p =
  if (pos <=? p) && (p <? pos + Z.of_nat (length data))
  then nth (Z.to_nat (p - pos)) data 0 else bget b p.
Proof.
  induction data as [|x tl IH]; intros b pos p; cbn [write_bytes length].
  - destruct (range_spec pos (pos + Z.of_nat 0) p); [lia|reflexivity].
  - rewrite IH, bget_add. apply (write_step Z (fun v => v)).
Qed.

Lemma s_write_get : forall data m pos p,
  s_write m pos data p =
  if (pos <=? p) && (p <? pos + Z.of_nat (length data))
  then Some (nth (Z.to_nat (p - pos)) data 0) else m p.
Proof.
  induction data as [|x tl IH]; intros m pos p; cbn [s_write length].
  - destruct (range_spec pos (pos + Z.of_nat 0) p); [lia|reflexivity].
  - rewrite IH. apply (write_step _ Some).
Qed.

Lemma bget_copy_range : forall n old new d s p,
  bget (copy_range old new d s n) p =
  if (d <=? p) && (p <? d + Z.of_nat n) then bget old (p - d + s) else bget new p.
Proof.
  induction n as [|n IH]; intros old new d s p; cbn [copy_range].
  - destruct (range_spec d (d + Z.of_nat 0) p); [lia|reflexivity].
  - rewrite IH, bget_add, Nat2Z.inj_succ.
    destruct (range_spec (d + 1) (d + 1 + Z.of_nat n) p);
      destruct (range_spec d (d + Z.succ (Z.of_nat n)) p); try lia.
    + f_equal. lia.
    + destruct (Z.eqb_spec p d) as [->|]; [|lia]. f_equal. lia.
    + destruct (Z.eqb_spec p d); [lia|reflexivity].
Qed.

Lemma bget_apply_copy : forall old new c p,
  bget (apply_copy old new c) p =
  let '(d, s, n) := c in
  if (d <=? p) && (p <? d + n) then bget old (p - d + s) else bget new p.
Proof.
  intros old new [[d s] n] p. unfold apply_copy. rewrite bget_copy_range.
  destruct (range_spec d (d + Z.of_nat (Z.to_nat n)) p); destruct (range_spec d (d + n) p);
    reflexivity || lia.
Qed.

Lemma bget_apply_copy_in : forall old new d s n p,
  d <= p < d + n -> bget (apply_copy old new (d, s, n)) p = bget old (p - d + s).
Proof. intros. rewrite bget_apply_copy. destruct (range_spec d (d + n) p); [reflexivity|lia]. Qed.

Definition in_dst (c : Z * Z * Z) (p : Z) : Prop :=
  let '(d, s, n) := c in d <= p < d + n.

Lemma bget_apply_copy_out : forall old new c p,
  ~ in_dst c p -> bget (apply_copy old new c) p = bget new p.
Proof.
  intros old new [[d s] n] p H. rewrite bget_apply_copy.
  destruct (range_spec d (d + n) p); [contradiction|reflexivity].
Qed.

Lemma bget_apply_copies_out : forall cs old new p,
  (forall c, In c cs -> ~ in_dst c p) -> bget (apply_copies old cs new) p = bget new p.
Proof.
  induction cs as [|c cs IH]; intros old new p H; cbn.
  - reflexivity.
  - unfold apply_copies in IH. rewrite IH.
    + apply bget_apply_copy_out. apply H. left. reflexivity.
    + intros c' Hc. apply H. right. exact Hc.
Qed.

Lemma read_bytes_refines : forall n b pos f lpos,
  (forall i, 0 <= i < Z.of_nat n -> byte_ok (bget b (pos + i)) (f (lpos + i))) ->
  Forall2 byte_ok (read_bytes b pos n) (s_readn f lpos n).
Proof.
  induction n as [|n IH]; intros b pos f lpos H; cbn.
  - constructor.
  - constructor.
    + specialize (H 0 ltac:(lia)). rewrite !Z.add_0_r in H. exact H.
    + apply IH. intros i Hi. specialize (H (i + 1) ltac:(lia)).
      replace (pos + 1 + i) with (pos + (i + 1)) by lia.
      replace (lpos + 1 + i) with (lpos + (i + 1)) by lia. exact H.
Qed.
