(* The block loop of a migration (Model.pack_loop / Model.pack): its memcpy list is a chain of blocks,
   each reservation sits in one block and moves with it, a block is the union of its members' extents
   [flo,fhi).  Generic in flo/fhi and in the rounding g of a block's length. *)
From Coq Require Import List ZArith Bool Lia Sorting.Sorted.
From OV.C03 Require Import Model Spec Arith Buf Lists Count.
Import ListNotations.
Local Open Scope Z_scope.

Section PackSpec.
  Variables (flo fhi : res -> Z) (g : Z -> Z).
  Hypothesis Hg : forall x, 0 <= x -> x <= g x.

  (* a chain of blocks (dst, src, len) from destination d to dend (the loop's newReserved); smin bounds
     the next source from below; the + 1 is the strictness of the loop's test `flo m >? hi` *)
  Fixpoint blocks_ok (d smin : Z) (cs : list (Z * Z * Z)) (dend : Z) : Prop :=
    match cs with
    | [] => dend = d
    | (d', s, len) :: tl =>
        d' = d /\ smin <= s /\ 0 <= len /\ blocks_ok (d + g len) (s + len + 1) tl dend
    end.

  Lemma blocks_ok_weaken : forall cs d smin smin' dend,
    smin' <= smin -> blocks_ok d smin cs dend -> blocks_ok d smin' cs dend.
  Proof.
    destruct cs as [|[[d' s] len] tl]; cbn; intros; [assumption|].
    intuition lia.
  Qed.

  Lemma blocks_lower : forall cs d smin dend,
    blocks_ok d smin cs dend ->
    d <= dend /\
    forall d' s len, In (d', s, len) cs -> smin <= s /\ d <= d' /\ 0 <= len /\ d' + g len <= dend.
  Proof.
    induction cs as [|[[d0 s0] len0] tl IH]; cbn; intros d smin dend H.
    - split; [lia|]. intros ? ? ? [].
    - destruct H as (-> & Hs & Hlen & Hrest).
      destruct (IH _ _ _ Hrest) as [Hd Hall].
      pose proof (Hg len0 Hlen) as G.
      split; [lia|].
      intros d' s len [E|Hin].
      + inversion E; subst. repeat split; lia.
      + destruct (Hall _ _ _ Hin) as (A & B & C & D). repeat split; lia.
  Qed.

  (* < among the sources (that + 1), <= among the destinations *)
  Definition block_before (b1 b2 : Z * Z * Z) : Prop :=
    let '(d1, s1, len1) := b1 in let '(d2, s2, _) := b2 in
    s1 + len1 < s2 /\ d1 + len1 <= d2.

  Lemma blocks_order : forall cs d smin dend b1 b2,
    blocks_ok d smin cs dend -> In b1 cs -> In b2 cs -> b1 = b2 \/ block_before b1 b2 \/ block_before b2 b1.
  Proof.
    induction cs as [|[[d0 s0] len0] tl IH]; cbn [blocks_ok In]; intros d smin dend b1 b2 H H1 H2;
      [destruct H1|].
    destruct H as (-> & _ & Hlen & Hrest). pose proof (Hg len0 Hlen).
    pose proof (blocks_lower _ _ _ _ Hrest) as [_ Hlow].
    destruct H1 as [<-|H1]; destruct H2 as [<-|H2].
    - left. reflexivity.
    - right. left. destruct b2 as [[d2 s2] len2]. destruct (Hlow _ _ _ H2) as (A & B & _). cbn. lia.
    - right. right. destruct b1 as [[d1 s1] len1]. destruct (Hlow _ _ _ H1) as (A & B & _). cbn. lia.
    - exact (IH _ _ _ _ _ Hrest H1 H2).
  Qed.

  Lemma blocks_tile : forall cs d smin dend p,
    blocks_ok d smin cs dend -> d <= p < dend ->
    exists d' s len, In (d', s, len) cs /\ d' <= p < d' + g len.
  Proof.
    induction cs as [|[[d0 s0] len0] tl IH]; cbn; intros d smin dend p H Hp.
    - lia.
    - destruct H as (-> & Hs & Hlen & Hrest).
      destruct (Z_lt_le_dec p (d + g len0)) as [Hlt|Hge].
      + exists d, s0, len0. split; [left; reflexivity|lia].
      + destruct (IH _ _ _ p Hrest ltac:(lia)) as (d' & s & len & Hin & Hp').
        exists d', s, len. split; [right; assumption|assumption].
  Qed.

  (* m' is m, moved by d - s with the block (d, s, len) whose source holds m's extent *)
  Definition placed (cs : list (Z * Z * Z)) (m m' : res) : Prop :=
    r_id m' = r_id m /\ r_sz m' = r_sz m /\
    exists d s len, In (d, s, len) cs /\ s <= flo m /\ fhi m <= s + len /\
                    r_off m' = r_off m - s + d.

  Lemma placed_id : forall cs m m', placed cs m m' -> r_id m' = r_id m.
  Proof. intros cs m m' H. apply H. Qed.

  Lemma placed_sz : forall cs m m', placed cs m m' -> r_sz m' = r_sz m.
  Proof. intros cs m m' H. apply H. Qed.

  Lemma placed_in : forall cs m m', placed cs m m' ->
    exists d s len, In (d, s, len) cs /\ s <= flo m /\ fhi m <= s + len /\ r_off m' = r_off m - s + d.
  Proof. intros cs m m' H. apply H. Qed.

  Lemma placed_cons : forall c cs m m', placed cs m m' -> placed (c :: cs) m m'.
  Proof.
    intros c cs m m' (A & B & d & s & len & Hin & R). split; [assumption|]. split; [assumption|].
    exists d, s, len. split; [right; assumption|assumption].
  Qed.

  Lemma placed_ids : forall cs l l', Forall2 (placed cs) l l' -> map r_id l' = map r_id l.
  Proof.
    intros cs l l' F. induction F; cbn; [reflexivity|].
    rewrite (placed_id _ _ _ H), IHF. reflexivity.
  Qed.

  (* the loop as a relation: a run of the current block ends (packs_new) or goes on (packs_merge) *)
  Inductive packs : Z -> Z -> Z -> list res -> list res -> list (Z * Z * Z) -> Z -> Prop :=
  | packs_nil : forall lo hi offset, packs lo hi offset [] [] [(offset, lo, hi - lo)] (g (hi - lo))
  | packs_new : forall lo hi offset m tl l' cs nr,
      hi < flo m ->
      packs (flo m) (fhi m) (offset + g (hi - lo)) tl l' cs nr ->
      packs lo hi offset (m :: tl) (set_off m (r_off m - (flo m - (offset + g (hi - lo)))) :: l')
            ((offset, lo, hi - lo) :: cs) (g (hi - lo) + nr)
  | packs_merge : forall lo hi offset m tl l' cs nr,
      flo m <= hi ->
      packs lo (Z.max hi (fhi m)) offset tl l' cs nr ->
      packs lo hi offset (m :: tl) (set_off m (r_off m - (lo - offset)) :: l') cs nr.

  Lemma pack_loop_packs : forall l lo hi offset l' cs nr,
    pack_loop flo fhi g lo hi offset l = (l', cs, nr) -> packs lo hi offset l l' cs nr.
  Proof.
    induction l as [|m tl IH]; intros lo hi offset l' cs nr E; cbn in E.
    - injection E as <- <- <-. constructor.
    - destruct (Z.gtb_spec (flo m) hi).
      + destruct (pack_loop flo fhi g (flo m) (fhi m) (offset + g (hi - lo)) tl) as [[l1 cs1] nr1] eqn:E1.
        injection E as <- <- <-. apply packs_new; [lia|apply IH; assumption].
      + destruct (pack_loop flo fhi g lo (Z.max hi (fhi m)) offset tl) as [[l1 cs1] nr1] eqn:E1.
        injection E as <- <- <-. apply packs_merge; [lia|apply IH; assumption].
  Qed.

  Lemma packs_spec : forall lo hi offset l l' cs nr,
    packs lo hi offset l l' cs nr ->
    lo <= hi ->
    (forall m, In m l -> lo <= flo m /\ flo m <= fhi m) ->
    sorted_by flo l ->
    exists len0 cs', cs = (offset, lo, len0) :: cs' /\ hi - lo <= len0 /\
      blocks_ok offset lo cs (offset + nr) /\ Forall2 (placed cs) l l'.
  Proof.
    (* the first two conjuncts serve the induction: the head block is the current run and reaches hi,
       so a member that goes on with it lies inside it *)
    induction 1 as [lo hi offset|lo hi offset m tl l' cs nr Hnew _ IH|lo hi offset m tl l' cs nr Hold _ IH];
      intros Hlohi Hall Hs.
    - exists (hi - lo), []. split; [reflexivity|]. split; [lia|].
      split; [|constructor]. cbn. repeat split; lia.
    - destruct (StronglySorted_inv Hs) as [Hs' Hhd]. rewrite Forall_forall in Hhd.
      destruct (Hall m (or_introl eq_refl)) as [Hm1 Hm2].
      destruct (IH Hm2) as (len1 & cs1' & -> & Hlen1 & Hok1 & Hpl1); [|assumption|].
      { intros m' Hin. split; [apply Hhd; assumption|apply Hall; right; assumption]. }
      exists (hi - lo), ((offset + g (hi - lo), flo m, len1) :: cs1').
      split; [reflexivity|]. split; [lia|]. split.
      + cbn [blocks_ok] in Hok1 |- *. destruct Hok1 as (_ & _ & Hl & Hrest).
        rewrite Z.add_assoc. repeat split; try lia; assumption.
      + constructor.
        * unfold placed. cbn [r_off r_sz r_id set_off]. split; [reflexivity|]. split; [reflexivity|].
          exists (offset + g (hi - lo)), (flo m), len1.
          split; [right; left; reflexivity|lia].
        * eapply Forall2_imp; [|exact Hpl1]. intros a b Hab. apply placed_cons. exact Hab.
    - destruct (StronglySorted_inv Hs) as [Hs' _].
      destruct (Hall m (or_introl eq_refl)) as [Hm1 Hm2].
      destruct (IH ltac:(lia)) as (len1 & cs1' & -> & Hlen1 & Hok1 & Hpl1); [|assumption|].
      { intros m' Hin. apply (Hall m'). right. assumption. }
      exists len1, cs1'. split; [reflexivity|]. split; [lia|]. split; [assumption|].
      constructor; [|assumption].
      unfold placed. cbn [r_off r_sz r_id set_off]. split; [reflexivity|]. split; [reflexivity|].
      exists offset, lo, len1. split; [left; reflexivity|lia].
  Qed.

  Lemma packs_cover : forall lo hi offset l l' cs nr,
    packs lo hi offset l l' cs nr ->
    forall d s len q, In (d, s, len) cs -> s <= q < s + len ->
      lo <= q < hi \/ exists m, In m l /\ flo m <= q < fhi m.
  Proof.
    induction 1 as [lo hi offset|lo hi offset m tl l' cs nr Hnew _ IH|lo hi offset m tl l' cs nr Hold _ IH];
      intros d s len q Hin Hq.
    - destruct Hin as [Ei|[]]. inversion Ei; subst. left. lia.
    - destruct Hin as [Ei|Hin]; [inversion Ei; subst; left; lia|]. right.
      destruct (IH _ _ _ q Hin Hq) as [Hm|(m' & Hm' & Hqm)].
      + exists m. split; [left; reflexivity|assumption].
      + exists m'. split; [right; assumption|assumption].
    - destruct (IH _ _ _ q Hin Hq) as [Hm|(m' & Hm' & Hqm)].
      + destruct (Z_lt_le_dec q hi); [left; lia|].
        right. exists m. split; [left; reflexivity|lia].
      + right. exists m'. split; [right; assumption|assumption].
  Qed.

  (* a block starts at lo or at some flo and ends at hi or at some fhi, so both ends have every
     property that those have *)
  Lemma packs_ends : forall (P : Z -> Prop) lo hi offset l l' cs nr,
    packs lo hi offset l l' cs nr ->
    P lo -> P hi -> (forall m, In m l -> P (flo m) /\ P (fhi m)) ->
    forall d s len, In (d, s, len) cs -> P s /\ P (s + len).
  Proof.
    intros P.
    induction 1 as [lo hi offset|lo hi offset m tl l' cs nr Hnew _ IH|lo hi offset m tl l' cs nr Hold _ IH];
      intros Plo Phi Hall d s len Hin.
    - destruct Hin as [Ei|[]]. inversion Ei; subst.
      replace (s + (hi - s)) with hi by lia. split; assumption.
    - destruct (Hall m (or_introl eq_refl)) as [Pflo Pfhi]. destruct Hin as [Ei|Hin].
      + inversion Ei; subst. replace (s + (hi - s)) with hi by lia. split; assumption.
      + apply (IH Pflo Pfhi) with (d := d); [|assumption]. intros; apply Hall; right; assumption.
    - destruct (Hall m (or_introl eq_refl)) as [_ Pfhi].
      apply (IH Plo) with (d := d); [|intros; apply Hall; right; assumption|assumption].
      destruct (Z.max_spec hi (fhi m)) as [[_ ->]|[_ ->]]; assumption.
  Qed.

  Lemma pack_as_loop : forall m tl, flo m <= fhi m ->
    pack flo fhi g (m :: tl) = pack_loop flo fhi g (flo m) (flo m) 0 (m :: tl).
  Proof.
    intros m tl H. cbn. destruct (Z.gtb_spec (flo m) (flo m)); [lia|].
    rewrite Z.max_r by lia. reflexivity.
  Qed.

  Lemma pack_spec : forall l l' cs nr,
    pack flo fhi g l = (l', cs, nr) ->
    l <> [] ->
    (forall m, In m l -> flo m <= fhi m) ->
    sorted_by flo l ->
    (exists s0, blocks_ok 0 s0 cs nr) /\ Forall2 (placed cs) l l' /\
    (forall d s len q, In (d, s, len) cs -> s <= q < s + len -> exists m, In m l /\ flo m <= q < fhi m) /\
    (forall P : Z -> Prop, (forall m, In m l -> P (flo m) /\ P (fhi m)) ->
       forall d s len, In (d, s, len) cs -> P s /\ P (s + len)).
  Proof.
    intros [|m tl] l' cs nr E Hne Hall Hs; [congruence|].
    rewrite pack_as_loop in E by (apply Hall; left; reflexivity). apply pack_loop_packs in E.
    assert (Hall' : forall m', In m' (m :: tl) -> flo m <= flo m' /\ flo m' <= fhi m').
    { destruct (StronglySorted_inv Hs) as [_ Hhd]. rewrite Forall_forall in Hhd.
      intros m' Hm'. split; [|apply Hall; assumption]. destruct Hm' as [<-|Hm']; [lia|apply Hhd; assumption]. }
    destruct (packs_spec _ _ _ _ _ _ _ E (Z.le_refl _) Hall' Hs) as (len0 & cs' & _ & _ & Hok & Hpl).
    split; [exists (flo m); exact Hok|]. split; [exact Hpl|]. split.
    - intros d s len q Hin Hq. destruct (packs_cover _ _ _ _ _ _ _ E _ _ _ q Hin Hq); [lia|assumption].
    - intros P HP. destruct (HP m (or_introl eq_refl)) as [Pm _]. exact (packs_ends P _ _ _ _ _ _ _ E Pm Pm HP).
  Qed.

  Lemma bget_blocks : forall cs d0 smin dend old new d s len p,
    blocks_ok d0 smin cs dend -> In (d, s, len) cs -> d <= p < d + len ->
    bget (apply_copies old cs new) p = bget old (p - d + s).
  Proof.
    induction cs as [|[[d1 s1] len1] tl IH]; cbn [blocks_ok In]; intros d0 smin dend old new d s len p H Hin Hp;
      [destruct Hin|].
    destruct H as (-> & _ & Hlen & Hrest). unfold apply_copies. cbn [fold_left].
    change (fold_left (apply_copy old) tl ?b) with (apply_copies old tl b).
    destruct Hin as [E|Hin].
    - (* the later copies start beyond this block *)
      inversion E; subst.
      rewrite bget_apply_copies_out; [apply bget_apply_copy_in; assumption|].
      intros [[d2 s2] len2] Hc. pose proof (blocks_lower _ _ _ _ Hrest) as [_ Hlow].
      destruct (Hlow _ _ _ Hc) as (_ & D & _). pose proof (Hg len Hlen). cbn. lia.
    - exact (IH _ _ _ _ _ _ _ _ _ Hrest Hin Hp).
  Qed.

  (* setAlignment's sizing loop computes the same newReserved *)
  Lemma size_loop_eq : forall l lo hi offset,
    size_loop flo fhi g lo hi l = snd (pack_loop flo fhi g lo hi offset l).
  Proof.
    induction l as [|m tl IH]; intros lo hi offset; cbn.
    - reflexivity.
    - destruct (flo m >? hi).
      + rewrite (IH _ _ (offset + g (hi - lo))).
        destruct (pack_loop flo fhi g (flo m) (fhi m) (offset + g (hi - lo)) tl) as [[l1 cs1] nr1].
        reflexivity.
      + rewrite (IH _ _ offset).
        destruct (pack_loop flo fhi g lo (Z.max hi (fhi m)) offset tl) as [[l1 cs1] nr1].
        reflexivity.
  Qed.

  Lemma size_loop_pack : forall m tl,
    size_loop flo fhi g (flo m) (fhi m) tl = snd (pack flo fhi g (m :: tl)).
  Proof.
    intros m tl. cbn [pack]. rewrite (size_loop_eq tl (flo m) (fhi m) 0).
    destruct (pack_loop flo fhi g (flo m) (fhi m) 0 tl) as [[l1 cs1] nr1]. reflexivity.
  Qed.
End PackSpec.
Arguments placed_id {flo fhi cs m m'} _. Arguments placed_sz {flo fhi cs m m'} _. Arguments placed_in {flo fhi cs m m'} _.

Lemma blocks_dst_aligned : forall a g cs d smin dend,
  (forall x, aligned a (g x)) -> aligned a d ->
  blocks_ok g d smin cs dend ->
  aligned a dend /\ forall d' s len, In (d', s, len) cs -> aligned a d'.
Proof.
  intros a g. induction cs as [|[[d0 s0] len0] tl IH]; cbn; intros d smin dend Hga Hd H.
  - subst. split; [assumption|]. intros ? ? ? [].
  - destruct H as (-> & _ & _ & Hrest).
    destruct (IH _ _ _ Hga (aligned_add _ _ _ Hd (Hga len0)) Hrest) as [A B].
    split; [assumption|]. intros d' s len [E|Hin]; [inversion E; subst; assumption|eapply B; eassumption].
Qed.

Section Migrate.
  Variables (flo fhi : res -> Z) (g : Z -> Z).
  Hypothesis Hg : forall x, 0 <= x -> x <= g x.

  Variables (cs : list (Z * Z * Z)) (s0 nr : Z).
  Hypothesis Hok : blocks_ok g 0 s0 cs nr.

  Definition extent_contains (m : res) : Prop := flo m <= r_off m /\ r_off m + r_sz m <= fhi m.

  Lemma placed_block : forall m m' d s len q,
    placed flo fhi cs m m' -> In (d, s, len) cs -> s <= q < s + len -> flo m <= q < fhi m ->
    s <= flo m /\ fhi m <= s + len /\ r_off m' = r_off m - s + d.
  Proof.
    intros m m' d s len q Hp Hin Hq Hqm. destruct (placed_in Hp) as (d1 & s1 & len1 & Hin1 & A & B & C).
    destruct (blocks_order g Hg _ _ _ _ _ _ Hok Hin1 Hin) as [E|[O|O]]; [|cbn in O; lia..].
    inversion E; subst. repeat split; assumption.
  Qed.

  Lemma mig_coincide : forall m1 m1' m2 m2' i1 i2,
    placed flo fhi cs m1 m1' -> placed flo fhi cs m2 m2' ->
    extent_contains m1 -> extent_contains m2 ->
    0 <= i1 < r_sz m1 -> 0 <= i2 < r_sz m2 ->
    (r_off m1' + i1 = r_off m2' + i2 <-> r_off m1 + i1 = r_off m2 + i2).
  Proof.
    intros m1 m1' m2 m2' i1 i2 Hp1 Hp2 [K1 K1'] [K2 K2'] Hi1 Hi2.
    destruct (placed_in Hp1) as (d1 & s1 & len1 & Hin1 & A1 & B1 & C1).
    destruct (placed_in Hp2) as (d2 & s2 & len2 & Hin2 & A2 & B2 & C2).
    rewrite C1, C2.
    destruct (blocks_order g Hg _ _ _ _ _ _ Hok Hin1 Hin2) as [E|[O|O]]; [inversion E|cbn in O..];
      split; intros; lia.
  Qed.

  Lemma mig_contents : forall old new m m' i,
    placed flo fhi cs m m' -> extent_contains m -> 0 <= i < r_sz m ->
    bget (apply_copies old cs new) (r_off m' + i) = bget old (r_off m + i).
  Proof.
    intros old new m m' i Hp [K K'] Hi. destruct (placed_in Hp) as (d & s & len & Hin & A & B & C).
    rewrite (bget_blocks g Hg _ _ _ _ old new d s len _ Hok Hin) by lia. f_equal. lia.
  Qed.

  Lemma mig_copy_ok : forall oldsz newsz,
    nr <= newsz ->
    (forall d s len, In (d, s, len) cs -> 0 <= s /\ s + len <= oldsz) ->
    forallb (copy_ok oldsz newsz) cs = true.
  Proof.
    intros oldsz newsz Hnr Hsrc. apply forallb_forall. intros [[d s] len] Hin.
    pose proof (blocks_lower g Hg _ _ _ _ Hok) as [_ Hlow].
    destruct (Hlow _ _ _ Hin) as (_ & D0 & L & E). pose proof (Hg len L).
    destruct (Hsrc _ _ _ Hin) as [S0 S1].
    unfold copy_ok. rewrite !andb_true_iff. repeat split; apply Z.leb_le; lia.
  Qed.
End Migrate.

Lemma count_chain : forall g, (forall x, 0 <= x -> x <= g x) ->
  forall cs d smin dend (P : Z -> bool) lo0 B,
  blocks_ok g d smin cs dend ->
  (forall d' s len, In (d', s, len) cs -> g len = len /\ lo0 <= s /\ s + len <= B) ->
  (forall p, lo0 <= p < B -> (P p = true <-> exists d' s len, In (d', s, len) cs /\ s <= p < s + len)) ->
  count P lo0 B = dend - d.
Proof.
  intros g Hg. induction cs as [|[[d0 s0] len0] tl IH]; cbn [blocks_ok]; intros d smin dend P lo0 B H Hall HP.
  - subst. rewrite count_none; [lia|]. intros p Hp. destruct (P p) eqn:E; [|reflexivity].
    apply HP in E; [|assumption]. destruct E as (? & ? & ? & [] & _).
  - destruct H as (-> & _ & Hlen & Hrest).
    destruct (Hall d s0 len0 (or_introl eq_refl)) as (Gl & Hlo & Hb).
    pose proof (blocks_lower g Hg _ _ _ _ Hrest) as [_ Hlow].
    rewrite (count_split P lo0 s0 B) by lia.
    rewrite (count_split P s0 (s0 + len0) B) by lia.
    rewrite (count_none P lo0 s0).
    2:{ intros p Hp. destruct (P p) eqn:E; [|reflexivity]. apply HP in E; [|lia].
        destruct E as (d' & s & len & [Ei|Hin] & Hps); [inversion Ei; subst; lia|].
        destruct (Hlow _ _ _ Hin). lia. }
    rewrite (count_all P s0 (s0 + len0)); [|lia|].
    2:{ intros p Hp. apply HP; [lia|]. exists d, s0, len0. split; [left; reflexivity|lia]. }
    rewrite (IH (d + g len0) (s0 + len0 + 1) dend P (s0 + len0) B Hrest); [lia| |].
    + intros d' s len Hin. destruct (Hall d' s len (or_intror Hin)) as (A & _ & C).
      destruct (Hlow _ _ _ Hin). repeat split; [assumption|lia|assumption].
    + intros p Hp. rewrite (HP p ltac:(lia)). split.
      * intros (d' & s & len & [Ei|Hin] & Hps); [inversion Ei; subst; lia|].
        exists d', s, len. split; assumption.
      * intros (d' & s & len & Hin & Hps). exists d', s, len. split; [right; assumption|assumption].
Qed.
