(* Every operation preserves the invariant; whole histories; from the invariant to the
   statements of C03. *)
From Coq Require Import List ZArith Bool Lia Sorting.Sorted.
From OV.C03 Require Import Model Spec Statements Arith Buf Lists Inv.
Import ListNotations.
Local Open Scope Z_scope.

Lemma inv0 : Inv pool0 sstate0.
Proof.
  (* both lists are empty: every field that quantifies over them holds of nothing *)
  refine (mkInv pool0 sstate0 eq_refl (Z.le_refl 0) (SSorted_nil _) (NoDup_nil _) (NoDup_nil _)
            _ _ _ eq_refl _ _ eq_refl eq_refl _ (fun _ _ _ => eq_refl) _); cbn; intros; contradiction.
Qed.

Lemma step_inv : forall s sp o,
  Inv (snd s) sp -> op_ok o -> Inv (snd (fst (step fixed s o))) (s_step sp (sop_of o)).
Proof.
  intros [d p] sp o I Hok. cbn [snd] in I.
  (* s_step makes the same tests as step (free_id_agrees, found_handle), so every refusal is `assumption` *)
  destruct o as [id n|id parent off cnt|id|id off data|b| |na]; cbn [step sop_of s_step op_ok] in *.
  - destruct (find_res id (p_res p)) as [r|] eqn:Ef.
    + destruct (found_handle I Ef) as (e & -> & _). assumption.
    + rewrite (proj1 (free_id_agrees p sp id I) Ef).
      destruct (Z.eqb_spec n 0) as [->|Nz]; [assumption|].
      destruct (Z.ltb_spec n 0); destruct (Z.leb_spec n 0); try lia; [assumption|].
      destruct (reserve_inv p sp d id n I Ef ltac:(lia)) as (d1 & p1 & -> & I1). exact I1.
  - destruct (find_res id (p_res p)) as [r|] eqn:Ef.
    + destruct (found_handle I Ef) as (e & -> & _). assumption.
    + rewrite (proj1 (free_id_agrees p sp id I) Ef).
      destruct (find_res parent (p_res p)) as [m|] eqn:Ep.
      * destruct (found_handle I Ep) as (em & Esp & Lm & Esz & Hm). rewrite Esp, Esz.
        destruct (i_bounds I m Hm) as (Hm0 & Hmsz & _).
        set (bytes := if cnt =? -1 then r_sz m - off else cnt).
        destruct (Z.ltb_spec off 0) as [Bn|Bn].
        { rewrite !orb_true_r. assumption. }
        destruct (Z.ltb_spec bytes 0) as [B0|B0]; cbn [orb]; [assumption|].
        destruct (Z.leb_spec (off + cnt) (r_sz m)) as [B1|B1]; cbn [negb orb]; [|assumption].
        destruct (Z.ltb_spec (r_off m + off) 0); [lia|]. cbn [fst snd].
        apply inv_slice; try assumption.
        unfold bytes in *. destruct (Z.eqb_spec cnt (-1)); lia.
      * rewrite (proj1 (free_id_agrees p sp parent I) Ep). assumption.
  - destruct (find_res id (p_res p)) as [m|] eqn:Ef.
    + destruct (find_res_some _ _ _ Ef) as [Hm <-]. apply inv_free; assumption.
    + rewrite (s_remove_absent _ _ (proj1 (free_id_agrees p sp id I) Ef)). destruct sp. assumption.
  - destruct (find_res id (p_res p)) as [m|] eqn:Ef.
    + destruct (found_handle I Ef) as (em & Esp & Lm & Esz & Hm). rewrite Esp, Esz.
      destruct (Z.ltb_spec off 0) as [B0|B0]; cbn [orb]; [assumption|].
      destruct (Z.leb_spec (Z.of_nat (length data) + off) (r_sz m)) as [B1|B1]; cbn [negb]; [|assumption].
      apply inv_write; assumption.
    + rewrite (proj1 (free_id_agrees p sp id I) Ef). assumption.
  - destruct (resize fixed false d p b) as [[d1 p1]|] eqn:Er; [|assumption].
    apply (resize_inv p sp false d b d1 p1 I Er).
  - destruct (resize fixed false d p (p_reserved p)) as [[d1 p1]|] eqn:Er; [|assumption].
    apply (resize_inv p sp false d _ d1 p1 I Er).
  - destruct (set_alignment fixed d p na) as [[d1 p1]|] eqn:Ea; [|assumption].
    apply (set_alignment_inv p sp d na d1 p1 I Hok Ea).
Qed.

Lemma run_inv_from : forall ops s sp,
  Inv (snd s) sp -> ops_ok ops -> Inv (snd (run fixed s ops)) (s_run sp (map sop_of ops)).
Proof.
  induction ops as [|o ops IH]; intros s sp I Hok; cbn; [assumption|].
  inversion Hok; subst. apply IH; [|assumption]. apply step_inv; assumption.
Qed.

Theorem run_inv : forall ops, ops_ok ops ->
  Inv (snd (run fixed state0 ops)) (s_run sstate0 (map sop_of ops)).
Proof. intros. apply run_inv_from; [apply inv0|assumption]. Qed.

Lemma inv_gives_inv_pool : forall p sp, Inv p sp -> Inv_pool p sp.
Proof.
  intros p sp I. pose proof (i_align I) as Ha.
  refine (conj _ (conj _ (conj _ (conj (i_oob I) (conj (i_tie I) (i_sorted I)))))).
  - intros r Hr. destruct (i_bounds I r Hr) as (A & B & C).
    pose proof (r_end_le_hi (p_align p) r Ha). lia.
  - (* two handles over one byte q are of one family: i_coincide at q's offsets in them *)
    intros r1 r2 e1 e2 q H1 H2 L1 L2 [A1 B1] [A2 B2].
    pose proof (i_coincide I r1 r2 e1 e2 (q - r_off r1) (q - r_off r2) H1 H2 L1 L2 ltac:(lia) ltac:(lia)) as [J _].
    apply J. lia.
  - (* byte i of a slice is byte s_loff e + i of its root *)
    intros r r0 e e0 q Hr Hr0 L L0 Hroot Hfam [A B]. unfold in_range.
    destruct (same_handle_in _ _ _ L) as [He _]. destruct (same_handle_in _ _ _ L0) as [He0 _].
    destruct (i_root I e e0 He He0 Hroot Hfam) as [R0 R1].
    pose proof (same_handle_sz _ _ _ _ I Hr0 L0) as Esz0. pose proof (same_handle_sz _ _ _ _ I Hr L) as Esz.
    destruct (i_fam I e He) as (_ & F0 & _).
    set (i := q - r_off r).
    pose proof (i_coincide I r r0 e e0 i (s_loff e + i) Hr Hr0 L L0 ltac:(unfold i; lia) ltac:(unfold i; lia)) as [_ J].
    specialize (J ltac:(split; [congruence|lia])). unfold i in J. lia.
Qed.

Lemma inv_gives_reads : forall s sp id, Inv (snd s) sp -> reads_ok (read s id) (s_read sp id).
Proof.
  intros [d p] sp id I. unfold read, s_read, reads_ok. cbn [snd] in *.
  destruct (find_res id (p_res p)) as [m|] eqn:Ef.
  - destruct (found_handle I Ef) as (e & Esp & Lm & Esz & Hm). rewrite Esp, Esz.
    apply read_bytes_refines. intros i Hi.
    destruct (i_bounds I m Hm) as (_ & Hs & _).
    apply (i_mem I m e i Hm Lm). lia.
  - rewrite (proj1 (free_id_agrees p sp id I) Ef). exact Logic.I.
Qed.

(* growing, compacting and re-aligning are no steps of the reference semantics: what a history proves
   about contents holds across them *)
Lemma moving_ops_invisible : forall sp b a,
  s_step sp (sop_of (OResize b)) = sp /\ s_step sp (sop_of OShrink) = sp /\ s_step sp (sop_of (OAlign a)) = sp.
Proof. intros. repeat split. Qed.
