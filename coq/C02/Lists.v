(* C02 — byte lists (the model's buffers) against byte maps (the specification's store); handle-slot updates. *)
From Coq Require Import List ZArith Bool Lia.
From OV.C02 Require Import Base Model Spec Statements.
Import ListNotations.
Local Open Scope Z_scope.

Lemma zlen_nonneg {A} (l : list A) : 0 <= zlen l.
Proof. unfold zlen; lia. Qed.

Lemma zlen_app {A} (l1 l2 : list A) : zlen (l1 ++ l2) = zlen l1 + zlen l2.
Proof. unfold zlen; rewrite app_length; lia. Qed.

Lemma nth_firstn_lt {A} (d : A) : forall n i l, (i < n)%nat -> nth i (firstn n l) d = nth i l d.
Proof.
  induction n; intros i l H; [lia |].
  destruct l; [destruct i; reflexivity |].
  destruct i; cbn; [reflexivity | apply IHn; lia].
Qed.

Lemma nth_skipn_add {A} (d : A) : forall n i l, nth i (skipn n l) d = nth (n + i) l d.
Proof.
  induction n; intros i l; [reflexivity |].
  destruct l; cbn; [destruct i; reflexivity | apply IHn].
Qed.

Lemma zseq_length lo n : length (zseq lo n) = Z.to_nat n.
Proof. unfold zseq; rewrite map_length, seq_length; reflexivity. Qed.

Lemma nth_zseq lo n k : (k < Z.to_nat n)%nat -> nth k (zseq lo n) 0 = lo + Z.of_nat k.
Proof.
  intros H. pose (g := fun j : nat => lo + Z.of_nat j).
  change (zseq lo n) with (map g (seq 0 (Z.to_nat n))).
  rewrite nth_indep with (d' := g 0%nat) by (rewrite map_length, seq_length; lia).
  rewrite map_nth, seq_nth by lia. reflexivity.
Qed.

Lemma in_zseq lo n i : In i (zseq lo n) -> lo <= i < lo + n.
Proof.
  unfold zseq; rewrite in_map_iff; intros (k & <- & Hk). apply in_seq in Hk. lia.
Qed.

Lemma rd_length l start len : 0 <= start -> 0 <= len -> start + len <= zlen l ->
  length (rd l start len) = Z.to_nat len.
Proof.
  intros. unfold rd, zlen in *. rewrite firstn_length, skipn_length. lia.
Qed.

Lemma nth_rd l start len k : 0 <= start -> (k < Z.to_nat len)%nat ->
  nth k (rd l start len) 0 = nth (Z.to_nat (start + Z.of_nat k)) l 0.
Proof.
  intros Hs Hk. unfold rd. rewrite nth_firstn_lt by lia. rewrite nth_skipn_add.
  f_equal. lia.
Qed.

Lemma nth_rd_map l f start len k : Rbuf l f -> 0 <= start -> start + len <= zlen l -> 0 <= k < len ->
  nth (Z.to_nat k) (rd l start len) 0 = f (start + k).
Proof. intros HR Hs Hr Hk. rewrite nth_rd, Z2Nat.id by lia. apply HR. lia. Qed.

Lemma rd_map l f start len : Rbuf l f -> 0 <= start -> 0 <= len -> start + len <= zlen l ->
  rd l start len = map f (zseq start len).
Proof.
  intros HR Hs Hl Hr. apply nth_ext with (d := 0) (d' := f 0).
  - rewrite rd_length, map_length, zseq_length by lia. reflexivity.
  - intros k Hk. rewrite rd_length in Hk by lia.
    rewrite nth_rd, map_nth, nth_zseq by lia. apply HR. lia.
Qed.

Lemma wr_length l start new : 0 <= start -> start + zlen new <= zlen l ->
  length (wr l start new) = length l.
Proof.
  intros Hs Hr. unfold wr, zlen in *. rewrite !app_length, firstn_length, skipn_length. lia.
Qed.

Lemma nth_wr l start new i : 0 <= start -> start + zlen new <= zlen l -> 0 <= i ->
  nth (Z.to_nat i) (wr l start new) 0 =
  if (start <=? i) && (i <? start + zlen new) then nth (Z.to_nat (i - start)) new 0 else nth (Z.to_nat i) l 0.
Proof.
  intros Hs Hr Hi. unfold wr, zlen in *.
  destruct (Z.leb_spec start i) as [H1 | H1]; cbn [andb].
  - rewrite app_nth2 by (rewrite firstn_length; lia).
    rewrite firstn_length. replace (Nat.min (Z.to_nat start) (length l)) with (Z.to_nat start) by lia.
    destruct (Z.ltb_spec i (start + Z.of_nat (length new))) as [H2 | H2].
    + rewrite app_nth1 by lia. f_equal. lia.
    + rewrite app_nth2 by lia. rewrite nth_skipn_add. f_equal. lia.
  - rewrite app_nth1 by (rewrite firstn_length; lia). apply nth_firstn_lt. lia.
Qed.

Lemma Rbuf_wr l f start new g : Rbuf l f -> 0 <= start -> start + zlen new <= zlen l ->
  (forall k, 0 <= k < zlen new -> nth (Z.to_nat k) new 0 = g (start + k)) ->
  Rbuf (wr l start new) (fun i => if (start <=? i) && (i <? start + zlen new) then g i else f i).
Proof.
  intros HR Hs Hr Hg i Hi.
  assert (zlen (wr l start new) = zlen l) by (unfold zlen; rewrite wr_length; auto).
  rewrite nth_wr by lia.
  destruct ((start <=? i) && (i <? start + zlen new)) eqn:E.
  - apply andb_true_iff in E as [E1 E2]. apply Z.leb_le in E1. apply Z.ltb_lt in E2.
    rewrite Hg by lia. f_equal. lia.
  - apply HR. lia.
Qed.

Lemma Rbuf_ext l f g : Rbuf l f -> (forall i, 0 <= i < zlen l -> f i = g i) -> Rbuf l g.
Proof. intros H E i Hi. rewrite <- E by assumption. apply H; assumption. Qed.

Lemma patl_length seed n : length (patl seed n) = Z.to_nat n.
Proof. unfold patl. rewrite map_length, zseq_length. reflexivity. Qed.

Lemma zlen_patl seed n : 0 <= n -> zlen (patl seed n) = n.
Proof. intros. unfold zlen. rewrite patl_length. lia. Qed.

Lemma nth_patl seed n k : 0 <= k < n -> nth (Z.to_nat k) (patl seed n) 0 = pat seed k.
Proof.
  intros Hk. unfold patl.
  rewrite nth_indep with (d' := pat seed 0) by (rewrite map_length, zseq_length; lia).
  rewrite map_nth, nth_zseq by lia. f_equal. lia.
Qed.

Lemma zlen_repeat {A} (x : A) n : 0 <= n -> zlen (repeat x (Z.to_nat n)) = n.
Proof. intros. unfold zlen. rewrite repeat_length. lia. Qed.

Lemma nth_repeat_lt {A} (x d : A) n k : (k < n)%nat -> nth k (repeat x n) d = x.
Proof. revert k; induction n; intros k H; [lia |]. destruct k; cbn; [reflexivity | apply IHn; lia]. Qed.

Lemma setnth_length {A} (l : list A) i v : length (setnth l i v) = length l.
Proof. revert i; induction l; intros [| i]; cbn; auto. Qed.

Lemma nth_setnth {A} (d : A) (l : list A) i v j :
  nth j (setnth l i v) d = if (j =? i)%nat && (i <? length l)%nat then v else nth j l d.
Proof.
  revert i j; induction l as [| x l IH]; intros i j.
  - cbn. rewrite andb_false_r. reflexivity.
  - destruct i, j; cbn [setnth nth length]; try reflexivity.
    rewrite IH. cbn [Nat.eqb].
    replace (S i <? S (length l))%nat with (i <? length l)%nat; [reflexivity |].
    apply eq_true_iff_eq. rewrite !Nat.ltb_lt. lia.
Qed.

Lemma map_setnth {A B} (f : A -> B) (l : list A) i v : map f (setnth l i v) = setnth (map f l) i (f v).
Proof. revert i; induction l; intros [| i]; cbn; auto. f_equal. apply IHl. Qed.

Lemma setnth_same {A} (d : A) (l : list A) i : setnth l i (nth i l d) = l.
Proof. revert i; induction l; intros [| i]; cbn; auto. f_equal. apply IHl. Qed.

Lemma seth_setnth {A} (l : list (option A)) i v : seth l i v = setnth l i v.
Proof. revert i; induction l; intros [| i]; cbn; auto. f_equal. apply IHl. Qed.

Lemma seth_length {A} (l : list (option A)) i v : length (seth l i v) = length l.
Proof. rewrite seth_setnth. apply setnth_length. Qed.

Lemma geth_seth {A} (l : list (option A)) i v j :
  geth (seth l i v) j = if (j =? i)%nat && (i <? length l)%nat then v else geth l j.
Proof. unfold geth. rewrite seth_setnth. apply nth_setnth. Qed.

Lemma map_seth {A B} (f : option A -> option B) (l : list (option A)) i v :
  map f (seth l i v) = seth (map f l) i (f v).
Proof. rewrite !seth_setnth. apply map_setnth. Qed.

Lemma in_buf_true l start len : 0 <= start -> 0 <= len -> start + len <= zlen l -> in_buf l start len = true.
Proof. unfold in_buf. lia. Qed.

Lemma wr_nil l start : 0 <= start -> wr l start [] = l.
Proof. intros. unfold wr. cbn [app length]. rewrite Nat.add_0_r. apply firstn_skipn. Qed.

Lemma zlen_rd l start len : 0 <= start -> 0 <= len -> start + len <= zlen l -> zlen (rd l start len) = len.
Proof. intros. unfold zlen. rewrite rd_length by assumption. lia. Qed.

Lemma wr_all l data : length data = length l -> wr l 0 data = data.
Proof. intros E. unfold wr. cbn [Z.to_nat firstn app Nat.add]. rewrite E, skipn_all. apply app_nil_r. Qed.

Lemma nth_map_zlen {A} (l : list (list A)) b : nth b (map zlen l) 0 = zlen (nth b l []).
Proof. apply (map_nth zlen l [] b). Qed.
