(* C02 — one step of the model (cfg fixed) refines the specification, keeps the invariant and accepts only
   requests that are in range; histories; rejected requests change nothing. *)
From Coq Require Import List ZArith Bool Lia ZifyBool.
From OV.C02 Require Import Base Model Spec Statements Arith Lists.
Import ListNotations.
Local Open Scope Z_scope.

Lemma wfm_of_wf s m : wf s -> wf_mem s m -> wfm m.
Proof.
  intros (_ & Hb & _) (H1 & H2 & H3 & H4 & H5). pose proof (Hb (mbuf m)). unfold wfm. repeat split; try lia; apply H5.
Qed.

Lemma wf_get ms i m : wf ms -> geth (hs ms) i = Some m -> wf_mem ms m /\ wfm m.
Proof. intros Hwf E. assert (wf_mem ms m) by (destruct Hwf as (Hh & _); apply (Hh i); assumption).
  split; auto. apply (wfm_of_wf ms); auto. Qed.

Lemma geth_map (l : list (option mem)) i :
  geth (map (option_map m2v) l) i = option_map m2v (geth l i).
Proof. unfold geth. change (@None view) with (option_map m2v None) at 1. apply map_nth. Qed.

Lemma getbuf_setbuf s b l b' :
  getbuf (setbuf s b l) b' = if (b' =? b)%nat && (b <? length (bufs s))%nat then l else getbuf s b'.
Proof. unfold getbuf, setbuf; cbn [bufs]. apply nth_setnth. Qed.

Lemma zlen_getbuf_setbuf s b l : zlen l = zlen (getbuf s b) ->
  forall b', zlen (getbuf (setbuf s b l) b') = zlen (getbuf s b').
Proof.
  intros E b'. rewrite getbuf_setbuf.
  destruct (Nat.eqb_spec b' b) as [-> |]; cbn [andb]; [| reflexivity].
  destruct (b <? length (bufs s))%nat; auto.
Qed.

Lemma wf_mem_mono s s' m :
  (length (bufs s) <= length (bufs s'))%nat ->
  (forall b, (b < length (bufs s))%nat -> zlen (getbuf s' b) = zlen (getbuf s b)) ->
  wf_mem s m -> wf_mem s' m.
Proof.
  intros Hl Hz (H1 & H2 & H3 & H4 & H5). unfold wf_mem. rewrite Hz by assumption. repeat split; try lia; apply H5.
Qed.

Lemma wf_sethandle s d h : wf s -> (forall m, h = Some m -> wf_mem s m) -> wf (sethandle s d h).
Proof.
  intros (Hh & Hb & Hw) Hm. split; [| split]; cbn [sethandle bufs hs wraps]; auto.
  intros i m. rewrite geth_seth.
  destruct ((i =? d)%nat && (d <? length (hs s))%nat); intros E.
  - exact (Hm m E).
  - exact (Hh i m E).
Qed.

Lemma wf_mem_setbuf s b l m : zlen l = zlen (getbuf s b) -> wf_mem s m -> wf_mem (setbuf s b l) m.
Proof.
  intros E. apply wf_mem_mono; [cbn [setbuf bufs]; rewrite setnth_length; lia |].
  intros; apply zlen_getbuf_setbuf, E.
Qed.

Lemma wf_setbuf s b l : wf s -> zlen l = zlen (getbuf s b) -> wf (setbuf s b l).
Proof.
  intros (Hh & Hb & Hw) E. split; [| split].
  - intros i m Hi. apply wf_mem_setbuf; [assumption | apply (Hh i m Hi)].
  - intros b'. rewrite zlen_getbuf_setbuf by assumption. apply Hb.
  - intros b' Hi. cbn [setbuf bufs wraps] in *. rewrite setnth_length. apply Hw; assumption.
Qed.

Lemma Rel_sethandle ms ss d h : Rel ms ss -> Rel (sethandle ms d h) (with_handle ss d (option_map m2v h)).
Proof.
  intros [R1 R2 R3 R4]. constructor; cbn [sethandle with_handle bufs hs wraps slens smap shs swraps]; auto.
  rewrite map_seth, R3. reflexivity.
Qed.

Lemma slens_setbuf ms b l : zlen l = zlen (getbuf ms b) ->
  map zlen (bufs (setbuf ms b l)) = map zlen (bufs ms).
Proof.
  intros E. cbn [setbuf bufs]. rewrite map_setnth, E. unfold getbuf.
  rewrite <- (map_nth zlen (bufs ms) [] b). apply setnth_same.
Qed.

Lemma do_read_ok s m bytes off : wf_mem s m -> within m bytes off ->
  do_read s m bytes off = Ret (rd (getbuf s (mbuf m)) (moff m + off) bytes).
Proof.
  intros (H1 & H2 & H3 & H4 & H5) (W1 & W2 & W3). unfold do_read.
  destruct (Z.eqb_spec bytes 0) as [-> |]; [reflexivity |]. rewrite in_buf_true by lia. reflexivity.
Qed.

Lemma setbuf_same s b : setbuf s b (getbuf s b) = s.
Proof. destruct s as [bs h w]. unfold setbuf, getbuf; cbn. f_equal. apply setnth_same. Qed.

Lemma do_write_ok s m off data : wf_mem s m -> within m (zlen data) off ->
  do_write s m off data = Ret (setbuf s (mbuf m) (wr (getbuf s (mbuf m)) (moff m + off) data)).
Proof.
  intros (H1 & H2 & H3 & H4 & H5) (W1 & W2 & W3). unfold do_write.
  destruct (Z.eqb_spec (zlen data) 0) as [E |]; [| rewrite in_buf_true by lia; reflexivity].
  destruct data; [| unfold zlen in E; cbn in E; lia]. rewrite wr_nil by lia. rewrite setbuf_same. reflexivity.
Qed.

Lemma do_copy_ok s dst src bytes doff soff :
  wf_mem s dst -> wf_mem s src -> within dst bytes doff -> within src bytes soff ->
  do_copy fixed s dst src bytes doff soff =
  Ret (setbuf s (mbuf dst) (wr (getbuf s (mbuf dst)) (moff dst + doff)
                               (rd (getbuf s (mbuf src)) (moff src + soff) bytes))).
Proof.
  intros Hd Hs Wd Ws. unfold do_copy. cbn [fixed fx_move negb andb].
  pose proof Hs as (S1 & S2 & S3 & S4 & S5). pose proof Ws as (V1 & V2 & V3).
  pose proof Hd as (D1 & D2 & D3 & D4 & D5). pose proof Wd as (U1 & U2 & U3).
  destruct (Z.eqb_spec bytes 0) as [-> |].
  - unfold rd. cbn [Z.to_nat firstn]. rewrite wr_nil by lia. rewrite setbuf_same. reflexivity.
  - rewrite do_read_ok by assumption. cbn [bind].
    rewrite do_write_ok; auto. rewrite zlen_rd by lia. assumption.
Qed.

Definition alloc_state (s : state) (content : list Z) (wrapped : bool) : state :=
  mkState (bufs s ++ [content]) (hs s) (if wrapped then wraps s ++ [length (bufs s)] else wraps s).

Lemma getbuf_alloc_old s c w b : (b < length (bufs s))%nat -> getbuf (alloc_state s c w) b = getbuf s b.
Proof. intros. unfold getbuf, alloc_state; cbn [bufs]. apply app_nth1; assumption. Qed.

Lemma getbuf_alloc_new s c w : getbuf (alloc_state s c w) (length (bufs s)) = c.
Proof. unfold getbuf, alloc_state; cbn [bufs]. apply nth_middle. Qed.

Lemma getbuf_beyond s b : (length (bufs s) <= b)%nat -> getbuf s b = [].
Proof. intros. unfold getbuf. apply nth_overflow; assumption. Qed.

Lemma wf_mem_alloc s c w m : wf_mem s m -> wf_mem (alloc_state s c w) m.
Proof.
  apply wf_mem_mono; [cbn [alloc_state bufs]; rewrite app_length; lia |].
  intros. rewrite getbuf_alloc_old by assumption. reflexivity.
Qed.

Lemma wf_alloc s c w : wf s -> zlen c < BMAX -> wf (alloc_state s c w).
Proof.
  intros (Hh & Hb & Hw) Hc. split; [| split].
  - intros i m Hi. apply wf_mem_alloc, (Hh i m Hi).
  - intros b. destruct (Nat.lt_total b (length (bufs s))) as [L | [-> | L]].
    + rewrite getbuf_alloc_old; auto.
    + rewrite getbuf_alloc_new; auto.
    + rewrite getbuf_beyond; [reflexivity |]. cbn [alloc_state bufs]. rewrite app_length; cbn; lia.
  - intros b Hi. cbn [alloc_state bufs wraps] in *. rewrite app_length; cbn [length].
    destruct w.
    + apply in_app_or in Hi as [Hi | [<- | []]]; [apply Hw in Hi |]; lia.
    + apply Hw in Hi. lia.
Qed.

Lemma Rel_new_buffer ms ss d n dt w c g : Rel ms ss -> zlen c = n ->
  (forall k, 0 <= k < n -> nth (Z.to_nat k) c 0 = g k) ->
  Rel (sethandle (alloc_state ms c w) d (Some (mkMem (length (bufs ms)) 0 n dt))) (new_buffer ss d n dt w g).
Proof.
  intros [R1 R2 R3 R4] Hc Hg.
  assert (EL : length (slens ss) = length (bufs ms)) by (rewrite R1, map_length; reflexivity).
  unfold new_buffer. rewrite EL.
  constructor; cbn [slens smap shs swraps].
  - cbn [sethandle alloc_state bufs]. rewrite map_app, R1. cbn [map]. rewrite Hc. reflexivity.
  - intros b Hb. change (getbuf (sethandle ?s _ _) b) with (getbuf s b).
    cbn [sethandle alloc_state bufs] in Hb. rewrite app_length in Hb; cbn [length] in Hb. unfold upd.
    destruct (Nat.eqb_spec b (length (bufs ms))) as [-> | Hne]; cbn [andb].
    + rewrite getbuf_alloc_new. intros i Hi. rewrite Hc in Hi.
      destruct (Z.leb_spec 0 i); [| lia]. destruct (Z.ltb_spec i (0 + n)); [| lia]. cbn [andb].
      apply Hg; lia.
    + rewrite getbuf_alloc_old by lia. apply R2; lia.
  - cbn [sethandle alloc_state hs]. rewrite map_seth, R3. reflexivity.
  - cbn [sethandle alloc_state wraps]. rewrite R4. reflexivity.
Qed.

Lemma range_cond_within m off c :
  (0 <=? off) && (0 <=? c) && ((off + c) * mdt m <=? msize m) = true -> wfm m ->
  within m (c * mdt m) (off * mdt m).
Proof.
  intros Cond (_ & _ & _ & D & _). pose proof (mul_sign off (mdt m) D). pose proof (mul_sign c (mdt m) D).
  unfold within. lia.
Qed.

Lemma copy_cond_within dst src n doff soff :
  (0 <=? n) && (0 <=? doff) && (0 <=? soff) && (doff * mdt dst + n <=? msize dst) && (soff * mdt src + n <=? msize src) = true ->
  wfm dst -> wfm src ->
  within dst n (doff * mdt dst) /\ within src n (soff * mdt src).
Proof.
  intros Cond (_ & _ & _ & D1 & _) (_ & _ & _ & D2 & _). pose proof (mul_sign doff (mdt dst) D1). pose proof (mul_sign soff (mdt src) D2).
  unfold within. lia.
Qed.

Lemma wf_mem_subview s m m' : wf_mem s m -> subview m m' -> dt_ok (mdt m') -> wf_mem s m'.
Proof.
  intros (H1 & H2 & H3 & H4 & _) (S1 & S2 & S3 & S4) Hdt. unfold wf_mem. rewrite S1. repeat split; try lia; apply Hdt.
Qed.

(* every model state has a specification state: the buffers read as maps *)
Lemma Rel_exists ms : exists ss, Rel ms ss.
Proof.
  exists (mkS (fun b i => nth (Z.to_nat i) (getbuf ms b) 0) (map zlen (bufs ms)) (map (option_map m2v) (hs ms)) (wraps ms)).
  constructor; cbn [slens smap shs swraps]; auto. intros b _ i _. reflexivity.
Qed.

Lemma frontend_uninit s o : uses_uninit s o -> frontend fixed s o = Throw.
Proof.
  intros H. destruct o; cbn [uses_uninit] in H; try contradiction; cbn [frontend].
  all: try (rewrite H; reflexivity).
  (* the two copies between handles: either operand *)
  all: destruct H as [H | H]; rewrite H; [destruct (geth (hs s) b) | destruct (geth (hs s) a)]; reflexivity.
Qed.

Definition good (ms : state) (ss : sstate) (o : op) : Prop :=
  snd (step fixed ms o) = snd (s_step ss o) /\
  Rel (fst (step fixed ms o)) (fst (s_step ss o)) /\
  wf (fst (step fixed ms o)) /\ ~ is_crash (snd (step fixed ms o)).

Lemma step_throw c s o : frontend c s o = Throw -> step c s o = (s, ERR).
Proof. intros E. unfold step. rewrite E. reflexivity. Qed.

Lemma step_ret c s o p r : frontend c s o = Ret p -> exec c s o p = Ret r -> step c s o = r.
Proof. intros E1 E2. unfold step. rewrite E1. cbn [bind]. rewrite E2. reflexivity. Qed.

Definition in_range (s : state) (o : op) : Prop :=
  forall p, frontend fixed s o = Ret p -> plan_in_range (parent_of s o) p.

(* shown of every operation: the step simulates, and what its argument checks accept is in range *)
Definition fine (ms : state) (ss : sstate) (o : op) : Prop := good ms ss o /\ in_range ms o.

(* one step from a well-formed model state related to a specification state *)
Section Step.
Variables (ms : state) (ss : sstate).
Hypotheses (W : wf ms) (R : Rel ms ss).

Lemma fine_intro o p ms' ss' ob :
  frontend fixed ms o = Ret p -> plan_in_range (parent_of ms o) p ->
  exec fixed ms o p = Ret (ms', ob) -> s_step ss o = (ss', ob) -> Rel ms' ss' -> wf ms' -> ~ is_crash ob ->
  fine ms ss o.
Proof.
  intros Ef Hr Ex Es HR Hw Hc. split.
  - unfold good. rewrite (step_ret _ _ _ _ _ Ef Ex), Es. cbn [fst snd]. auto.
  - intros q Eq. rewrite Ef in Eq. injection Eq as <-. exact Hr.
Qed.

Lemma fine_err o : frontend fixed ms o = Throw -> s_step ss o = (ss, ERR) -> fine ms ss o.
Proof.
  intros Ef Es. split.
  - unfold good. rewrite (step_throw _ _ _ Ef), Es. cbn [fst snd]. split; [reflexivity |]. split; [exact R |]. split; [exact W | intros []].
  - intros q Eq. rewrite Ef in Eq. discriminate.
Qed.

Lemma spec_handle i : geth (shs ss) i = option_map m2v (geth (hs ms) i).
Proof. rewrite (R_hs _ _ R). apply geth_map. Qed.

Lemma erange_m2v m off c :
  erange (m2v m) off c =
  if (0 <=? off) && (0 <=? c) && ((off + c) * mdt m <=? msize m) then Some (moff m + off * mdt m, c * mdt m) else None.
Proof. reflexivity. Qed.

Lemma copy_count_m2v m cnt : copy_count (m2v m) cnt = if cnt =? -1 then m_len m else cnt.
Proof. reflexivity. Qed.

Lemma s_slice_m2v m off cnt :
  s_slice (m2v m) off cnt =
  (let c := if cnt =? -1 then m_len m - off else cnt in
   if (0 <=? off) && (0 <=? c) && ((off + c) * mdt m <=? msize m)
   then Some (m2v (mkMem (mbuf m) (moff m + off * mdt m) (c * mdt m) (mdt m))) else None).
Proof.
  unfold s_slice. rewrite erange_m2v. change (slice_count (m2v m) off cnt) with (if cnt =? -1 then m_len m - off else cnt).
  cbv zeta. destruct (_ && _ && _); reflexivity.
Qed.

Lemma spec_uninit o : uses_uninit ms o -> s_step ss o = (ss, ERR).
Proof.
  intros H. destruct o; cbn [uses_uninit] in H; try contradiction; cbn [s_step]; rewrite !(spec_handle _).
  all: try (rewrite H; reflexivity).
  all: destruct H as [H | H]; rewrite H; [| destruct (geth (hs ms) a)]; reflexivity.
Qed.

Lemma fine_uninit o : uses_uninit ms o -> fine ms ss o.
Proof. intros H. apply fine_err; auto; [apply frontend_uninit | apply spec_uninit]; assumption. Qed.

Lemma fine_set o h : frontend fixed ms o = Ret (PSetHandle h) -> plan_in_range (parent_of ms o) (PSetHandle h) ->
  (forall m, h = Some m -> wf_mem ms m) ->
  s_step ss o = (with_handle ss (slot_of o) (option_map m2v h), OK) -> fine ms ss o.
Proof.
  intros Ef Hr Hh Es.
  apply (fine_intro _ _ _ _ _ Ef Hr eq_refl Es); [apply Rel_sethandle | apply wf_sethandle | intros []]; assumption.
Qed.

Lemma fine_view o m m' : parent_of ms o = Some m -> wf_mem ms m -> frontend fixed ms o = Ret (PSetHandle (Some m')) ->
  subview m m' -> dt_ok (mdt m') ->
  s_step ss o = (with_handle ss (slot_of o) (Some (m2v m')), OK) -> fine ms ss o.
Proof.
  intros Ep Hm Ef S Hdt Es. apply (fine_set _ (Some m')); auto.
  - cbn [plan_in_range]. rewrite Ep. exact S.
  - intros x [= <-]. apply (wf_mem_subview ms m); assumption.
Qed.

Lemma fine_OSlice d sidx off cnt : small cnt -> fine ms ss (OSlice d sidx off cnt).
Proof.
  intros Hcnt. destruct (geth (hs ms) sidx) as [m |] eqn:Em; [| apply fine_uninit; assumption].
  destruct (wf_get _ _ _ W Em) as (Hm & Hmm).
  assert (Ef : frontend fixed ms (OSlice d sidx off cnt) = (r <- memory_slice fixed (Some m) off cnt ;; Ret (PSetHandle r)))
    by (cbn [frontend]; rewrite Em; reflexivity).
  assert (Es : s_step ss (OSlice d sidx off cnt) =
               match s_slice (m2v m) off cnt with Some v' => (with_handle ss d (Some v'), OK) | None => (ss, ERR) end)
    by (cbn [s_step]; rewrite (spec_handle sidx), Em; reflexivity).
  rewrite memory_slice_char in Ef by assumption. rewrite s_slice_m2v in Es. cbv zeta in Ef, Es.
  destruct (_ && _ && _) eqn:Cond in Ef, Es; [| apply fine_err; assumption]. cbn [bind] in Ef.
  destruct (range_cond_within m off _ Cond Hmm) as (W1 & W2 & W3).
  apply (fine_view (OSlice d sidx off cnt) m _ Em Hm Ef); [| apply Hm | exact Es].
  unfold subview; cbn [mbuf moff msize]. lia.
Qed.

Lemma fine_OCast d sidx dt : dt_ok dt -> fine ms ss (OCast d sidx dt).
Proof.
  intros Hdt. destruct (geth (hs ms) sidx) as [m |] eqn:Em; [| apply fine_uninit; assumption].
  destruct (wf_get _ _ _ W Em) as (Hm & Hmm). pose proof Hmm as (A1 & A2 & A3 & A4).
  apply (fine_view (OCast d sidx dt) m (mkMem (mbuf m) (moff m) (m_len m * mdt m) dt) Em Hm); [| | exact Hdt |].
  - cbn [frontend]. rewrite Em, memory_cast_char by exact Hmm. reflexivity.
  - destruct (div_bounds (msize m) (mdt m)) as (L0 & L1 & L2); [unfold dt_ok in A4; lia | lia |].
    unfold subview, m_len; cbn [mbuf moff msize]. lia.
  - cbn [s_step]. rewrite (spec_handle sidx), Em. reflexivity.
Qed.

Lemma fine_OAssign d sidx : fine ms ss (OAssign d sidx).
Proof.
  assert (Es : s_step ss (OAssign d sidx) = (with_handle ss d (option_map m2v (geth (hs ms) sidx)), OK))
    by (cbn [s_step]; rewrite (spec_handle sidx); reflexivity).
  destruct (geth (hs ms) sidx) as [m |] eqn:Em.
  - destruct (wf_get _ _ _ W Em) as (Hm & _). apply (fine_view (OAssign d sidx) m m Em Hm); [cbn [frontend]; rewrite Em; reflexivity | | apply Hm | exact Es].
    destruct Hm as (M1 & M2 & M3 & M4 & M5). unfold subview. lia.
  - apply (fine_set _ None); auto; [cbn [frontend]; rewrite Em; reflexivity | exact I | discriminate].
Qed.

Lemma fine_OReset d : fine ms ss (OReset d).
Proof. apply (fine_set _ None); auto; [exact I | discriminate]. Qed.

Lemma fine_OSize a : fine ms ss (OSize a).
Proof.
  apply (fine_intro (OSize a) (PSize (geth (hs ms) a)) ms ss _ eq_refl I eq_refl); [| exact R | exact W | intros []].
  cbn [s_step]. rewrite (spec_handle a). destruct (geth (hs ms) a); reflexivity.
Qed.

Lemma read_all b : (b < length (bufs ms))%nat ->
  read ss b 0 (nth b (slens ss) 0) = getbuf ms b.
Proof.
  destruct R as [R1 R2 _ _]. intros Hb. unfold read. rewrite R1, nth_map_zlen. fold (getbuf ms b).
  pose proof (zlen_nonneg (getbuf ms b)). rewrite <- (rd_map _ _ 0 _ (R2 b Hb)) by lia.
  unfold rd, zlen. rewrite Nat2Z.id. apply firstn_all.
Qed.

Lemma fine_OHostRead k : fine ms ss (OHostRead k).
Proof.
  apply (fine_intro (OHostRead k) (PHostRead k) ms ss _ eq_refl I eq_refl); [| exact R | exact W |].
  - cbn [s_step]. rewrite (R_wr _ _ R). destruct (nth_error (wraps ms) k) as [b |] eqn:E; [| reflexivity].
    rewrite (read_all b); [reflexivity |].
    destruct W as (_ & _ & Hw). apply Hw. eapply nth_error_In; eauto.
  - destruct (nth_error (wraps ms) k); intros [].
Qed.

Lemma write_effect m off data n g :
  wf_mem ms m -> zlen data = n -> within m n off ->
  (forall k, 0 <= k < n -> nth (Z.to_nat k) data 0 = g (moff m + off + k)) ->
  let ms' := setbuf ms (mbuf m) (wr (getbuf ms (mbuf m)) (moff m + off) data) in
  do_write ms m off data = Ret ms' /\ wf ms' /\
  Rel ms' (with_map ss (upd (smap ss) (mbuf m) (moff m + off) n g)).
Proof.
  intros Hm <- Wm Hg. cbv zeta. pose proof Hm as (M1 & M2 & M3 & M4 & M5). pose proof Wm as (W1 & W2 & W3).
  assert (E : zlen (wr (getbuf ms (mbuf m)) (moff m + off) data) = zlen (getbuf ms (mbuf m)))
    by (unfold zlen; rewrite wr_length; auto; lia).
  split; [apply do_write_ok; assumption |]. split; [apply wf_setbuf; assumption |].
  destruct R as [R1 R2 R3 R4]. constructor; cbn [with_map slens smap shs swraps]; auto.
  - rewrite slens_setbuf by assumption. assumption.
  - intros b' Hb'. cbn [setbuf bufs] in Hb'. rewrite setnth_length in Hb'.
    rewrite getbuf_setbuf. unfold upd.
    destruct (Nat.eqb_spec b' (mbuf m)) as [-> |]; cbn [andb]; [| apply R2; assumption].
    rewrite (proj2 (Nat.ltb_lt _ _) M1). apply (Rbuf_wr _ (smap ss (mbuf m))); auto; lia.
Qed.

(* memory::copyTo(ptr) and copyFrom(ptr) share their argument checks: `mk` is the request handed on, `k` what the
   specification does with the accepted range *)
Lemma fine_host o a cnt off (mk : mem -> Z -> Z -> plan) (k : view -> Z -> Z -> sstate * obs) :
  small cnt -> (geth (hs ms) a = None -> uses_uninit ms o) ->
  (forall m, geth (hs ms) a = Some m ->
     frontend fixed ms o = (x <- host_copy_args fixed m cnt off ;; Ret (mk m (fst x) (snd x)))) ->
  (forall v, geth (shs ss) a = Some v ->
     s_step ss o = match erange v off (copy_count v cnt) with Some (lo, n) => k v lo n | None => (ss, ERR) end) ->
  (forall m n off', wf_mem ms m -> within m n off' ->
     frontend fixed ms o = Ret (mk m n off') -> s_step ss o = k (m2v m) (moff m + off') n -> fine ms ss o) ->
  fine ms ss o.
Proof.
  intros Hc Hu Hf Hs K. destruct (geth (hs ms) a) as [m |] eqn:Em; [| apply fine_uninit; auto].
  destruct (wf_get _ _ _ W Em) as (Hm & Hmm). specialize (Hf m eq_refl). specialize (Hs (m2v m)).
  rewrite (spec_handle a), Em in Hs. specialize (Hs eq_refl).
  rewrite host_copy_args_char in Hf by assumption. rewrite erange_m2v, copy_count_m2v in Hs. cbv zeta in Hf.
  destruct (_ && _ && _) eqn:Cond in Hf, Hs; [| apply fine_err; assumption].
  exact (K m _ _ Hm (range_cond_within m off _ Cond Hmm) Hf Hs).
Qed.

Lemma fine_OCopyToH a cnt off : small cnt -> fine ms ss (OCopyToH a cnt off).
Proof.
  intros Hc. apply (fine_host _ a cnt off PRead (fun v lo n => (ss, OKB (read ss (vb v) lo n))) Hc); auto.
  - intros m Em. cbn [frontend]. rewrite Em. reflexivity.
  - intros v Ev. cbn [s_step]. rewrite Ev. reflexivity.
  - intros m n off' Hm Wi Ef Es.
    eapply (fine_intro _ _ ms ss _ Ef Wi); [cbn [exec]; rewrite do_read_ok by assumption; reflexivity | | exact R | exact W | intros []].
    rewrite Es. destruct Hm as (M1 & M2 & M3 & M4 & M5), Wi as (W1 & W2 & W3). cbn [m2v vb].
    unfold read. rewrite (rd_map _ (smap ss (mbuf m))); [reflexivity | apply (R_buf _ _ R); assumption | lia ..].
Qed.

Lemma fine_OCopyFromH a cnt off seed : small cnt -> fine ms ss (OCopyFromH a cnt off seed).
Proof.
  intros Hc. apply (fine_host _ a cnt off PWrite
                      (fun v lo n => (with_map ss (upd (smap ss) (vb v) lo n (fun i => pat seed (i - lo))), OK)) Hc); auto.
  - intros m Em. cbn [frontend]. rewrite Em. reflexivity.
  - intros v Ev. cbn [s_step]. rewrite Ev. reflexivity.
  - intros m n off' Hm Wi Ef Es. cbn [m2v vb] in Es.
    destruct (write_effect m off' (patl seed n) n (fun i => pat seed (i - (moff m + off'))) Hm) as (E1 & W1 & R1);
      [apply zlen_patl, Wi | exact Wi | |].
    + intros j Hj. rewrite nth_patl by lia. f_equal. lia.
    + eapply (fine_intro _ _ _ _ _ Ef Wi); [cbn [exec seed_of]; rewrite E1; reflexivity | exact Es | exact R1 | exact W1 | intros []].
Qed.

Lemma copy_effect dst src n dB sB :
  wf_mem ms dst -> wf_mem ms src -> within dst n dB -> within src n sB ->
  let ms' := setbuf ms (mbuf dst) (wr (getbuf ms (mbuf dst)) (moff dst + dB)
                                      (rd (getbuf ms (mbuf src)) (moff src + sB) n)) in
  do_copy fixed ms dst src n dB sB = Ret ms' /\ wf ms' /\
  Rel ms' (with_map ss (upd (smap ss) (mbuf dst) (moff dst + dB) n
                            (fun i => smap ss (mbuf src) (moff src + sB + (i - (moff dst + dB)))))).
Proof.
  intros Hd Hs Wd Ws ms'. pose proof Hs as (S1 & S2 & S3 & S4 & S5). pose proof Ws as (V1 & V2 & V3).
  set (data := rd (getbuf ms (mbuf src)) (moff src + sB) n) in *.
  assert (Zd : zlen data = n) by (apply zlen_rd; lia).
  split; [apply do_copy_ok; assumption |]. apply (write_effect dst dB data n); auto.
  intros k Hk. unfold data. rewrite (nth_rd_map _ _ _ _ _ (R_buf _ _ R _ S1)) by lia. f_equal. lia.
Qed.

Lemma fine_copy o dst src n dB sB (cond : bool) : wf_mem ms dst -> wf_mem ms src -> parent_of ms o = None ->
  frontend fixed ms o = (if cond then Ret (PCopy dst src n dB sB) else Throw) ->
  (cond = true -> within dst n dB /\ within src n sB) ->
  s_step ss o = (if cond
                 then (with_map ss (upd (smap ss) (mbuf dst) (moff dst + dB) n
                                        (fun i => smap ss (mbuf src) (moff src + sB + (i - (moff dst + dB))))), OK)
                 else (ss, ERR)) ->
  fine ms ss o.
Proof.
  intros Hd Hs Ep Ef Hw Es. destruct cond; [| apply fine_err; assumption].
  destruct (Hw eq_refl) as (Wd & Ws).
  destruct (copy_effect dst src n dB sB Hd Hs Wd Ws) as (E1 & W1 & R1).
  eapply (fine_intro _ _ _ _ _ Ef); [rewrite Ep; split; assumption | | exact Es | exact R1 | exact W1 | intros []].
  cbn [exec]. rewrite E1. reflexivity.
Qed.

Lemma fine_OCopyFromM a b cnt doff soff : small cnt ->
  fine ms ss (OCopyFromM a b cnt doff soff).
Proof.
  intros Hc.
  destruct (geth (hs ms) a) as [m |] eqn:Ea; [| apply fine_uninit; cbn; auto].
  destruct (geth (hs ms) b) as [sm |] eqn:Eb; [| apply fine_uninit; cbn; auto].
  destruct (wf_get _ _ _ W Ea) as (Hm & Hmm). destruct (wf_get _ _ _ W Eb) as (Hsm & Hsmm).
  eapply (fine_copy (OCopyFromM a b cnt doff soff) m sm _ _ _ _ Hm Hsm eq_refl).
  - cbn [frontend]. rewrite Ea, Eb. apply memory_copyFromM_char; assumption.
  - intros Cond. exact (copy_cond_within _ _ _ _ _ Cond Hmm Hsmm).
  - cbn [s_step]. rewrite !(spec_handle _), Ea, Eb. reflexivity.
Qed.

Lemma fine_OCopyToM a b cnt doff soff : small cnt ->
  fine ms ss (OCopyToM a b cnt doff soff).
Proof.
  intros Hc.
  destruct (geth (hs ms) a) as [m |] eqn:Ea; [| apply fine_uninit; cbn; auto].
  destruct (geth (hs ms) b) as [dm |] eqn:Eb; [| apply fine_uninit; cbn; auto].
  destruct (wf_get _ _ _ W Ea) as (Hm & Hmm). destruct (wf_get _ _ _ W Eb) as (Hdm & Hdmm).
  eapply (fine_copy (OCopyToM a b cnt doff soff) dm m _ _ _ _ Hdm Hm eq_refl).
  - cbn [frontend]. rewrite Ea, Eb. apply memory_copyToM_char; assumption.
  - intros Cond. exact (copy_cond_within _ _ _ _ _ Cond Hdmm Hmm).
  - cbn [s_step]. rewrite !(spec_handle _), Ea, Eb. reflexivity.
Qed.

Lemma wf_mem_fresh content w n dt : zlen content = n -> 0 <= n -> dt_ok dt ->
  wf_mem (alloc_state ms content w) (mkMem (length (bufs ms)) 0 n dt).
Proof.
  intros Hc Hn Hdt. unfold wf_mem. cbn [mbuf moff msize mdt]. rewrite getbuf_alloc_new.
  cbn [alloc_state bufs]. rewrite app_length. cbn [length]. repeat split; try lia; apply Hdt.
Qed.

(* `content`: what the new buffer holds once exec is done *)
Lemma fine_alloc o n dt w i content g : 0 <= n < BMAX -> dt_ok dt ->
  frontend fixed ms o = Ret (PAlloc n dt w i) -> plan_in_range (parent_of ms o) (PAlloc n dt w i) ->
  exec fixed ms o (PAlloc n dt w i) =
    Ret (sethandle (alloc_state ms content w) (slot_of o) (Some (mkMem (length (bufs ms)) 0 n dt)), OK) ->
  zlen content = n -> (forall k, 0 <= k < n -> nth (Z.to_nat k) content 0 = g k) ->
  s_step ss o = (new_buffer ss (slot_of o) n dt w g, OK) -> fine ms ss o.
Proof.
  intros Hn Hdt Ef Hr Ex Hc Hg Es.
  apply (fine_intro _ _ _ _ _ Ef Hr Ex Es); [apply Rel_new_buffer; assumption | | intros []].
  apply wf_sethandle; [apply wf_alloc; auto; lia |]. intros m [= <-]. apply wf_mem_fresh; auto; lia.
Qed.

Lemma fine_alloc_undef o n dt : 0 <= n < BMAX -> dt_ok dt ->
  frontend fixed ms o = Ret (PAlloc n dt false INone) ->
  s_step ss o = (new_buffer ss (slot_of o) n dt false (fun _ => undef), OK) -> fine ms ss o.
Proof.
  intros Hn Hdt Ef Es.
  apply (fine_alloc _ _ _ _ _ (repeat undef (Z.to_nat n)) (fun _ => undef) Hn Hdt Ef); [apply Hn | reflexivity | | | exact Es].
  - apply zlen_repeat, Hn.
  - intros k Hk. apply nth_repeat_lt. lia.
Qed.

Lemma fine_alloc_host o n dt w seed : 0 <= n < BMAX -> dt_ok dt ->
  frontend fixed ms o = Ret (PAlloc n dt w (IHost seed)) ->
  s_step ss o = (new_buffer ss (slot_of o) n dt w (pat seed), OK) -> fine ms ss o.
Proof.
  intros Hn Hdt Ef Es.
  apply (fine_alloc _ _ _ _ _ (patl seed n) (pat seed) Hn Hdt Ef); [apply Hn | reflexivity | | | exact Es].
  - apply zlen_patl, Hn.
  - intros k Hk. apply nth_patl. lia.
Qed.

Lemma setbuf_alloc_new s c w c' : setbuf (alloc_state s c w) (length (bufs s)) c' = alloc_state s c' w.
Proof.
  unfold setbuf, alloc_state; cbn [bufs hs wraps]. f_equal.
  induction (bufs s) as [| x l IH]; cbn [app length setnth]; congruence.
Qed.

Lemma exec_alloc o n dt w i :
  exec fixed ms o (PAlloc n dt w i) =
  (let fresh := mkMem (length (bufs ms)) 0 n dt in
   let s1 := alloc_state ms (match i with IHost seed => patl seed n | _ => repeat undef (Z.to_nat n) end) w in
   s2 <- match i with IMem src k doff soff => do_copy fixed s1 fresh src k doff soff | _ => Ret s1 end ;;
   Ret (sethandle s2 (slot_of o) (Some fresh), OK)).
Proof. reflexivity. Qed.

(* malloc with a memory source / clone: the copy overwrites the whole new buffer, so the two backend steps
   amount to allocating a buffer that holds the source's bytes *)
Lemma fine_alloc_copy o n dt src : 0 <= n < BMAX -> dt_ok dt ->
  wf_mem ms src -> n <= msize src ->
  frontend fixed ms o = Ret (PAlloc n dt false (IMem src n 0 0)) ->
  s_step ss o = (new_buffer ss (slot_of o) n dt false (fun i => smap ss (mbuf src) (moff src + i)), OK) -> fine ms ss o.
Proof.
  intros Hn Hdt Hsrc Hle Ef Es. pose proof Hsrc as (S1 & S2 & S3 & S4 & S5).
  set (data := rd (getbuf ms (mbuf src)) (moff src) n).
  assert (Ld : length data = Z.to_nat n) by (apply rd_length; lia).
  apply (fine_alloc _ _ _ _ _ data (fun i => smap ss (mbuf src) (moff src + i)) Hn Hdt Ef); [cbn [plan_in_range]; unfold within; lia | | unfold zlen; lia | | exact Es].
  - rewrite exec_alloc. cbv zeta. rewrite do_copy_ok.
    + cbn [mbuf moff]. rewrite getbuf_alloc_new, getbuf_alloc_old, !Z.add_0_r by assumption.
      rewrite wr_all by (rewrite repeat_length; exact Ld). fold data. rewrite setbuf_alloc_new. reflexivity.
    + apply wf_mem_fresh; [apply zlen_repeat; lia | lia | assumption].
    + apply wf_mem_alloc, Hsrc.
    + unfold within; cbn [msize]; lia.
    + unfold within; lia.
  - intros k Hk. apply (nth_rd_map _ _ _ _ _ (R_buf _ _ R _ S1)); lia.
Qed.

(* device::malloc: zero entries give an uninitialized handle, a count entriesToBytes refuses raises *)
Lemma fine_malloc o n dt fr sr : dt_ok dt ->
  frontend fixed ms o = (if n =? 0 then Ret (PSetHandle None) else if rej n dt then Throw else fr) ->
  s_step ss o = (if n =? 0 then (with_handle ss (slot_of o) None, OK) else if rej n dt then (ss, ERR) else sr) ->
  (0 <= n * dt < BMAX -> frontend fixed ms o = fr -> s_step ss o = sr -> fine ms ss o) ->
  fine ms ss o.
Proof.
  intros Hdt Ef Es K. destruct (n =? 0); [apply (fine_set _ None); auto; [exact I | discriminate] |].
  destruct (rej n dt) eqn:Er; [apply fine_err; assumption |].
  apply K; auto. apply (rej_false n dt Hdt Er).
Qed.

Lemma fine_OMalloc d n dt : dt_ok dt -> fine ms ss (OMalloc d n dt).
Proof.
  intros Hdt.
  eapply (fine_malloc _ n dt); [assumption .. | | reflexivity |].
  - cbn [frontend]. rewrite device_malloc_bytes_char by assumption.
    destruct (n =? 0); [reflexivity |]. destruct (rej n dt); reflexivity.
  - intros Hb Ef Es. apply (fine_alloc_undef _ (n * dt) dt); assumption.
Qed.

Lemma fine_OMallocH d n dt seed uhp : dt_ok dt ->
  fine ms ss (OMallocH d n dt seed uhp).
Proof.
  intros Hdt.
  eapply (fine_malloc _ n dt); [assumption .. | | reflexivity |].
  - cbn [frontend]. rewrite device_malloc_bytes_char by assumption.
    destruct (n =? 0); [reflexivity |]. destruct (rej n dt); reflexivity.
  - intros Hb Ef Es. apply (fine_alloc_host _ (n * dt) dt uhp seed); assumption.
Qed.

Lemma fine_OWrap d n dt seed : dt_ok dt -> fine ms ss (OWrap d n dt seed).
Proof.
  intros Hdt.
  assert (Ef : frontend fixed ms (OWrap d n dt seed) = if rej n dt then Throw else Ret (PAlloc (n * dt) dt true (IHost seed)))
    by (apply device_wrap_char; assumption).
  assert (Es : s_step ss (OWrap d n dt seed) =
               if rej n dt then (ss, ERR) else (new_buffer ss d (n * dt) dt true (pat seed), OK)) by reflexivity.
  destruct (rej n dt) eqn:Er; [apply fine_err; assumption |].
  apply (fine_alloc_host _ (n * dt) dt true seed); auto. apply (rej_false n dt Hdt Er).
Qed.

Lemma fine_OMallocM d n dt sidx : dt_ok dt -> fine ms ss (OMallocM d n dt sidx).
Proof.
  intros Hdt.
  eapply (fine_malloc _ n dt); [assumption .. | | |].
  - cbn [frontend]. apply device_mallocM_char; [assumption |]. intros sm E. apply (wf_get _ _ _ W E).
  - cbn [s_step]. rewrite (spec_handle sidx). reflexivity.
  - intros Hb. destruct (geth (hs ms) sidx) as [sm |] eqn:Esm; cbn [option_map m2v vlen vb vlo].
    + destruct (Z.leb_spec (n * dt) (msize sm)); [| apply fine_err; assumption].
      apply (fine_alloc_copy (OMallocM d n dt sidx) (n * dt) dt sm); auto. apply (wf_get _ _ _ W Esm).
    + apply (fine_alloc_undef (OMallocM d n dt sidx) (n * dt) dt); assumption.
Qed.

Lemma fine_OClone d sidx : fine ms ss (OClone d sidx).
Proof.
  destruct (geth (hs ms) sidx) as [m |] eqn:Em; [| apply fine_uninit; assumption].
  destruct (wf_get _ _ _ W Em) as (Hm & Hmm).
  assert (Ef : frontend fixed ms (OClone d sidx) =
               if msize m =? 0 then Throw else Ret (PAlloc (msize m) (mdt m) false (IMem m (msize m) 0 0)))
    by (cbn [frontend]; rewrite Em; apply memory_clone_char; assumption).
  assert (Es : s_step ss (OClone d sidx) =
               if msize m =? 0 then (ss, ERR)
               else (new_buffer ss d (msize m) (mdt m) false (fun i => smap ss (mbuf m) (moff m + i)), OK))
    by (cbn [s_step]; rewrite (spec_handle sidx), Em; reflexivity).
  destruct (msize m =? 0); [apply fine_err; assumption |].
  destruct Hmm as (A1 & A2 & A3 & A4). apply (fine_alloc_copy _ (msize m) (mdt m) m); auto; lia.
Qed.

(* of op_ok only `small` of a count and `dt_ok` are used: entriesToBytes refuses entries and offsets
   before anything is converted *)
Theorem step_fine o : op_ok o -> fine ms ss o.
Proof.
  intros Hok. destruct o; cbn [op_ok] in Hok.
  - apply fine_OMalloc; tauto.
  - apply fine_OMallocH; tauto.
  - apply fine_OMallocM; tauto.
  - apply fine_OWrap; tauto.
  - apply fine_OSlice; tauto.
  - apply fine_OCast; tauto.
  - apply fine_OClone; tauto.
  - apply fine_OCopyFromH; tauto.
  - apply fine_OCopyToH; tauto.
  - apply fine_OCopyFromM; tauto.
  - apply fine_OCopyToM; tauto.
  - apply fine_OAssign; tauto.
  - apply fine_OReset; tauto.
  - apply fine_OSize; tauto.
  - apply fine_OHostRead; tauto.
Qed.

End Step.

Theorem step_good ms ss o : wf ms -> Rel ms ss -> op_ok o -> good ms ss o.
Proof. intros W R Hok. apply (step_fine ms ss W R o Hok). Qed.

(* in_range is proved together with the simulation step, so a specification state is conjured to ask for it *)
Theorem frontend_in_range s o p : wf s -> op_ok o -> frontend fixed s o = Ret p ->
  plan_in_range (parent_of s o) p.
Proof. intros W Hok. destruct (Rel_exists s) as [ss R]. apply (step_fine s ss W R o Hok). Qed.

Theorem in_range_in_buffer s m bytes off : wf_mem s m -> within m bytes off ->
  0 <= moff m + off /\ moff m + off + bytes <= zlen (getbuf s (mbuf m)).
Proof. intros (H1 & H2 & H3 & H4 & H5) (W1 & W2 & W3). lia. Qed.

Lemma wf_init : wf init.
Proof.
  split; [| split].
  - intros i m H. unfold init, geth in H. cbn [hs] in H. rewrite nth_repeat in H. discriminate.
  - intros b. unfold getbuf, init; cbn. destruct b; reflexivity.
  - intros b [].
Qed.

Lemma Rel_init : Rel init sinit.
Proof.
  constructor; cbn; auto.
  intros b Hb. lia.
Qed.

Lemma run_refines_gen h : forall ms ss, wf ms -> Rel ms ss -> ops_ok h ->
  run fixed ms h = s_run ss h /\ Forall (fun ob => ~ is_crash ob) (run fixed ms h) /\ wf (final fixed ms h).
Proof.
  induction h as [| o h IH]; intros ms ss Hwf HR Hok; cbn [run s_run final].
  - split; [reflexivity | split; [constructor | assumption]].
  - inversion Hok as [| ? ? Ho Hh]; subst.
    destruct (step_good ms ss o Hwf HR Ho) as (E & R' & W' & NC).
    destruct (IH _ _ W' R' Hh) as (E2 & F2 & W2).
    split; [rewrite E, E2; reflexivity | split; [constructor |]; assumption].
Qed.

Lemma wf_final h : ops_ok h -> wf (final fixed init h).
Proof. intros Hh. apply (run_refines_gen h init sinit wf_init Rel_init Hh). Qed.

Lemma exec_not_err c s o p s' ob : exec c s o p = Ret (s', ob) -> ob <> ERR.
Proof.
  destruct p; cbn [exec]; intros E.
  - inversion E; subst. destruct o; discriminate.
  - inversion E; discriminate.
  - destruct (do_read s m bytes off); cbn [bind] in E; inversion E; discriminate.
  - destruct (do_write s m off _); cbn [bind] in E; inversion E; discriminate.
  - destruct (do_copy c s dst src bytes doff soff); cbn [bind] in E; inversion E; discriminate.
  - match type of E with (bind ?x _) = _ => destruct x end; cbn [bind] in E; inversion E; discriminate.
  - inversion E; discriminate.
  - inversion E; subst. destruct (nth_error (wraps s') k); discriminate.
Qed.

Lemma step_err_unchanged c s o s' : step c s o = (s', ERR) -> s' = s.
Proof.
  unfold step. destruct (frontend c s o) as [p | | k]; cbn [bind].
  - destruct (exec c s o p) as [[s'' ob] | | k] eqn:E; intros H; inversion H; subst; auto.
    exfalso. eapply exec_not_err; eauto.
  - intros H; inversion H; reflexivity.
  - intros H; inversion H.
Qed.

Definition dt_okb (dt : Z) : bool := (1 <=? dt) && (dt <=? DTMAX).

Definition op_okb (o : op) : bool :=
  match o with
  | OMalloc _ n dt | OMallocH _ n dt _ _ | OMallocM _ n dt _ | OWrap _ n dt _ => in64 n && dt_okb dt
  | OSlice _ _ x y | OCopyFromH _ x y _ | OCopyToH _ x y => in64 x && in64 y
  | OCast _ _ dt => dt_okb dt
  | OCopyFromM _ _ x y z | OCopyToM _ _ x y z => in64 x && (in64 y && in64 z)
  | OClone _ _ | OAssign _ _ | OReset _ | OSize _ | OHostRead _ => true
  end.

Lemma ops_okb_ok h : forallb op_okb h = true -> ops_ok h.
Proof.
  intros H. apply Forall_forall. intros o Ho. rewrite forallb_forall in H. specialize (H o Ho).
  destruct o; cbn [op_okb op_ok] in *; unfold in64, dt_okb, small, dt_ok in *; lia.
Qed.
