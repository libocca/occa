(* C02 — C integer arithmetic for dim_t arguments and positive dtype sizes; what the argument checks of
   memory.cpp / device.cpp accept: with C02-7 each is a chain of `check`s, walked once per `*_char` lemma. *)
From Coq Require Import List ZArith Bool Lia ZifyBool.
From OV.C02 Require Import Base Model Spec Statements.
Import ListNotations.
Local Open Scope Z_scope.

Lemma two64_eq : two64 = 2 * two63. Proof. reflexivity. Qed.
Lemma two63_pos : 0 < two63. Proof. reflexivity. Qed.

Lemma in64_true x : - two63 <= x < two63 -> in64 x = true.
Proof. intros; unfold in64; apply andb_true_intro; split; [apply Z.leb_le | apply Z.ltb_lt]; lia. Qed.

Lemma toU_id x : 0 <= x < two64 -> toU x = x.
Proof. intros; unfold toU; apply Z.mod_small; lia. Qed.

Lemma toU_toU x : toU (toU x) = toU x.
Proof. unfold toU; apply Z.mod_mod; discriminate. Qed.

Lemma toS_mod x : toS (x mod two64) = toS x.
Proof. unfold toS; rewrite Z.mod_mod by discriminate; reflexivity. Qed.

Lemma toS_id x : - two63 <= x < two63 -> toS x = x.
Proof.
  intros H; unfold toS.
  destruct (Z_lt_le_dec x 0) as [Hn | Hp].
  - assert (E : x mod two64 = x + two64).
    { symmetry; apply Z.mod_unique with (q := -1); rewrite two64_eq in *; lia. }
    rewrite E. destruct (Z.ltb_spec (x + two64) two63); rewrite two64_eq in *; lia.
  - rewrite Z.mod_small by (rewrite two64_eq; lia).
    destruct (Z.ltb_spec x two63); lia.
Qed.

Lemma umul_eq a b : umul a b = (a * b) mod two64.
Proof. unfold umul, toU; rewrite <- Z.mul_mod by discriminate; reflexivity. Qed.

Lemma umul_toU_r a b : umul a (toU b) = umul a b.
Proof. unfold umul; rewrite toU_toU; reflexivity. Qed.

Lemma toS_umul a b : - two63 <= a * b < two63 -> toS (umul a b) = a * b.
Proof. intros; rewrite umul_eq, toS_mod; apply toS_id; assumption. Qed.

Lemma smul_ret a b : - two63 <= a * b < two63 -> smul a b = Ret (a * b).
Proof. intros; unfold smul; rewrite in64_true; auto. Qed.

Lemma sadd_ret a b : - two63 <= a + b < two63 -> sadd a b = Ret (a + b).
Proof. intros; unfold sadd; rewrite in64_true; auto. Qed.

Lemma le_div_iff a m d : 0 < d -> (a <=? m / d) = (a * d <=? m).
Proof.
  intros Hd. apply eq_true_iff_eq. rewrite !Z.leb_le. split; intros H.
  - pose proof (Z.mul_div_le m d Hd). nia.
  - apply Z.div_le_lower_bound; lia.
Qed.

Lemma div_bounds m d : 0 < d -> 0 <= m -> 0 <= m / d /\ 0 <= d * (m / d) <= m /\ m / d <= m.
Proof.
  intros Hd Hm. pose proof (Z.mul_div_le m d Hd). assert (0 <= m / d) by (apply Z.div_pos; lia).
  repeat split; auto; nia.
Qed.

Lemma limits : BMAX = max_bytes + 1 /\ 0 < max_bytes /\ 2 * max_bytes < two63 /\ two64 = 2 * two63.
Proof. repeat split. Qed.

(* Statements.wf_mem without the state: the buffer's bound BMAX stands in for its length *)
Definition wfm (m : mem) : Prop :=
  0 <= moff m /\ 0 <= msize m /\ moff m + msize m < BMAX /\ dt_ok (mdt m).

Lemma toS_toU x : small x -> toS (toU x) = x.
Proof. intros. unfold toU. rewrite toS_mod. apply toS_id; assumption. Qed.

(* absorbs the head check into the conjunction that the right-hand side tests once *)
Lemma check_step {A} c c' (k : res A) v :
  (c = true -> k = (_ <- check c' ;; Ret v)) -> (_ <- check c ;; k) = (_ <- check (c && c') ;; Ret v).
Proof. destruct c; cbn; auto. Qed.

Lemma check_ret {A} c (v : A) : (_ <- check c ;; Ret v) = if c then Ret v else Throw.
Proof. destruct c; reflexivity. Qed.

Lemma check_true {A} c (k : res A) : c = true -> (_ <- check c ;; k) = k.
Proof. intros ->; reflexivity. Qed.

(* what occa::entriesToBytes accepts *)
Definition fits (e dt : Z) : bool := (0 <=? e) && (e * dt <=? max_bytes).

Lemma mul_sign c d : 1 <= d -> (0 <= c * d <-> 0 <= c).
Proof. nia. Qed.

Lemma fits_spec e dt : 1 <= dt -> fits e dt = true -> 0 <= e <= e * dt /\ e * dt <= max_bytes.
Proof. unfold fits. rewrite andb_true_iff, !Z.leb_le. nia. Qed.

Lemma e2b_check e dt : 1 <= dt -> entries_to_bytes e dt = (_ <- check (fits e dt) ;; Ret (e * dt)).
Proof.
  intros Hdt. unfold entries_to_bytes, fits.
  destruct (Z.leb_spec 0 e) as [He | He]; cbn [andb check bind]; [| reflexivity].
  destruct (Z.leb_spec dt 0); [lia |]. cbn [orb]. rewrite le_div_iff by lia.
  destruct (Z.leb_spec (e * dt) max_bytes); cbn [check bind]; [| reflexivity].
  apply smul_ret. pose proof limits. nia.
Qed.

Lemma e2b_bind {B} e dt (k : Z -> res B) : 1 <= dt ->
  (x <- entries_to_bytes e dt ;; k x) = (_ <- check (fits e dt) ;; k (e * dt)).
Proof. intros. rewrite e2b_check by assumption. destruct (fits e dt); reflexivity. Qed.

Lemma e2b_step {B} e dt (k : Z -> res B) c' v : 1 <= dt ->
  (0 <= e <= e * dt /\ e * dt <= max_bytes -> k (e * dt) = (_ <- check c' ;; Ret v)) ->
  (x <- entries_to_bytes e dt ;; k x) = (_ <- check (fits e dt && c') ;; Ret v).
Proof. intros Hdt H. rewrite e2b_bind by assumption. apply check_step. intros F. apply H, fits_spec, F. assumption. Qed.

Lemma copy_elems m cnt : wfm m -> small cnt ->
  toS (if cnt =? -1 then m_len m else toU cnt) = (if cnt =? -1 then m_len m else cnt).
Proof.
  intros (Ho & Hs & Hb & Hdt) Hc. unfold m_len.
  destruct (div_bounds (msize m) (mdt m)) as (L0 & L1 & L2); [unfold dt_ok in Hdt; lia | lia |].
  pose proof limits. destruct (cnt =? -1); [apply toS_id; lia | apply toS_toU; assumption].
Qed.

Lemma range_cond off c dt size : 1 <= dt -> size <= max_bytes ->
  fits c dt && (fits off dt && (c * dt + off * dt <=? size)) = (0 <=? off) && (0 <=? c) && ((off + c) * dt <=? size).
Proof.
  intros Hdt Hs. unfold fits. pose proof (mul_sign c dt Hdt). pose proof (mul_sign off dt Hdt). lia.
Qed.

Lemma host_copy_args_char m cnt off : wfm m -> small cnt ->
  host_copy_args fixed m cnt off =
  (let c := if cnt =? -1 then m_len m else cnt in
   if (0 <=? off) && (0 <=? c) && ((off + c) * mdt m <=? msize m)
   then Ret (c * mdt m, off * mdt m) else Throw).
Proof.
  intros Hm Hc. pose proof Hm as (Ho & Hs & Hb & Hdt & _). pose proof limits as L.
  cbv zeta. rewrite <- check_ret, <- range_cond by lia.
  unfold host_copy_args, bytes_of, offset_of. cbn [fixed fx_ovf].
  rewrite (copy_elems m cnt Hm Hc). cbv zeta.
  set (c := if cnt =? -1 then m_len m else cnt).
  apply e2b_step; [lia | intros F1].
  apply e2b_step; [lia | intros F2].
  rewrite 2 check_true by (apply Z.leb_le; lia).
  rewrite sadd_ret by lia. cbn [bind]. rewrite !toU_id by lia. reflexivity.
Qed.

Lemma slice_cond off cnt dt size : 1 <= dt -> 0 <= size <= max_bytes ->
  let c := if cnt =? -1 then size / dt - off else cnt in
  (0 <=? off) && (fits off dt && (fits c dt && (off + cnt <=? size / dt))) =
  (0 <=? off) && (0 <=? c) && ((off + c) * dt <=? size).
Proof.
  intros Hdt Hs c. rewrite le_div_iff by lia.
  destruct (div_bounds size dt) as (Q0 & Q1 & _); [lia .. |].
  unfold fits. subst c. destruct (Z.eqb_spec cnt (-1)) as [-> |]; nia.
Qed.

Lemma memory_slice_char m off cnt : wfm m -> small cnt ->
  memory_slice fixed (Some m) off cnt =
  (let c := if cnt =? -1 then m_len m - off else cnt in
   if (0 <=? off) && (0 <=? c) && ((off + c) * mdt m <=? msize m)
   then Ret (Some (mkMem (mbuf m) (moff m + off * mdt m) (c * mdt m) (mdt m))) else Throw).
Proof.
  intros Hm Hc. pose proof Hm as (Ho & Hs & Hb & Hdt & _). pose proof limits as L.
  cbv zeta. unfold m_len. rewrite <- check_ret, <- slice_cond by lia. cbv zeta.
  unfold memory_slice, bytes_of, offset_of, m_len. cbn [fixed fx_negoff fx_ovf negb orb].
  destruct (div_bounds (msize m) (mdt m)) as (Q0 & Q1 & Q2); [lia .. |].
  set (c := if cnt =? -1 then msize m / mdt m - off else cnt).
  apply check_step; intros O0%Z.leb_le.
  apply e2b_step; [lia | intros F1].
  assert (Ee : toS (if cnt =? -1 then toU (msize m / mdt m - off) else toU cnt) = c).
  { subst c. unfold small in *. destruct (cnt =? -1); apply toS_toU; unfold small; lia. }
  rewrite Ee.
  apply e2b_step; [lia | intros F2].
  rewrite check_true by (apply Z.leb_le; lia).
  rewrite sadd_ret by (subst c; unfold small in *; destruct (Z.eqb_spec cnt (-1)); lia). cbn [bind].
  rewrite toS_id by lia.
  unfold mm_slice. rewrite sadd_ret by lia. cbn [bind].
  rewrite (check_true (0 <=? _)) by (apply Z.leb_le; lia). rewrite toU_id by lia. reflexivity.
Qed.

(* copyFrom(memory) and copyTo(memory) are one chain: bdt scales the count, ddt and sdt the offsets *)
Lemma copy_checks {A} bdt ddt sdt dsz ssz c doff soff (P : Z -> Z -> Z -> A) :
  1 <= bdt -> 1 <= ddt -> 1 <= sdt -> dsz <= max_bytes -> ssz <= max_bytes ->
  (bytes <- entries_to_bytes c bdt ;; dO <- entries_to_bytes doff ddt ;; sO <- entries_to_bytes soff sdt ;;
   _ <- check (-1 <=? bytes) ;; _ <- check (0 <=? dO) ;; _ <- check (0 <=? sO) ;;
   t1 <- sadd bytes sO ;; _ <- check (toU t1 <=? ssz) ;;
   t2 <- sadd bytes dO ;; _ <- check (toU t2 <=? dsz) ;;
   Ret (P (toU bytes) (toU dO) (toU sO))) =
  (let n := c * bdt in
   if (0 <=? n) && (0 <=? doff) && (0 <=? soff) && (doff * ddt + n <=? dsz) && (soff * sdt + n <=? ssz)
   then Ret (P n (doff * ddt) (soff * sdt)) else Throw).
Proof.
  intros Hb Hd Hs Hdz Hsz. pose proof limits as L. cbv zeta. rewrite <- check_ret.
  replace (_ && _ && _ && _ && _) with
    (fits c bdt && (fits doff ddt && (fits soff sdt && ((c * bdt + soff * sdt <=? ssz) && (c * bdt + doff * ddt <=? dsz))))).
  2:{ unfold fits. pose proof (mul_sign c bdt Hb). pose proof (mul_sign doff ddt Hd). pose proof (mul_sign soff sdt Hs). lia. }
  apply e2b_step; [lia | intros F1].
  apply e2b_step; [lia | intros F2].
  apply e2b_step; [lia | intros F3].
  rewrite 3 check_true by (apply Z.leb_le; lia).
  rewrite sadd_ret by lia. cbn [bind]. rewrite toU_id by lia. apply check_step; intros _.
  rewrite sadd_ret by lia. cbn [bind]. rewrite !toU_id by lia. reflexivity.
Qed.

Lemma memory_copyFromM_char m sm cnt doff soff : wfm m -> wfm sm -> small cnt ->
  memory_copyFromM fixed (Some m) (Some sm) cnt doff soff =
  (let n := (if cnt =? -1 then m_len m else cnt) * mdt m in
   if (0 <=? n) && (0 <=? doff) && (0 <=? soff) && (doff * mdt m + n <=? msize m) && (soff * mdt sm + n <=? msize sm)
   then Ret (PCopy m sm n (doff * mdt m) (soff * mdt sm)) else Throw).
Proof.
  intros Hm Hsm Hc. pose proof Hm as (Ho & _ & Hb & Hdt & _). pose proof Hsm as (Ho' & _ & Hb' & Hdt' & _).
  pose proof limits as L.
  unfold memory_copyFromM, bytes_of, offset_of. cbn [fixed fx_other fx_ovf negb orb deref_dt deref_size].
  rewrite check_true by reflexivity. cbn [bind]. rewrite (copy_elems m cnt Hm Hc).
  apply (copy_checks _ _ _ _ _ _ _ _ (PCopy m sm)); lia.
Qed.

Lemma memory_copyToM_char m dm cnt doff soff : wfm m -> wfm dm -> small cnt ->
  memory_copyToM fixed (Some m) (Some dm) cnt doff soff =
  (let n := (if cnt =? -1 then m_len m else cnt) * mdt m in
   if (0 <=? n) && (0 <=? doff) && (0 <=? soff) && (doff * mdt dm + n <=? msize dm) && (soff * mdt m + n <=? msize m)
   then Ret (PCopy dm m n (doff * mdt dm) (soff * mdt m)) else Throw).
Proof.
  intros Hm Hdm Hc. pose proof Hm as (Ho & _ & Hb & Hdt & _). pose proof Hdm as (Ho' & _ & Hb' & Hdt' & _).
  pose proof limits as L.
  unfold memory_copyToM, bytes_of, offset_of. cbn [fixed fx_other fx_ovf negb orb deref_dt deref_size].
  rewrite check_true by reflexivity. cbn [bind]. rewrite (copy_elems m cnt Hm Hc).
  apply (copy_checks _ _ _ _ _ _ _ _ (PCopy dm m)); lia.
Qed.

(* what device::malloc and wrapMemory refuse; convertible with the test of Spec.s_step, alloc_limit being max_bytes *)
Definition rej (n dt : Z) : bool := (n <? 0) || (max_bytes <? n * dt).

Lemma fits_rej n dt : fits n dt = negb (rej n dt).
Proof. unfold fits, rej. lia. Qed.

Lemma rej_false n dt : dt_ok dt -> rej n dt = false -> 0 <= n /\ 0 <= n * dt < BMAX.
Proof.
  intros (Hdt & _) E. assert (F : fits n dt = true) by (rewrite fits_rej, E; reflexivity).
  apply fits_spec in F; [| assumption]. pose proof limits. lia.
Qed.

Lemma e2b_char n dt : 1 <= dt -> entries_to_bytes n dt = if rej n dt then Throw else Ret (n * dt).
Proof. intros. rewrite e2b_check, check_ret, fits_rej by assumption. destruct (rej n dt); reflexivity. Qed.

Lemma e2b_nonneg {B} n dt (k : Z -> res B) : dt_ok dt ->
  (b <- entries_to_bytes n dt ;; _ <- check (0 <=? b) ;; k b) = if rej n dt then Throw else k (n * dt).
Proof.
  intros Hdt. rewrite e2b_char by apply Hdt. destruct (rej n dt) eqn:E; cbn [bind]; [reflexivity |].
  apply check_true, Z.leb_le, (rej_false n dt Hdt E).
Qed.

Lemma device_malloc_bytes_char n dt : dt_ok dt ->
  device_malloc_bytes fixed n dt =
  if n =? 0 then Ret None else if rej n dt then Throw else Ret (Some (n * dt)).
Proof.
  intros Hdt. unfold device_malloc_bytes. cbn [fixed fx_ovf].
  destruct (n =? 0); [reflexivity | apply e2b_nonneg, Hdt].
Qed.

Lemma device_wrap_char n dt seed : dt_ok dt ->
  device_wrap fixed n dt seed = if rej n dt then Throw else Ret (PAlloc (n * dt) dt true (IHost seed)).
Proof. intros Hdt. unfold device_wrap. cbn [fixed fx_ovf]. apply e2b_nonneg, Hdt. Qed.

Lemma memory_cast_char m dt : wfm m ->
  memory_cast fixed (Some m) dt = Ret (Some (mkMem (mbuf m) (moff m) (m_len m * mdt m) dt)).
Proof.
  intros Hm. pose proof Hm as (Ho & Hs & Hb & Hdt & _). pose proof limits.
  unfold memory_cast. rewrite memory_slice_char by (assumption || (unfold small; lia)).
  cbv zeta. change (-1 =? -1) with true. cbv iota. rewrite Z.sub_0_r, Z.add_0_l, Z.mul_0_l, Z.add_0_r.
  destruct (div_bounds (msize m) (mdt m)) as (Q0 & Q1 & _); [lia .. |]. fold (m_len m) in Q0, Q1.
  rewrite (proj2 (Z.leb_le 0 (m_len m))), (proj2 (Z.leb_le (m_len m * mdt m) _)) by lia. reflexivity.
Qed.

Lemma device_mallocM_char b n dt src fdt : dt_ok dt ->
  (forall sm, src = Some sm -> wfm sm) ->
  device_mallocM fixed b n dt src fdt =
  if n =? 0 then Ret (PSetHandle None) else if rej n dt then Throw else
  match src with
  | None => Ret (PAlloc (n * dt) fdt false INone)
  | Some sm => if n * dt <=? msize sm then Ret (PAlloc (n * dt) fdt false (IMem sm (n * dt) 0 0)) else Throw
  end.
Proof.
  intros Hdt Hsrc. unfold device_mallocM. rewrite device_malloc_bytes_char by assumption.
  destruct (n =? 0); [reflexivity |].
  destruct (rej n dt) eqn:E; [reflexivity |]. cbn [bind].
  destruct (rej_false n dt Hdt E) as (Hn & Hb). pose proof limits.
  destruct src as [sm |]; [| reflexivity]. cbn [fixed fx_src].
  rewrite memory_copyFromM_char; [| repeat split; cbn [moff msize mdt]; try lia; apply Hdt | auto | unfold small; lia].
  cbv zeta. change (-1 =? -1) with true. cbv iota.
  unfold m_len. cbn [msize mdt]. rewrite Z_div_mult by (destruct Hdt; lia).
  rewrite !Z.mul_0_l, !Z.add_0_l, !Z.leb_refl, (proj2 (Z.leb_le 0 (n * dt))) by lia. cbn [andb].
  destruct (n * dt <=? msize sm); reflexivity.
Qed.

Lemma memory_clone_char b m : wfm m ->
  memory_clone fixed b (Some m) =
  if msize m =? 0 then Throw else Ret (PAlloc (msize m) (mdt m) false (IMem m (msize m) 0 0)).
Proof.
  intros Hm. pose proof Hm as (Ho & Hs & Hb & Hdt). pose proof limits. unfold memory_clone.
  rewrite device_mallocM_char; [| unfold dt_ok, DTMAX; lia | intros sm [= <-]; assumption].
  rewrite Z.mul_1_r, Z.leb_refl. destruct (msize m =? 0); [reflexivity |].
  replace (rej (msize m) 1) with false; [reflexivity |].
  symmetry. unfold rej. rewrite Z.mul_1_r. apply orb_false_iff; split; apply Z.ltb_ge; lia.
Qed.
